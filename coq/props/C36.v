(* C36 — Printed statements reparse to the same statement.
   The printed text is one of the layouts whose parse C03 gives.  Unbounded: any number
   of labels, any label names, any string length below the lexer's limit.
   [in_parser_image s]: registers 0..7, immediates/offsets inside their fields, BR condition codes
   1..7, label names that lex as labels (identifier rule, not a keyword, not register- or
   hex-like), string literals shorter than 65535 bytes — an upper bound of what `parse_ast` returns
   (C36_parser_image).
   [printable_strings s]: the string literal only uses printable ASCII, TAB, LF, CR, NUL.
   [shape_stmt] forgets source positions (label offsets and the statement span). *)
From Coq Require Import ZArith List Bool String.
From Model Require Import Tree Text Instr AsmAst Lexer Parser Print.
From Proofs Require Import LexerProofs ParserProofs PiecesProofs PrintParseProofs ImageProofs.
From Proofs Require PrintLayoutProofs.
Import ListNotations.
Open Scope Z_scope.

Theorem C36_roundtrip : forall s, in_parser_image s = true -> printable_strings s = true ->
  exists s', parse_ast (print_stmt s) = POk [s'] /\ shape_stmt s' = shape_stmt s.
Proof.
  intros s Hi Hp. destruct (PrintLayoutProofs.print_parse_program [s]) as (l' & Hl & Hsh); [constructor; [split; assumption|constructor]|].
  cbn [print_program map] in Hl, Hsh. rewrite app_nil_r in Hl.
  destruct l' as [|s' [|? ?]]; try discriminate Hsh. exists s'. split; [exact Hl|]. cbn [map] in Hsh. congruence.
Qed.
Print Assumptions C36_roundtrip.

(* the parser only produces statements of its image: [in_parser_image] is not an extra assumption *)
Theorem C36_parser_image : forall t l, parse_ast t = POk l -> forallb in_parser_image l = true.
Proof.
  intros t l H. assert (Hp : res_ok (byte_len t) (Forall (stmt_from tok_wf)) (parse_ast t)).
  { apply (parse_ast_post tok_wf true); [apply lex_no_panic|]. intros toks Hlex. pose proof (lex_at_wf true t 0) as Hw.
    rewrite lex_with_at in Hlex. rewrite Hlex in Hw. exact Hw. }
  rewrite H in Hp. cbn [res_ok] in Hp. rewrite Forall_forall in Hp.
  apply forallb_forall. intros x Hx. apply stmt_from_image, Hp, Hx.
Qed.
Print Assumptions C36_parser_image.

(* the property as stated: any statement the parser produced, printed and parsed again *)
Theorem C36_roundtrip_parsed : forall t l s, parse_ast t = POk l -> In s l -> printable_strings s = true ->
  exists s', parse_ast (print_stmt s) = POk [s'] /\ shape_stmt s' = shape_stmt s.
Proof.
  intros t l s Hp Hin Hs. apply C36_roundtrip; [|exact Hs].
  pose proof (C36_parser_image t l Hp) as H. rewrite forallb_forall in H. apply H. exact Hin.
Qed.
Print Assumptions C36_roundtrip_parsed.

Theorem C36_printed_tokens : forall s, in_parser_image s = true -> printable_strings s = true ->
  lex (print_stmt s) = LexOk (toks_of 0 (stmt_pieces s)).
Proof.
  intros s H1 H2. rewrite print_stmt_pieces. apply lex_pieces, stmt_pieces_ok; assumption.
Qed.
Print Assumptions C36_printed_tokens.

Theorem C36_string_escape : forall v rest, forallb alpha_char v = true ->
  scan_str true (flat_map esc_debug v ++ 34 :: rest) = ScClosed v (byte_len (flat_map esc_debug v) + 1) rest.
Proof. exact scan_escaped. Qed.
Print Assumptions C36_string_escape.

(* hypotheses are satisfiable; a statement outside the alphabet does not round-trip *)
Example C36_ex :
  let s := mkStmt [mkLabel (zs "LOOP") 7; mkLabel (zs "x_1") 0] (NInstr (AADD 1 2 (Imm (-16)))) 3 9 in
  in_parser_image s = true /\ printable_strings s = true /\ print_stmt s = zs "LOOP x_1 ADD R1, R2, #-16" /\
  parse_ast (print_stmt s) = POk [mkStmt [mkLabel (zs "LOOP") 0; mkLabel (zs "x_1") 5] (NInstr (AADD 1 2 (Imm (-16)))) 9 25].
Proof. vm_compute. repeat split. Qed.
Example C36_ex_string :
  let s := mkStmt [] (NDir (DStringz [34; 92; 10; 0; 97])) 0 0 in
  in_parser_image s = true /\ printable_strings s = true /\
  print_stmt s = zs ".stringz ""\""\\\n\0a""" /\
  parse_ast (print_stmt s) = POk [mkStmt [] (NDir (DStringz [34; 92; 10; 0; 97])) 0 20].
Proof. vm_compute. repeat split. Qed.
Example C36_ex_outside :
  let s := mkStmt [] (NDir (DStringz [127])) 0 0 in
  printable_strings s = false /\ parse_ast (print_stmt s) = POk [mkStmt [] (NDir (DStringz (zs "\u{7f}"))) 0 17].
Proof. vm_compute. repeat split. Qed.
Example C36_ex_not_image :
  in_parser_image (mkStmt [mkLabel (zs "ADD") 0] (NInstr ARET) 0 0) = false /\
  in_parser_image (mkStmt [mkLabel (zs "R7") 0] (NInstr ARET) 0 0) = false /\
  in_parser_image (mkStmt [mkLabel (zs "xA") 0] (NInstr ARET) 0 0) = false /\
  in_parser_image (mkStmt [] (NInstr (AADD 8 0 (Imm 0))) 0 0) = false /\
  in_parser_image (mkStmt [] (NInstr (ABR 0 (POff 0))) 0 0) = false.
Proof. vm_compute. repeat split. Qed.
