(* C06 — Instruction decoding is the exact inverse of encoding.
   Read off [decode_iff] and [classify_dec] of proofs/InstrProofs.v; [classify] is the ISA format table of
   spec/IsaEncoding.v, written independently of the decoder. *)
From Coq Require Import ZArith Bool.
From Model Require Import Bits Instr.
From Spec Require Import IsaEncoding.
From Proofs Require Import InstrProofs.
Open Scope Z_scope.

(* a word decodes exactly when it is a canonical encoding *)
Theorem C06_decode_iff_canonical : forall w, 0 <= w < 65536 ->
  ((exists i, decode w = DOk i) <-> classify w = Canonical).
Proof.
  intros w H. rewrite (classify_dec w H).
  destruct (decode w) as [i| | |]; cbn [res_class]; (split; [intros [j E]|intros E]); try discriminate; [reflexivity|exists i; reflexivity].
Qed.
Print Assumptions C06_decode_iff_canonical.

(* reserved opcode -> illegal opcode; bad must-be-zero bits / NOT suffix -> invalid format;
   canonical -> an instruction that re-encodes to the same word and has in-range fields *)
Theorem C06_decode_classified : forall w, 0 <= w < 65536 ->
  match classify w with
  | Canonical => exists i, decode w = DOk i /\ encode i = w /\ valid i = true
  | Reserved => decode w = DIllegalOpcode
  | BadBits => decode w = DInvalidFormat
  end.
Proof.
  intros w H. pose proof (decode_total w) as N. rewrite (classify_dec w H).
  destruct (decode w) as [i| | |] eqn:E; cbn [res_class]; [|reflexivity|reflexivity|contradiction].
  exists i. split; [reflexivity|apply (decode_iff w i H); exact E].
Qed.
Print Assumptions C06_decode_classified.

Theorem C06_reencode : forall w i, 0 <= w < 65536 -> decode w = DOk i -> encode i = w /\ valid i = true.
Proof. intros w i H. apply decode_iff. exact H. Qed.
Print Assumptions C06_reencode.

(* every representable instruction (registers 0..7, cc 0..7, offsets within their fields) survives encode;decode *)
Theorem C06_decode_encode : forall i, valid i = true -> decode (encode i) = DOk i.
Proof. intros i V. apply decode_iff; [apply encode_range|split; [reflexivity|exact V]]. Qed.
Print Assumptions C06_decode_encode.

Theorem C06_decode_total : forall w, 0 <= w < 65536 -> decode w <> DPanic.
Proof. intros w _. apply decode_total. Qed.
Print Assumptions C06_decode_total.

(* the reserved class is exactly opcode 1101 *)
Theorem C06_reserved_is_opcode_13 : forall w, 0 <= w < 65536 -> (classify w = Reserved <-> w / 4096 = 13).
Proof.
  intros w H. unfold classify, isa_opcode. destruct (w / 4096 =? 13) eqn:E.
  - apply Z.eqb_eq in E. split; auto.
  - apply Z.eqb_neq in E. split; [|intros; contradiction].
    repeat match goal with |- context [if ?c then _ else _] => destruct c end; discriminate.
Qed.
Print Assumptions C06_reserved_is_opcode_13.

Example C06_ex : decode 4096 = DOk (SADD 0 0 (RegOp 0)) /\ decode 51200 = DInvalidFormat /\
                 decode 53248 = DIllegalOpcode /\ encode (SJMP 7) = 49600 /\ valid (SLDR 1 2 (-32)) = true.
Proof. vm_compute. repeat split. Qed.
