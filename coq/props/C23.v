(* C23 — Symbol-table label queries agree and ignore case.
   [sym] is any symbol table returned by pass 1 (`SymbolTable::new`, with or without a source
   text; `assemble_debug` stores exactly it).  [spec_label p name]: the first positional binding
   of the name, compared ignoring (ASCII) case — address of the statement the label stands on,
   0 and external for an `.external` declaration (spec/LayoutSpec.v). *)
From Coq Require Import ZArith List Bool Permutation.
From Model Require Import Text AsmAst Obj Assembler.
From Spec Require Import LayoutSpec WfSpec.
From Proofs Require Import AsmPass1 AsmQueries.
Import ListNotations.
Open Scope Z_scope.

Theorem C23_lookup : forall src p sym, typed p = true -> pass1 p src = AOk sym ->
  forall name, lookup_label sym name = option_map b_addr (spec_label p name).
Proof. exact lookup_spec. Qed.
Print Assumptions C23_lookup.

(* any two spellings that differ only in letter case give the same answers *)
Theorem C23_ignores_case : forall (sym : symtab) n1 n2, upper n1 = upper n2 ->
  lookup_label sym n1 = lookup_label sym n2 /\
  option_map fst (get_label_source sym n1) = option_map fst (get_label_source sym n2).
Proof.
  intros sym n1 n2 E. unfold lookup_label, lookup_label_map, get_label_source. rewrite E. split; [reflexivity|].
  destruct (assoc (upper n2) (st_labels sym)); reflexivity.
Qed.
Print Assumptions C23_ignores_case.

(* the source lookup returns the span of a label occurrence of the program with that name; it
   starts where the FIRST binding of the name was written *)
Theorem C23_source : forall src p sym, typed p = true -> pass1 p src = AOk sym ->
  forall name,
    get_label_source sym name = option_map (fun b => (b_src b, b_src b + byte_len name)) (spec_label p name)
    /\ (forall b, spec_label p name = Some b ->
          exists l, In l (occurrences p) /\ upper (l_name l) = upper name /\ get_label_source sym name = Some (label_span l)).
Proof. exact source_spec. Qed.
Print Assumptions C23_source.

(* reverse lookup, whatever the iteration order of the hash map: a returned label is bound to that
   address, and an address some label is bound to is never answered with nothing *)
Theorem C23_rev : forall src p sym, typed p = true -> pass1 p src = AOk sym ->
  forall L' rel dbg a, Permutation L' (st_labels sym) ->
    (forall n, rev_lookup_label (mkSymtab L' rel dbg) a = Some n ->
       exists b, find (named n) (bindings p) = Some b /\ b_addr b = a)
    /\ ((exists name b, spec_label p name = Some b /\ b_addr b = a) -> rev_lookup_label (mkSymtab L' rel dbg) a <> None).
Proof. exact rev_spec. Qed.
Print Assumptions C23_rev.

(* the listing holds every bound name exactly once, with the address and flag of its first binding *)
Theorem C23_listing : forall src p sym, typed p = true -> pass1 p src = AOk sym ->
  NoDup (map (fun x => fst (fst x)) (label_iter sym)) /\
  forall k a e, In (k, a, e) (label_iter sym) <->
                exists b, find (named k) (bindings p) = Some b /\ a = b_addr b /\ e = b_ext b.
Proof. exact listing_spec. Qed.
Print Assumptions C23_listing.

Theorem C23_absent : forall src p sym, typed p = true -> pass1 p src = AOk sym ->
  forall name, spec_label p name = None -> lookup_label sym name = None /\ get_label_source sym name = None.
Proof.
  intros src p sym T E name N. rewrite (lookup_spec src p sym T E name). destruct (source_spec src p sym T E name) as [S _].
  rewrite S, N. split; reflexivity.
Qed.
Print Assumptions C23_absent.

Definition lab (n : list Z) (at_ : Z) : label := mkLabel n at_.
Definition ex : list stmt :=
  [ mkStmt [] (NDir (DOrig 12288)) 0 11;
    mkStmt [lab [97; 98; 99] 12; lab [65; 66; 99] 21] (NInstr AHALT) 16 20;   (* abc ABc HALT  (same address: no conflict) *)
    mkStmt [lab [122; 122] 23] (NDir DEnd) 25 29;                          (* zz .end *)
    mkStmt [] (NDir (DExternal (lab [101; 120; 116] 40))) 30 43 ].        (* .external ext *)
Example C23_ex : match pass1 ex None with
  | AOk sym => lookup_label sym [65; 98; 67] = Some 12288 /\ get_label_source sym [65; 66; 67] = Some (12, 15)
               /\ lookup_label sym [69; 88; 84] = Some 0 /\ rev_lookup_label sym 12288 = Some [65; 66; 67]
               /\ lookup_label sym [90; 122] = Some 12289 /\ lookup_label sym [122] = None
  | _ => False end.
Proof. vm_compute. repeat split; reflexivity. Qed.
