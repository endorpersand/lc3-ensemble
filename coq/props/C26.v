(* C26 — Assembler and linker error spans are well-formed: the ASSEMBLER half (errors returned
   by `assemble` = [assemble false None] and `assemble_debug` = [assemble true (Some src)]).
   The span list of the model is the `ErrSpan` of the Rust error flattened to a list
   (One / Two / Many); `first()` and `iter()` are total exactly when the list is non-empty. *)
From Coq Require Import ZArith List Bool.
From Model Require Import Text AsmAst Obj Assembler.
From Spec Require Import LayoutSpec WfSpec.
From Proofs Require Import AsmSpans.
Import ListNotations.
Open Scope Z_scope.

(* every error carries at least one span: `first()` cannot panic *)
Theorem C26_nonempty : forall p k sp,
  (assemble false None p = AErr k sp \/ exists src, assemble true (Some src) p = AErr k sp) -> sp <> [].
Proof.
  intros p k sp [E|[src E]]; exact (proj1 (assemble_spans _ _ p k sp E)).
Qed.
Print Assumptions C26_nonempty.

(* every span of an error is the span of a statement of the program or of a label written in it
   (a statement label, the operand of .external, a label operand) *)
Theorem C26_known : forall p k sp,
  (assemble false None p = AErr k sp \/ exists src, assemble true (Some src) p = AErr k sp) ->
  Forall (fun s => In s (stmt_spans p) \/ In s (label_spans p)) sp.
Proof.
  intros p k sp [E|[src E]]; exact (proj1 (proj2 (assemble_spans _ _ p k sp E))).
Qed.
Print Assumptions C26_known.

(* hence: if the statement and label spans of the program lie inside the source (as they do for
   parser output, C03/C04), so does every span of every error *)
Definition spans_within (len_src : Z) (p : list stmt) : Prop :=
  forall s, In s (stmt_spans p) \/ In s (label_spans p) -> 0 <= fst s <= snd s /\ snd s <= len_src.
Theorem C26_within : forall src p k sp, spans_within (byte_len src) p ->
  (assemble false None p = AErr k sp \/ assemble true (Some src) p = AErr k sp) ->
  Forall (fun s => 0 <= fst s <= snd s /\ snd s <= byte_len src) sp.
Proof.
  intros src p k sp W E.
  assert (K : Forall (fun s => In s (stmt_spans p) \/ In s (label_spans p)) sp).
  { apply (C26_known p k sp). destruct E as [E|E]; [left; exact E | right; exists src; exact E]. }
  rewrite Forall_forall in *. intros s Hs. apply W. exact (K s Hs).
Qed.
Print Assumptions C26_within.

(* label errors (undetermined address of a label, duplicate label, label not found, external label
   in a PC-relative operand, offset out of reach) point at labels only: every span covers exactly
   one label written in the program *)
Theorem C26_label_spans : forall p k sp,
  (assemble false None p = AErr k sp \/ exists src, assemble true (Some src) p = AErr k sp) ->
  label_kind k = true -> Forall (fun s => exists l, In l (flat_map labels_in p) /\ s = label_span l) sp.
Proof.
  intros p k sp E K.
  assert (F : Forall (fun s => In s (label_spans p)) sp).
  { destruct E as [E|[src E]]; exact (proj2 (proj2 (assemble_spans _ _ p k sp E)) K). }
  rewrite Forall_forall in *. intros s Hs. specialize (F s Hs). unfold label_spans in F. apply in_map_iff in F.
  destruct F as [l [E1 E2]]. exists l. split; [exact E2 | symmetry; exact E1].
Qed.
Print Assumptions C26_label_spans.

Definition lab (n : list Z) (at_ : Z) : label := mkLabel n at_.
Example C26_ex :
  assemble false None [ mkStmt [] (NDir (DOrig 12288)) 0 11;
                        mkStmt [lab [97] 12] (NInstr (ABR 7 (PLab (lab [98] 17)))) 14 18;
                        mkStmt [] (NDir DEnd) 19 23 ] = AErr CouldNotFindLabel [(17, 18)]
  /\ assemble false None [ mkStmt [lab [97] 0] (NInstr AHALT) 2 6 ] = AErr UndetAddrLabel [(0, 1)]
  /\ assemble false None [ mkStmt [] (NDir (DOrig 12288)) 0 11;
                           mkStmt [lab [97] 12] (NInstr AHALT) 14 18; mkStmt [lab [65] 19] (NInstr AHALT) 21 25;
                           mkStmt [] (NDir DEnd) 26 30 ] = AErr OverlappingLabels [(12, 13); (19, 20)].
Proof. vm_compute. repeat split; reflexivity. Qed.

(* linker half (proofs/LinkErrProofs.v) *)
From Model Require Import Link.
From Proofs Require Import LinkErrProofs.

(* every link error carries a non-empty span list (so `first` is total) with ordered spans *)
Theorem C26_link_error_nonempty : forall a b k sp, Link.link a b = LErr k sp -> sp <> nil.
Proof. intros a b k sp H. exact (proj1 (C26_link_nonempty a b k sp H)). Qed.
Print Assumptions C26_link_error_nonempty.

Theorem C26_link_error_spans_ordered : forall a b k sp s, Link.link a b = LErr k sp -> In s sp -> fst s <= snd s.
Proof. exact C26_link_spans_ordered. Qed.
Print Assumptions C26_link_error_spans_ordered.
