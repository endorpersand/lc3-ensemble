(* C32 — Memory-mapped I/O reaches exactly the mapped register or device.
   Model: model/DevHandler.v (DeviceHandler, internal-register map, MMIO arms of read_mem/write_mem).
   Specification: spec/PortSpec.v — a table (register map, port -> owner, id counter) written from
   the property text.

   Every theorem is about ALL histories: [l] is an arbitrary list of operations (add_device,
   remove_device, set_keyboard, set_display, mmap_internal, munmap_internal, read, write, io_reset,
   poll_interrupt) run on a fresh machine, for an arbitrary device type D with arbitrary behaviour
   [ops] and arbitrary initial memory m0.
     reach ops m0 l    the machine after the history      results ops m0 l   what the operations returned
     table l           the port table after the same history *)
From Coq Require Import ZArith List Bool Lia Sorted.
From Model Require Import Tree DevHandler.
From Spec Require Import PortSpec.
From Proofs Require Import DevHandlerProofs.
Import ListNotations.
Open Scope Z_scope.

(* Invariant: at least the three fixed slots, ids fit 16 bits, slot 0 is the null device, every
   mapped id is a slot, only I/O addresses are mapped, the keyboard ports xFE00/xFE02 belong to slot
   1 and the display ports xFE04/xFE06 to slot 2 and nothing else does; and no operation panics
   (the `self.devices[i]` indexings are in range). *)
Theorem C32_invariant : forall (D : Type) (ops : dev_ops D) m0 l,
  h_inv (b_h (reach ops m0 l)) /\ ~ In RPanic (results ops m0 l).
Proof. intros D ops m0 l. destruct (reach_ok ops m0 l) as [Hi _ _ Hl]. exact (conj Hi Hl). Qed.
Print Assumptions C32_invariant.

(* Refinement: after every history the model agrees with the port table — same register mappings,
   same owner of every port (0 nobody, 1 keyboard, 2 display, id >= 3 the added device), same next
   id — and every add_device / mmap_internal / munmap_internal returned what the table says. *)
Theorem C32_refines : forall (D : Type) (ops : dev_ops D) m0 l,
  refines (reach ops m0 l) (table l) /\
  map abstract (results ops m0 l) = snd (pt_run (pt_init regs0) l).
Proof. intros D ops m0 l. destruct (reach_ok ops m0 l) as [_ Hr He _]. exact (conj Hr He). Qed.
Print Assumptions C32_refines.

(* Dispatch: a read at any 16-bit address reaches the internal register mapped there if there is
   one, otherwise the device in the slot of the port's owner, otherwise nothing ([read_via] spells
   out each case: register value / device answer also stored in the memory word; no answer or
   nothing there: the memory word). *)
Theorem C32_dispatch_read : forall (D : Type) (ops : dev_ops D) m0 l a eff,
  0 <= a <= 65535 ->
  bus_read ops (reach ops m0 l) a eff = Some (read_via ops (reach ops m0 l) (pt_target (table l) a) a eff).
Proof.
  intros D ops m0 l a eff Ha. destruct (reach_ok ops m0 l) as [Hi Hr _ _].
  apply bus_read_dispatch; [exact Hi | exact Hr | apply Ha].
Qed.
Print Assumptions C32_dispatch_read.

Theorem C32_dispatch_write : forall (D : Type) (ops : dev_ops D) m0 l a data,
  0 <= a <= 65535 ->
  bus_write ops (reach ops m0 l) a data = Some (write_via ops (reach ops m0 l) (pt_target (table l) a) a data).
Proof.
  intros D ops m0 l a data Ha. destruct (reach_ok ops m0 l) as [Hi Hr _ _].
  apply bus_write_dispatch; [exact Hi | exact Hr | apply Ha].
Qed.
Print Assumptions C32_dispatch_write.

(* Writes to unowned ports leave memory — and everything else — unchanged. *)
Theorem C32_unowned_write_changes_nothing : forall (D : Type) (ops : dev_ops D) m0 l a data,
  0 <= a <= 65535 -> pt_target (table l) a = ToNothing ->
  bus_write ops (reach ops m0 l) a data = Some (reach ops m0 l, false).
Proof.
  intros D ops m0 l a data Ha Ht. rewrite (C32_dispatch_write D ops m0 l a data Ha), Ht. reflexivity.
Qed.
Print Assumptions C32_unowned_write_changes_nothing.

(* Adding a device succeeds exactly when every requested port is an I/O address not owned by a
   device (keyboard and display count) — and the 16-bit ids have not run out, the documented limit. *)
Theorem C32_add_iff : forall (D : Type) (ops : dev_ops D) m0 l d addrs,
  snd (add_device (b_h (reach ops m0 l)) d addrs) <> None <->
  (pt_next (table l) <= 65535 /\
   forall p, In p addrs -> io_addr p = true /\ pt_owner (table l) p = Nobody).
Proof. intros D. exact (add_iff (D := D)). Qed.
Print Assumptions C32_add_iff.

(* ... and then it gets the fresh id, is appended as a new slot, and owns exactly the requested
   ports in addition. *)
Theorem C32_add_effect : forall (D : Type) (ops : dev_ops D) m0 l d addrs h' id,
  add_device (b_h (reach ops m0 l)) d addrs = (h', Some id) ->
  id = pt_next (table l) /\ h_devs h' = h_devs (b_h (reach ops m0 l)) ++ [d] /\
  forall p, h_ports h' p = if mem_z p addrs then id else h_ports (b_h (reach ops m0 l)) p.
Proof.
  intros D ops m0 l d addrs h' id. destruct (reach_ok ops m0 l) as [Hi Hr _ _].
  exact (add_device_effect _ _ d addrs h' id Hi Hr).
Qed.
Print Assumptions C32_add_effect.

(* Removing an added device (id >= 3) frees exactly the ports it owned; removing the keyboard or
   the display (or slot 0, or an id never given out) changes no port: their ports stay reserved. *)
Theorem C32_remove_frees : forall (D : Type) (ops : dev_ops D) m0 l id p,
  h_ports (remove_device (b_h (reach ops m0 l)) id) p =
  if (3 <=? id) && (h_ports (b_h (reach ops m0 l)) p =? id) then 0 else h_ports (b_h (reach ops m0 l)) p.
Proof. intros D ops m0 l id p. apply remove_device_ports, (ro_inv _ _ (reach_ok ops m0 l)). Qed.
Print Assumptions C32_remove_frees.

(* Device ids are never reused: over any history the ids returned by successful additions are
   strictly increasing, and all are >= 3. *)
Theorem C32_ids_fresh : forall (D : Type) (ops : dev_ops D) m0 l,
  StronglySorted Z.lt (added_ids (results ops m0 l)) /\
  Forall (fun id => 3 <= id) (added_ids (results ops m0 l)).
Proof.
  (* the ids given out are those the table's counter passes, and it starts at 3 *)
  intros D ops m0 l. pose proof (ro_res _ _ (reach_ok ops m0 l)) as E.
  destruct (ids_fresh_from l _ _ E) as (_ & H2 & H3). split; [exact H3|].
  eapply Forall_impl; [|exact H2]. cbn. intros; lia.
Qed.
Print Assumptions C32_ids_fresh.

(* non-vacuity on recording devices: add a device on xFE10, map PC at xFE12, remove the device, add
   another on the freed port and on the (register-mapped) MCR address.  The table then says:
   xFE10 -> slot 4, xFE12 -> register, xFFFE -> register (the mapping wins), xFE14 -> nothing,
   xFE00 -> slot 1; the ids were 3 then 4. *)
Example C32_ex :
  let dev := fun tag => Some (mk_rdev tag true true None 0 []) in
  let l := [BAdd (dev 1) [65040]; BMmap 65042 RegPC; BRemove 3; BAdd (dev 4) [65040; 65534]] in
  pt_target (table l) 65040 = ToSlot 4 /\ pt_target (table l) 65042 = ToReg RegPC /\
  pt_target (table l) 65534 = ToReg RegMCR /\ pt_target (table l) 65044 = ToNothing /\
  pt_target (table l) 65024 = ToSlot 1 /\ pt_target (table l) 12288 = ToMemory /\
  added_ids (results rdev_ops (fun _ => 0) l) = [3; 4] /\
  snd (add_device (b_h (reach rdev_ops (fun _ => 0) l)) (dev 5) [65040]) = None /\
  snd (add_device (b_h (reach rdev_ops (fun _ => 0) l)) (dev 5) [65044]) = Some 5.
Proof. vm_compute. repeat split. Qed.
