(* C29 — Loading places exactly the object image into a fresh machine.
   The vocabulary of the statements (block, chunk_at, image, blocks_ok, disjoint_blocks) is
   spec/ObjImage.v: what an object file says about an address, written without reference to the loader. *)
From Coq Require Import ZArith List Bool Lia.
From Gen Require Import OsImage.
From Model Require Import Word Sim Load.
From Spec Require Import ObjImage.
From Proofs Require Import ListFacts LoadProofs.
Import ListNotations.
Open Scope Z_scope.

(* One run of words written at [start] (wrapping at xFFFF): every address holds the initialised
   value, loses its initialisation keeping its data, or is untouched, according to its position. *)
Theorem C29_write_chunk_spec : forall c m start a,
  0 <= start < 65536 -> Z.of_nat (length c) <= 65536 -> 0 <= a < 65536 ->
  mget (write_chunk m start c) a =
  match chunk_at start c a with
  | Some (Some v) => new_init v
  | Some None => clear_init (mget m a)
  | None => mget m a
  end.
Proof. exact write_chunk_spec. Qed.
Print Assumptions C29_write_chunk_spec.

Theorem C29_copy_obj_block_spec : forall m s data a,
  0 <= s < 65536 -> Z.of_nat (length data) < 65536 -> 0 <= a < 65536 ->
  exists m', copy_obj_block m s data = Some m' /\
    mget m' a = match chunk_at s data a with
                | Some (Some v) => new_init v
                | Some None => clear_init (mget m a)
                | None => mget m a
                end.
Proof.
  intros m s data a Hs Hl Ha. exists (write_chunk m s data). split; [apply copy_obj_block_eq; assumption|].
  apply write_chunk_spec; lia.
Qed.
Print Assumptions C29_copy_obj_block_spec.

(* Into ANY machine state: exactly the file's initialised words are set, its reserved words are marked
   uninitialised keeping their data, every other word is unchanged; registers, PC, PSR, saved SP, frame depth and
   frames, subroutine definitions, instruction count, prefetch flag, access observer, MCR, flags, mappings and devices
   are unchanged (the allocation table is replaced and not described here). *)
Theorem C29_load : forall s bs, blocks_ok bs -> disjoint_blocks bs ->
  exists s', load_obj s bs false = LoadOk s' /\
    (forall a, 0 <= a < 65536 ->
       mget (s_mem s') a = match image bs a with
                           | Some (Some v) => new_init v
                           | Some None => clear_init (mget (s_mem s) a)
                           | None => mget (s_mem s) a
                           end) /\
    s_regs s' = s_regs s /\ s_pc s' = s_pc s /\ s_psr s' = s_psr s /\ s_saved_sp s' = s_saved_sp s /\
    s_frame_no s' = s_frame_no s /\ s_frames s' = s_frames s /\ s_sr_defns s' = s_sr_defns s /\
    s_instrs s' = s_instrs s /\ s_prefetch s' = s_prefetch s /\ s_obs s' = s_obs s /\
    s_mcr s' = s_mcr s /\ s_flags s' = s_flags s /\ s_ireg s' = s_ireg s /\ s_devs s' = s_devs s.
Proof.
  intros s bs Hok Hdis. exists (loaded s bs). split; [apply load_obj_eq; exact Hok|].
  split; [|repeat split; reflexivity]. intros a Ha. change (s_mem (loaded s bs)) with (write_blocks (s_mem s) bs).
  rewrite write_blocks_spec by assumption. apply apply_blocks_image, Hdis, Ha.
Qed.
Print Assumptions C29_load.

(* Without disjointness (hand-written files): blocks take effect one after the other. *)
Theorem C29_load_overlapping : forall s bs, blocks_ok bs ->
  exists s', load_obj s bs false = LoadOk s' /\
    forall a, 0 <= a < 65536 -> mget (s_mem s') a = apply_blocks bs a (mget (s_mem s) a).
Proof.
  intros s bs Hok. exists (loaded s bs). split; [apply load_obj_eq; exact Hok|].
  intros a Ha. apply write_blocks_spec; assumption.
Qed.
Print Assumptions C29_load_overlapping.

(* refused: there is no resulting state *)
Theorem C29_load_unresolved : forall s bs, load_obj s bs true = LoadUnresolved.
Proof. reflexivity. Qed.
Print Assumptions C29_load_unresolved.

(* no condition on the starts, on overlaps or on externals *)
Theorem C29_no_panic : forall s bs he,
  Forall (fun b : block => Z.of_nat (length (snd b)) < 65536) bs -> load_obj s bs he <> LoadPanic.
Proof.
  intros s bs he Hall H. apply load_obj_panic_iff in H. destruct H as [_ H].
  apply Exists_exists in H. destruct H as (b & Hb & Hc). apply Exists_exists in Hc. destruct Hc as (c & Hc & [Hbig _]).
  rewrite Forall_forall in Hall. specialize (Hall b Hb). apply length_in_concat in Hc. rewrite chunk_concat in Hc. lia.
Qed.
Print Assumptions C29_no_panic.

(* A block with a run of 65536 or more consecutive initialised words: no public API can build one (both file
   formats store block lengths in 16 bits and the assembler refuses blocks that wrap). *)
Theorem C29_panic_iff : forall s bs he,
  load_obj s bs he = LoadPanic <->
  he = false /\ Exists (fun b : block => Exists big_init_chunk (chunk_by_some (snd b))) bs.
Proof. exact load_obj_panic_iff. Qed.
Print Assumptions C29_panic_iff.

(* A new simulator, for every flag setting and fill value: the OS image (today's os_blocks,
   regenerated from the crate) at its addresses, initialised zeros in xFE00..xFFFF, the
   uninitialised fill value elsewhere; PC = x3000, PSR = x8002. *)
Theorem C29_new : forall fl fill,
  (forall a, 0 <= a < 65536 ->
     mget (s_mem (new_sim fl fill)) a =
     match image os_blocks a with
     | Some (Some v) => new_init v
     | Some None => new_uninit fill
     | None => if 65024 <=? a then new_init 0 else new_uninit fill
     end) /\
  (forall a, 65024 <= a < 65536 -> mget (s_mem (new_sim fl fill)) a = new_init 0) /\
  s_pc (new_sim fl fill) = 12288 /\ s_psr (new_sim fl fill) = 32770.
Proof.
  intros fl fill. split; [exact (new_sim_mem fl fill)|]. split; [exact (new_sim_io_page fl fill)|].
  destruct (new_sim_fields fl fill) as (H1 & H2 & _). split; assumption.
Qed.
Print Assumptions C29_new.

(* The hypotheses of C29_load hold for the OS image itself (this is how C29_new is obtained) ... *)
Theorem C29_os_image_wellformed : blocks_ok os_blocks /\ disjoint_blocks os_blocks /\
  (forall a, 65024 <= a < 65536 -> image os_blocks a = None).
Proof. exact (conj os_blocks_ok (conj os_blocks_disjoint os_blocks_below_io)). Qed.
Print Assumptions C29_os_image_wellformed.

(* ... and for an object with a block at x0000, one ending at xFE00 and reserved words, and for
   one with a block that wraps around xFFFF (only a hand-written file can contain that). *)
Definition ex_obj : list block :=
  [ (0, [Some 1; None; Some 3]); (65020, [None; None; Some 7; Some 8]) ].
Definition ex_wrap : list block :=
  [ (3, [Some 1]); (65534, [Some 10; None; None; Some 13]) ].
Example C29_ex_hypotheses : blocks_ok ex_obj /\ disjoint_blocks ex_obj /\ blocks_ok ex_wrap /\ disjoint_blocks ex_wrap.
Proof.
  repeat split; try (apply block_okb_ok; reflexivity);
    [apply (chainb_disjoint 0 65536)|apply (chainb_disjoint 3 65539)]; (reflexivity || lia).
Qed.
Example C29_ex_image :
  image ex_obj 0 = Some (Some 1) /\ image ex_obj 1 = Some None /\ image ex_obj 3 = None /\
  image ex_obj 65023 = Some (Some 8) /\ image ex_obj 65024 = None /\
  image ex_wrap 65534 = Some (Some 10) /\ image ex_wrap 65535 = Some None /\
  image ex_wrap 0 = Some None /\ image ex_wrap 1 = Some (Some 13) /\ image ex_wrap 2 = None /\
  (* a wrapping block that reaches an address of another block is not disjoint from it: *)
  cover_count [ (0, [Some 1]); (65535, [Some 2; Some 3]) ] 0 = 2.
Proof. vm_compute. repeat split. Qed.
