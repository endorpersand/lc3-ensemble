(* C11 — built-in OS trap routines meet their contracts.
   Each statement with the last step of its proof; OUT and GETC are the no-contention instances of the
   theorems of proofs/LockProofs.v.

   Reading guide.  [run sc t n s] iterates [Sim.step_in] n times from state s, the t-th instruction
   running under environment [sc t] (which says whether another thread holds the keyboard /
   display buffer lock during it).  [user_ready s sp q buf]: s is in user mode at a user address,
   the OS image (gen/OsImage.v, regenerated from the crate) is in memory, the saved supervisor
   stack pointer is [sp], keyboard (interrupts off, queue q) and display (buffer buf) are attached,
   non-strict mode; registers, condition codes, priority, user memory, frames are arbitrary.
   [same_user_view s s']: PSR (condition codes, privilege, priority), saved SP, frame stack, MCR,
   flags and every user-memory word are equal, and the OS image is still in place. *)
From Coq Require Import ZArith List Bool Lia.
From Gen Require Import Constants OsImage.
From Model Require Import Tree Bits Word Instr Sim Load.
From Proofs Require Import SimStep OsProofs OsPutsp OsContracts LockProofs.
Import ListNotations.
Open Scope Z_scope.

(* OUT / PUTC: the display receives exactly R0's low byte; everything else is restored.
   For every R0, registers, condition codes, priority; display attached and free. *)
Theorem C11_out : forall s sp q buf sc t,
  user_ready s sp q buf -> OS_END + 3 <= sp <= USER_START ->
  mget (s_mem s) (s_pc s) = new_init 61473 ->
  ds_free_from sc t 9 ->
  exists s', run sc t 9 s = (s', OOk) /\ s_pc s' = wrap16 (s_pc s + 1) /\ s_regs s' = s_regs s /\
             s_devs s' = kdevs q (buf ++ [w_data (rget (s_regs s) 0) mod 256]) /\ same_user_view s s'.
Proof.
  intros s sp q buf sc t Hur Hsp Hw Hfree.
  apply (out_under_locks s sp q buf sc t 0 false Hur Hsp Hw).
  split; [intros i Hi; lia | split; apply (free_at _ t 9); (exact Hfree || lia)].
Qed.
Print Assumptions C11_out.

(* GETC: R0 := head of the queue, exactly that byte consumed, all other registers and the rest restored *)
Theorem C11_getc : forall s sp ch q buf sc t,
  user_ready s sp (ch :: q) buf -> OS_END + 2 <= sp <= USER_START ->
  mget (s_mem s) (s_pc s) = new_init 61472 ->
  kb_free_from sc t 5 ->
  exists s', run sc t 5 s = (s', OOk) /\ s_pc s' = wrap16 (s_pc s + 1) /\
             (exists r1 r2 r3 r4 r5 r6 r7 x0, s_regs s = [x0; r1; r2; r3; r4; r5; r6; r7] /\
                                              s_regs s' = [new_init ch; r1; r2; r3; r4; r5; r6; r7]) /\
             s_devs s' = kdevs q buf /\ same_user_view s s'.
Proof.
  intros s sp ch q buf sc t Hur Hsp Hw Hfree.
  destruct (getc_under_locks s sp ch q buf sc t 0 false Hur Hsp Hw) as (s' & Hrun & Hpc & Hrs & Hdv & _ & Hview).
  { split; [intros i Hi; lia | split; apply (free_at _ t 5); (exact Hfree || lia)]. }
  exists s'. split; [exact Hrun|]. split; [exact Hpc|]. split; [exact Hrs|]. split; [exact Hdv | exact Hview].
Qed.
Print Assumptions C11_getc.

(* PUTS: for every zero-terminated string cs (non-zero 16-bit words) in user memory at R0, the
   display receives the low byte of each word, in order *)
Theorem C11_puts : forall s sp cs q buf sc t,
  user_ready s sp q buf -> OS_END + 7 <= sp <= USER_START ->
  mget (s_mem s) (s_pc s) = new_init 61474 ->
  chars_ok cs -> str_at (s_mem s) (w_data (rget (s_regs s) 0)) cs ->
  USER_START <= w_data (rget (s_regs s) 0) -> w_data (rget (s_regs s) 0) + Z.of_nat (length cs) < IO_START ->
  ds_free_from sc t (13 * length cs + 13) ->
  exists s', run sc t (13 * length cs + 13) s = (s', OOk) /\ s_pc s' = wrap16 (s_pc s + 1) /\ s_regs s' = s_regs s /\
             s_devs s' = kdevs q (buf ++ low8 cs) /\ same_user_view s s'.
Proof.
  intros s sp cs q buf sc t Hur Hsp Hw Hok Hstr Ha0 Ha1 Hfree. unfold OS_END, USER_START, sim.USER_START, IO_START, sim.IO_START in *.
  as_st Hur. change (rget (s_regs _) 0) with r0 in *. change (s_mem _) with m in Hstr.
  apply t_exact. apply (a_run _ _ sp); [exact Hos|].
  apply puts_call with (sp := sp) (cs := cs); try assumption; try lia; [apply Htrap; [lia | exact Hw] | ].
  apply a_return. lia.
Qed.
Print Assumptions C11_puts.

(* PUTSP: for every packed string at R0 — full words ws (both bytes non-zero) followed by a word z
   whose low byte is zero (even length) or whose high byte is zero (odd length) — the display
   receives low byte then high byte of each full word, then z's low byte if non-zero.
   The instruction count depends on the data, hence existential. *)
Theorem C11_putsp : forall s sp ws z q buf sc t,
  user_ready s sp q buf -> OS_END + 9 <= sp <= USER_START ->
  mget (s_mem s) (s_pc s) = new_init 61476 ->
  full_ok ws -> term_ok z -> pstr_at (s_mem s) (w_data (rget (s_regs s) 0)) ws z ->
  USER_START <= w_data (rget (s_regs s) 0) -> w_data (rget (s_regs s) 0) + Z.of_nat (length ws) < IO_START ->
  ds_always_free sc ->
  exists n s', run sc t n s = (s', OOk) /\ s_pc s' = wrap16 (s_pc s + 1) /\ s_regs s' = s_regs s /\
               s_devs s' = kdevs q (buf ++ packed_out ws z) /\ same_user_view s s'.
Proof.
  intros s sp ws z q buf sc t Hur Hsp Hw Hfull Hterm Hstr Ha0 Ha1 Hfree. unfold OS_END, USER_START, sim.USER_START, IO_START, sim.IO_START in *.
  as_st Hur. change (rget (s_regs _) 0) with r0 in *. change (s_mem _) with m in Hstr.
  (* the goal is [truns] unfolded, the instant forgotten *)
  apply (a_run sc t sp _ _ _ _ _ _ _ _ _ (fun _ s' => _)); [exact Hos|].
  apply putsp_call with (sp := sp) (ws := ws) (z := z); try assumption; try lia; [apply Htrap; [lia | exact Hw] | ].
  intros t'. apply a_0. intros m' T' Hm'. split; [reflexivity|]. split; [reflexivity|]. split; [reflexivity|].
  eapply view_of_sim; [exact Hm' | lia].
Qed.
Print Assumptions C11_putsp.

(* IN: prompt "Input character: ", the next byte is consumed, echoed and returned in R0 *)
Theorem C11_in : forall s sp ch q buf sc t,
  user_ready s sp (ch :: q) buf -> OS_END + 9 <= sp <= USER_START ->
  mget (s_mem s) (s_pc s) = new_init 61475 ->
  ds_free_from sc t 251 -> kb_free_from sc t 251 ->
  exists s', run sc t 251 s = (s', OOk) /\ s_pc s' = wrap16 (s_pc s + 1) /\
             (exists r1 r2 r3 r4 r5 r6 r7 x0, s_regs s = [x0; r1; r2; r3; r4; r5; r6; r7] /\
                                              s_regs s' = [new_init ch; r1; r2; r3; r4; r5; r6; r7]) /\
             s_devs s' = kdevs q (buf ++ low8 in_prompt ++ [ch mod 256]) /\ same_user_view s s'.
Proof.
  intros s sp ch q buf sc t Hur Hsp Hw Hdf Hkf. unfold OS_END, USER_START, sim.USER_START in Hsp.
  as_st Hur. apply t_exact. apply (a_run _ _ sp); [exact Hos|].
  apply in_call with (sp := sp); [apply Htrap; [lia | exact Hw] | lia | exact Hdf | exact Hkf | ].
  intros t' Ht'. apply a_0. intros m' T' Hm'. split; [exact Ht'|]. split; [reflexivity|].
  split; [exists r1, r2, r3, r4, r5, r6, r7, r0; split; reflexivity|]. split; [reflexivity|].
  eapply view_of_sim; [exact Hm' | lia].
Qed.
Print Assumptions C11_in.

(* HALT, virtual traps: the step reports Halt, the PC stays on the trap, nothing else changes *)
Theorem C11_halt_virtual : forall s sp q buf e,
  user_ready s sp q buf -> fl_real (s_flags s) = false ->
  mget (s_mem s) (s_pc s) = new_init 61477 ->
  exists s', step_in e s = (s', OHalt) /\ s_pc s' = s_pc s /\ s_regs s' = s_regs s /\ s_devs s' = s_devs s /\
             s_mem s' = s_mem s /\ s_psr s' = s_psr s /\ s_saved_sp s' = s_saved_sp s /\ s_mcr s' = s_mcr s.
Proof.
  intros s sp q buf e Hur Hreal Hw. rewrite (halt_virtual_ready s sp q buf e Hur Hreal Hw).
  eexists. split; [reflexivity|]. repeat split.
Qed.
Print Assumptions C11_halt_virtual.

(* HALT, real traps: after three instructions the machine-control register is off *)
Theorem C11_halt_real : forall s sp q buf sc t,
  user_ready s sp q buf -> OS_END + 2 <= sp <= USER_START -> fl_real (s_flags s) = true ->
  mget (s_mem s) (s_pc s) = new_init 61477 ->
  exists s', run sc t 3 s = (s', OOk) /\ s_mcr s' = false /\ s_devs s' = s_devs s /\
             (forall r, 0 <= r < 6 -> rget (s_regs s') r = rget (s_regs s) r) /\
             (forall a, in_user a = true -> mget (s_mem s') a = mget (s_mem s) a).
Proof. exact halt_real_ready. Qed.
Print Assumptions C11_halt_real.

(* the hypotheses are satisfiable: the machine of Simulator::new with keyboard and display
   attached and any registers / user PC / user-mode PSR / user memory is [user_ready] *)
Theorem C11_fresh_machine_ready : forall fl fill rs pc psr um q buf,
  fl_strict fl = false -> length rs = 8%nat -> psr_privileged psr = false -> in_user pc = true ->
  Forall (fun p => in_user (fst p) = true) um ->
  user_ready (user_machine fl fill rs pc psr um q buf) 12288 q buf.
Proof. exact user_machine_ready. Qed.
Print Assumptions C11_fresh_machine_ready.

Example C11_ex_out :
  let s := user_machine (mkFlags false false false false) 0 (repeat (new_init 65) 8) 12288 32770 [(12288, new_init 61473)] [] [] in
  s_devs (fst (run (fun _ => mkEnv false false []) 0 9 s)) = kdevs [] [65] /\
  s_pc (fst (run (fun _ => mkEnv false false []) 0 9 s)) = 12289.
Proof. vm_compute. split; reflexivity. Qed.

Example C11_ex_packed : packed_out [16706; 17220] 69 = [66; 65; 68; 67; 69] /\ packed_out [16706] 0 = [66; 65] /\
                        full_ok [16706; 17220] /\ term_ok 69 /\ term_ok 0.
Proof. unfold full_ok, term_ok. repeat split; try (vm_compute; congruence); try lia; try (right; reflexivity); repeat constructor; try lia; vm_compute; try congruence; auto. Qed.
