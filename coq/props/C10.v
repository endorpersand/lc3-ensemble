(* C10 — Interrupts are priority-gated and transparent to the interrupted program.
   Proofs in proofs/IrqProofs.v and proofs/IrqCongruence.v, where [pending], [polled], [after_poll], [fetch_exec]
   (literally the second half of [step_inner]), [last_max], [entry_pre], [entry_post], [handler_returned] are defined. *)
From Coq Require Import ZArith List Bool Lia.
From Model Require Import Bits Word Instr Sim Load.
From Proofs Require Import SimHoare SimAccess SimObsEntry SimUser IrqProofs IrqCongruence.
Import ListNotations.
Open Scope Z_scope.

(* Arbitration, for every device list: the poll returns a maximal-key request among those delivered, the LAST one among
   equal keys *)
Theorem C10_arbitration : forall e s,
  (forall x, pending e s = Some x <-> last_max (polled e (s_devs s) (e_draws e)) x) /\
  (pending e s = None <-> polled e (s_devs s) (e_draws e) = []).
Proof. intros e s. split; [intro x; apply pending_is_last_max|apply pending_none]. Qed.
Print Assumptions C10_arbitration.

(* The gate, for every state and environment *)
Theorem C10_gate : forall e s,
  step_inner e s =
  match pending e s with
  | Some (IVec v p) =>
      if psr_priority (s_psr s) <? p then handle_interrupt e (256 + v) (Some p) (after_poll e s)
      else fetch_exec e (after_poll e s)
  | Some IExt => (after_poll e s, inr (BErr InterruptErr))
  | None => fetch_exec e (after_poll e s)
  end.
Proof. exact step_inner_cases. Qed.
Print Assumptions C10_gate.

Theorem C10_gate_taken : forall e s v p, takes_irq e s v p ->
  step_inner e s = handle_interrupt e (256 + v) (Some p) (after_poll e s).
Proof. exact gate_taken. Qed.
Print Assumptions C10_gate_taken.

Theorem C10_gate_not_taken : forall e s, (forall v p, ~ takes_irq e s v p) ->
  step_inner e s = match pending e s with
                   | Some IExt => (after_poll e s, inr (BErr InterruptErr))
                   | _ => fetch_exec e (after_poll e s)
                   end.
Proof. exact gate_not_taken. Qed.
Print Assumptions C10_gate_not_taken.

(* Interrupt::vectored clamps the priority *)
Theorem C10_priority_range : forall e s v p, pending e s = Some (IVec v p) -> 0 <= p < 8.
Proof. exact pending_prio_range. Qed.
Print Assumptions C10_priority_range.

(* Boundary, all states (strict or not, any stack pointer): a taken interrupt replaces the fetch, and instructions_run is
   unchanged whatever the entry does (including its failure paths). *)
Theorem C10_boundary : forall e s v p, takes_irq e s v p ->
  step_inner e s = handle_interrupt e (256 + v) (Some p) (after_poll e s) /\
  s_instrs (fst (step_inner e s)) = s_instrs s.
Proof. exact boundary. Qed.
Print Assumptions C10_boundary.

(* Entry snapshot (non-strict machine, 16-bit PSR, the two stack slots below the I/O page; R6, saved SP, memory, frames
   arbitrary); what [entry_post] says is spelled out by C10_entry_fields. *)
Theorem C10_entry : forall e s v p, takes_irq e s v p ->
  fl_strict (s_flags s) = false -> 0 <= s_psr s < 65536 -> regs8 (s_regs s) -> 0 <= v < 256 ->
  (IO_START <=? wrap16 (w_data (entry_sp s) - 1)) = false ->
  (IO_START <=? wrap16 (w_data (entry_sp s) - 2)) = false ->
  exists s', step_inner e s = (s', inl tt) /\ entry_post (after_poll e s) s' v p.
Proof.
  intros e s v p Ht Hst Hpsr Hr Hv H1 H2. rewrite (gate_taken _ _ _ _ Ht).
  apply handle_interrupt_entry. apply entry_pre_after_poll.
  destruct Ht as [Hp Hg]. constructor; try assumption. eapply pending_prio_range; exact Hp.
Qed.
Print Assumptions C10_entry.

Theorem C10_entry_fields : forall s s' v p, entry_post s s' v p -> 0 <= s_psr s < 65536 -> 0 <= p < 8 -> regs8 (s_regs s) ->
  let sp := w_data (entry_sp s) in
  mget (s_mem s') (wrap16 (sp - 1)) = new_init (s_psr s) /\
  mget (s_mem s') (wrap16 (sp - 2)) = new_init (s_pc s) /\
  s_pc s' = w_data (mget (s_mem s') (256 + v)) /\
  psr_privileged (s_psr s') = true /\ psr_priority (s_psr s') = p /\ psr_cc (s_psr s') = 2 /\
  s_psr s' = Z.land (s_psr s) 30968 + 256 * p + 2 /\
  w_data (rget (s_regs s') 6) = wrap16 (sp - 2) /\
  (psr_privileged (s_psr s) = false -> s_saved_sp s' = rget (s_regs s) 6) /\
  (psr_privileged (s_psr s) = true -> s_saved_sp s' = s_saved_sp s) /\
  s_instrs s' = s_instrs s.
Proof.
  intros s s' v p [Hm Hpsr Hpc Hr Hs Hi _ _ _ _ _ _ _ _] Hp16 Hp Hr8. cbv zeta.
  destruct (psr_facts (s_psr s) p Hp16 Hp) as (F1 & F2 & F3 & F4).
  rewrite Hm, Hpsr, Hpc, Hr, Hs, Hi. unfold entry_mem.
  pose proof (wrap16_range (w_data (entry_sp s) - 1)) as R1.
  pose proof (wrap16_range (w_data (entry_sp s) - 2)) as R2.
  assert (Hne : wrap16 (w_data (entry_sp s) - 1) <> wrap16 (w_data (entry_sp s) - 2)) by apply wrap16_pred_ne.
  repeat split; try assumption.
  - rewrite mget_mset_other by lia. apply mget_mset_same.
  - apply mget_mset_same.
  - rewrite rget_rset_same by (exact Hr8 || lia). apply w_data_sub. lia.
  - intros Hu. rewrite Hu. reflexivity.
  - intros Hu. rewrite Hu. reflexivity.
Qed.
Print Assumptions C10_entry_fields.

(* RTI is the inverse of the entry: it restores PC and PSR exactly, R6 and the saved SP (the swapped one exactly, the
   pushed-on one up to its 16 data bits), and leaves every other register, memory, instructions_run alone. *)
Theorem C10_rti_inverse : forall e s v p s1 s2,
  entry_pre s v p -> entry_post s s1 v p -> handler_returned s s1 s2 ->
  0 <= w_data (entry_sp s) < 65536 ->
  exists s3, exec e SRTI s2 = (s3, inl tt) /\
    s_pc s3 = s_pc s /\ s_psr s3 = s_psr s /\
    w_data (rget (s_regs s3) 6) = w_data (rget (s_regs s) 6) /\
    w_data (s_saved_sp s3) = w_data (s_saved_sp s) /\
    (psr_privileged (s_psr s) = false -> rget (s_regs s3) 6 = rget (s_regs s) 6) /\
    (psr_privileged (s_psr s) = true -> s_saved_sp s3 = s_saved_sp s) /\
    (forall k, 0 <= k -> k <> 6 -> rget (s_regs s3) k = rget (s_regs s2) k) /\
    s_mem s3 = s_mem s2 /\ s_instrs s3 = s_instrs s2 /\ s_devs s3 = s_devs s2 /\ s_flags s3 = s_flags s2 /\
    regs8 (s_regs s3) /\ s_mcr s3 = s_mcr s2 /\ s_ireg s3 = s_ireg s2 /\ s_alloca s3 = s_alloca s2 /\
    rget (s_regs s3) 6 = (if psr_privileged (s_psr s) then w_add (w_sub (entry_sp s) (new_init 2)) (new_init 2) else rget (s_regs s) 6) /\
    s_saved_sp s3 = (if psr_privileged (s_psr s) then s_saved_sp s else w_add (w_sub (entry_sp s) (new_init 2)) (new_init 2)).
Proof.
  intros e s v p s1 s2 Hpre Hpost Hret Hsp. pose proof (hr_regs8 _ _ _ Hret) as Hr8.
  destruct (rti_after_entry e s v p s1 s2 Hpre Hpost Hret) as (Hr6 & Hssp & o & X). eexists. split; [exact X|].
  cbn [rti_state upd_obs s_mem s_regs s_pc s_psr s_saved_sp s_instrs s_mcr s_flags s_ireg s_devs s_alloca]. rewrite Hr6, Hssp.
  pose proof (w_add_sub2 _ Hsp) as Hb. unfold entry_sp in *. destruct (psr_privileged (s_psr s)) eqn:Hu; cbn [negb];
    rewrite ?rget_rset_same by (lia || (unfold rset; rewrite ?set_nth_length; exact Hr8));
    repeat split; try reflexivity; try assumption; try discriminate;
    try (unfold regs8, rset; rewrite ?set_nth_length; exact Hr8);
    intros k Hk Hk6; rewrite !rget_rset_other by lia; reflexivity.
Qed.
Print Assumptions C10_rti_inverse.

(* Transparency, what is proved.  [peq s s']: s' shows the interrupted program exactly what s did.  [HandlerOK s s1 s2]
   is the explicit contract of a well-behaved handler between the state s1 right after the entry and the state s2 in
   which it executes RTI (its own run may contain nested serviced interrupts: the contract is about its end state).
   C10_serviced_once: entry ; handler meeting HandlerOK ; RTI gives a state program-equal to the interrupted one;
   C10_transparent_partial: so does any number of them at one boundary ([Serviced]).
   PARTIAL — these two speak of one boundary.  Across boundaries one needs the congruence of an instruction step with
   respect to [peq]: proved further down for user-mode non-TRAP instructions of a non-strict machine, missing for
   supervisor code and strict mode.  The harness checks whole runs on the implementation (interrupted vs uninterrupted
   runs, exhaustive placement). *)
Theorem C10_serviced_once : forall e s v p s1 s2,
  entry_pre s v p -> entry_post s s1 v p -> HandlerOK s s1 s2 ->
  (exists d, entry_sp s = new_init d /\ 2 <= d <= 12288) ->
  exists s3, exec e SRTI s2 = (s3, inl tt) /\ peq s s3 /\ s_instrs s3 = s_instrs s2.
Proof. exact serviced_once. Qed.
Print Assumptions C10_serviced_once.

Theorem C10_transparent_partial : forall e s s', Serviced e s s' -> peq s s'.
Proof.
  induction 1 as [s|s v p s1 s2 s3 s' Hpre Hent Hok Hsp Hrti Hrest IH]; [apply peq_refl|].
  exact (peq_trans _ _ _ (serviced_step e e s v p s1 s2 s3 Hpre Hent Hok Hsp Hrti) IH).
Qed.
Print Assumptions C10_transparent_partial.

(* Transparency over whole runs of user code.  [IRun n s s']: n instructions of the interrupted run — before each any
   number of interrupts are serviced ([Svc]: the gate takes the request in a whole [step_inner], the handler meets
   HandlerOK, its RTI executes), the instruction itself is a [step_inner] with no request pending.  [URun n t t']: the
   same n instructions with nothing in between.  For a user-mode, non-strict machine ([uok]) executing non-TRAP
   instructions ([nontrap_at]) the two runs end program-equal.
   PARTIAL with respect to the property: TRAP instructions (the OS routines run on the stack the handlers also use: the
   congruence there needs "the routine never reads a supervisor word below its stack pointer before writing it") and
   strict mode are not covered; the harness covers both on the implementation. *)
Theorem C10_transparent_user_partial : forall n s s', IRun n s s' ->
  forall t, peq s t -> uok s -> exists t', URun n t t' /\ peq s' t' /\ uok s'.
Proof. exact user_run_transparent. Qed.
Print Assumptions C10_transparent_user_partial.

Theorem C10_user_step_congruence : forall e s t,
  veq s t -> uok s -> nontrap_at s ->
  snd (fetch_exec e t) = snd (fetch_exec e s) /\ veq (fst (fetch_exec e s)) (fst (fetch_exec e t)) /\ uok (fst (fetch_exec e s)).
Proof. exact cong_fetch_exec. Qed.
Print Assumptions C10_user_step_congruence.

(* the hypotheses are satisfiable: a fresh user-mode machine with a scripted device requesting vector x80 at priority 4 *)
Example C10_entry_pre_satisfiable :
  let s := new_sim_devs (mkFlags false false false false) 0 true default_ireg [DNull; DNull; DNull; DScript [Some (IVec 128 4)]] in
  takes_irq (mkEnv false false []) s 128 4 /\ entry_pre s 128 4 /\
  (exists d, entry_sp s = new_init d /\ 2 <= d <= 12288).
Proof.
  cbv zeta. split; [|split].
  - split; [vm_compute; reflexivity|vm_compute; reflexivity].
  - constructor; try (vm_compute; reflexivity); try lia; vm_compute; split; congruence.
  - exists 12288. split; [vm_compute; reflexivity|lia].
Qed.
