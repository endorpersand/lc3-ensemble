(* C16 — No machine state makes the simulator panic.
   Model side: for EVERY state (any memory contents, registers, PC, flags, devices, internal
   register mappings) and every environment, a step never yields the Panic outcome, for any
   number of steps, and the faulting-address query stays below 2^16.  The Rust panic sites of the
   modelled code are inventoried from source on every run (tools/panic_sites.py sim --check). *)
From Coq Require Import ZArith List.
From Model Require Import Instr Sim.
From Proofs Require Import SimHoare SimAccess SimMachine SimNoPanic.
Open Scope Z_scope.

Theorem C16_step_total : forall e s, snd (step_in e s) <> OPanic.
Proof.
  intros e s. assert (K : Tr (fst (step_in e s)) /\ out_ok np_ok (snd (step_in e s))).
  { apply (hi_machine Tr np_ok e); try (intros; exact Logic.I);
      [intros v p; apply np_handle_interrupt|apply np_fetch_exec|discriminate]. }
  destruct K as [_ H]. intros E. rewrite E in H. apply H. reflexivity.
Qed.
Print Assumptions C16_step_total.

Theorem C16_run_total : forall es s, ~ In OPanic (snd (run_n es s)).
Proof.
  intros es s H.
  destruct (run_n_inv Tr (fun o => o <> OPanic) (fun e s _ => conj Logic.I (C16_step_total e s)) es s Logic.I) as [_ F].
  rewrite Forall_forall in F. exact (F _ H eq_refl).
Qed.
Print Assumptions C16_run_total.

Theorem C16_prefetch_pc_total : forall s, 0 <= prefetch_pc s < 65536.
Proof. intros s. apply wrap16_range. Qed.
Print Assumptions C16_prefetch_pc_total.

(* the one explicit panic site of the modelled code: register conversion in decode *)
Theorem C16_decode_total : forall w : Z, decode w <> DPanic.
Proof. exact SimMachine.decode_never_panics. Qed.
Print Assumptions C16_decode_total.
