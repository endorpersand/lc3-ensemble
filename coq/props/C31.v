(* C31 — Seeded simulations are reproducible.
   What is proved and what is not.  In the model everything the implementation draws from a random
   generator is an INPUT: the fill value of the initial machine ([fill], a Known strategy) and the
   timer draws ([e_draws] of every step's [env]).  The model is therefore a function of
   (initial state, list of envs): two runs given the same inputs agree at every step
   (C31_deterministic — immediate, stated for the record) and what is observed up to a step does
   not depend on later inputs (C31_history_prefix).  That `StdRng::seed_from_u64`, `random` and
   `random_range` return the same sequence for the same seed is a property of the `rand` crate
   and lies outside the model; it is covered by the harness's two-run oracle (area load: two
   independent simulators from the same seeds compared after every step) and by replaying the
   observed draws through the model (`sim.run` cases of the same area).
   The second sentence of the property (Known strategy) is proved in full: C31_known_init. *)
From Coq Require Import ZArith List Bool.
From Gen Require Import OsImage.
From Model Require Import Word Sim Load SimWire.
From Spec Require Import ObjImage.
From Proofs Require Import LoadProofs.
Import ListNotations.
Open Scope Z_scope.

Theorem C31_known_init : forall fl fill,
  (forall r, 0 <= r < 8 -> rget (s_regs (new_sim fl fill)) r = new_uninit fill) /\
  (forall a, 0 <= a < 65024 -> image os_blocks a = None ->
     mget (s_mem (new_sim fl fill)) a = new_uninit fill).
Proof. intros fl fill. split; [exact (new_sim_regs fl fill)|exact (new_sim_elsewhere fl fill)]. Qed.
Print Assumptions C31_known_init.

Theorem C31_deterministic : forall s1 s2 es1 es2, s1 = s2 -> es1 = es2 ->
  run_steps s1 es1 [] = run_steps s2 es2 [].
Proof. intros s1 s2 es1 es2 -> ->. reflexivity. Qed.
Print Assumptions C31_deterministic.

Theorem C31_history_prefix : forall es1 es2 s,
  exists tl, snd (run_steps s (es1 ++ es2) []) = snd (run_steps s es1 []) ++ tl.
Proof. exact run_steps_prefix. Qed.
Print Assumptions C31_history_prefix.

(* non-vacuity: there are addresses outside the OS image below the I/O page (user space) *)
Example C31_ex : image os_blocks 12288 = None /\ image os_blocks 65023 = None /\
  mget (s_mem (new_sim (mkFlags false false false false) 4660)) 12288 = new_uninit 4660.
Proof. vm_compute. repeat split. Qed.
