(* C02 — The assembler accepts exactly the well-formed programs; an error names a violated
   condition; it never panics.  [wf] / [violated] : spec/WfSpec.v (positional, unbounded Z).
   `assemble ast` is [assemble false None], `assemble_debug ast src` is [assemble true (Some src)]. *)
From Coq Require Import ZArith List Bool.
From Gen Require Import Constants.
From Model Require Import Text AsmAst Obj Assembler.
From Spec Require Import LayoutSpec WfSpec.
From Spec Require Import LineSpec.
From Proofs Require Import AsmPass1 AsmBlocks AsmThms AsmLines.
Import ListNotations.
Open Scope Z_scope.

Theorem C02_accepts_iff : forall p, typed p = true ->
  ((exists o, assemble false None p = AOk o) <-> wf p = true).
Proof. intros p T. exact (accepts_iff false None p T (total_plain p T)). Qed.
Print Assumptions C02_accepts_iff.

Theorem C02_accepts_iff_debug : forall src p, typed p = true -> assemble true (Some src) p <> APanic ->
  ((exists o, assemble true (Some src) p = AOk o) <-> wf p = true).
Proof. intros src p. exact (accepts_iff true (Some src) p). Qed.
Print Assumptions C02_accepts_iff_debug.

Theorem C02_error_names_violation : forall p k sp, typed p = true ->
  assemble false None p = AErr k sp -> violated p k = true.
Proof. exact (error_names_violation false None). Qed.
Print Assumptions C02_error_names_violation.

Theorem C02_error_names_violation_debug : forall src p k sp, typed p = true ->
  assemble true (Some src) p = AErr k sp -> violated p k = true.
Proof. intros src p. exact (error_names_violation true (Some src) p). Qed.
Print Assumptions C02_error_names_violation_debug.

(* a condition named by [violated] really makes the program ill-formed *)
Theorem C02_violation_is_ill_formed : forall p k, violated p k = true -> wf p = false.
Proof.
  intros p k V. destruct (wf p) eqn:W; [|reflexivity]. rewrite (wf_no_violation p k W) in V. discriminate.
Qed.
Print Assumptions C02_violation_is_ill_formed.

Theorem C02_total : forall p, typed p = true -> assemble false None p <> APanic.
Proof. exact total_plain. Qed.
Print Assumptions C02_total.

(* with debug symbols: for statements on strictly increasing lines of the text, as in parser output *)
Theorem C02_total_debug : forall src p, typed p = true -> lines_inc src p -> assemble true (Some src) p <> APanic.
Proof. exact assemble_debug_total. Qed.
Print Assumptions C02_total_debug.
Theorem C02_accepts_iff_debug_parsed : forall src p, typed p = true -> lines_inc src p ->
  ((exists o, assemble true (Some src) p = AOk o) <-> wf p = true).
Proof. intros src p T LI. exact (accepts_iff true (Some src) p T (assemble_debug_total src p T LI)). Qed.
Print Assumptions C02_accepts_iff_debug_parsed.

(* the location counter of pass 1 is the unbounded positional address as long as no error was
   returned: a step that ends exactly at x10000 is BlockInIO, one beyond is WrappingBlock *)
Theorem C02_shift_exact : forall c n, c_ovf c = false -> 0 <= c_lc c < 65536 -> 0 <= n < 65536 ->
  shift c n =
    if n =? 0 then SOk c
    else if c_lc c + n <=? asm.IO_START then SOk (mkCur (c_lc c + n) false (c_orig c))
    else if c_lc c + n <=? 65536 then SErr BlockInIO
    else SErr WrappingBlock.
Proof. exact shift_exact. Qed.
Print Assumptions C02_shift_exact.

(* checking the two neighbours in the sorted block map finds every overlap *)
Theorem C02_neighbour_check_complete : forall blk m,
  map_inv m -> block_ok blk ->
  (forall k b, In (k, b) (neighbours blk m) -> ranges_overlap (rng blk) (rng b) = false) ->
  forall k b, In (k, b) m -> ranges_overlap (rng blk) (rng b) = false.
Proof. exact neighbour_check_complete. Qed.
Print Assumptions C02_neighbour_check_complete.

(* examples: accepted; a block ending exactly at xFE00 is accepted, one word further is not;
   a later block placed before an earlier one and overlapping it *)
Definition st (n : nucleus) : stmt := mkStmt [] n 0 0.
Example C02_ex_edge :
  wf [st (NDir (DOrig 65023)); st (NInstr AHALT); st (NDir DEnd)] = true /\
  wf [st (NDir (DOrig 65023)); st (NInstr AHALT); st (NInstr AHALT); st (NDir DEnd)] = false /\
  (exists sp, assemble false None [st (NDir (DOrig 65023)); st (NInstr AHALT); st (NInstr AHALT); st (NDir DEnd)] = AErr BlockInIO sp) /\
  (exists sp, assemble false None [st (NDir (DOrig 65535)); st (NDir (DBlkw 2)); st (NDir DEnd)] = AErr WrappingBlock sp) /\
  (exists sp, assemble false None [st (NDir (DOrig 12290)); st (NInstr AHALT); st (NDir DEnd);
                                   st (NDir (DOrig 12288)); st (NDir (DBlkw 3)); st (NDir DEnd)] = AErr OverlappingBlocks sp).
Proof. vm_compute. repeat split; try reflexivity; eexists; reflexivity. Qed.
