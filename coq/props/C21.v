(* C21 — External references are never silently left unresolved.
   The assembler's part of the property is the object-level condition [ExtSitesRecorded o sites]
   (= the boolean [ext_sites_recorded_b o sites = true]): for a program whose `.fill` sites of
   declared-and-undefined externals are [sites], the object carries its symbol table, flags each
   such label external and has a relocation entry at each site.  The harness evaluates it on
   every assembled object, for both debug modes and every placement of `.external` (the two
   assembler defects repaired in /repo violate it, see C21_ex).  [load_check] is the
   external-symbol check at the head of `Simulator::load_obj_file`. *)
From Coq Require Import ZArith List Bool Permutation.
From Model Require Import Tree Bits Text SourceInfo Obj Link.
From Spec Require Import LinkSpec.
From Proofs Require Import LinkProofs.
Import ListNotations.
Open Scope Z_scope.

(* a file with a `.fill` of an undefined external fails to load *)
Theorem C21_load_fails : forall o sites, ExtSitesRecorded o sites -> sites <> [] ->
  load_check o = LoadUnresolvedExternal.
Proof. exact load_fails. Qed.
Print Assumptions C21_load_fails.

(* the load check passes exactly when no label of the object is external *)
Theorem C21_load_ok_iff : forall o, ObjInv o ->
  (load_check o = LoadOk <-> forall n x, v_lbl (view_of o) n <> Some (x, true)).
Proof.
  intros o Io. destruct (load_check o) eqn:H.
  - split; [|reflexivity]. intros _ n x Hn. apply load_check_of_label in Hn. congruence.
  - split; [discriminate|]. intro K. destruct (load_check_label _ Io H) as (n & Hn). exfalso. eapply K; eauto.
Qed.
Print Assumptions C21_load_ok_iff.

(* recorded sites are pending relocations *)
Theorem C21_sites_pending : forall o sites a n, ObjInv o -> ExtSitesRecorded o sites -> In (a, n) sites ->
  v_pend (view_of o) a = Some n.
Proof. exact ext_sites_pend. Qed.
Print Assumptions C21_sites_pending.

(* after linking in a file that defines the label (in either order) the word at the site holds
   the label's address and the relocation is gone *)
Theorem C21_link_resolves : forall a b r addr n t, ObjInv a -> ObjInv b -> LinesFit a b ->
  v_pend (view_of a) addr = Some n -> v_lbl (view_of b) n = Some (t, false) ->
  (link a b = LOk r \/ link b a = LOk r) ->
  v_img (view_of r) addr = Some (Some t) /\ v_pend (view_of r) addr = None.
Proof.
  intros a b r addr n t Ia Ib Hf Hp Hl [Hr|Hr];
    [destruct (pair_tree a b Ia Ib Hf) as (Hinv & Hn)|destruct (pair_tree b a Ib Ia (linesfit_sym _ _ Hf)) as (Hinv & Hn)];
    refine (proj1 (link_tree_site _ r a addr n Hinv Hn Hr _ Hp) b t _ Hl); cbn; auto.
Qed.
Print Assumptions C21_link_resolves.

(* the same inside any set of files linked in any order and bracketing *)
Theorem C21_link_set_resolves : forall t r u d addr n x, Forall ObjInv (leaves t) -> total_lines (leaves t) <= usize_max ->
  lt_eval t = LOk r -> In u (leaves t) -> In d (leaves t) ->
  v_pend (view_of u) addr = Some n -> v_lbl (view_of d) n = Some (x, false) ->
  v_img (view_of r) addr = Some (Some x) /\ v_pend (view_of r) addr = None.
Proof. intros t r u d addr n x Hinv Hn E Hu Hd Hp Hl. exact (proj1 (link_tree_site t r u addr n Hinv Hn E Hu Hp) d x Hd Hl). Qed.
Print Assumptions C21_link_set_resolves.

(* never silent: while no linked file defines the label, the linked object still fails to load *)
Theorem C21_unresolved_stays_loud : forall t r u addr n, Forall ObjInv (leaves t) -> total_lines (leaves t) <= usize_max ->
  lt_eval t = LOk r -> In u (leaves t) -> v_pend (view_of u) addr = Some n ->
  (forall d x, In d (leaves t) -> v_lbl (view_of d) n <> Some (x, false)) ->
  load_check r = LoadUnresolvedExternal.
Proof.
  intros t r u addr n Hinv Hn E Hu Hp Hnd.
  destruct (proj2 (link_tree_site t r u addr n Hinv Hn E Hu Hp) Hnd) as (_ & _ & K).
  exact (load_check_of_label r n 0 K).
Qed.
Print Assumptions C21_unresolved_stays_loud.

(* hypotheses are satisfiable; and the two repaired assembler defects at object level: no
   relocation entry (declaration after the use), no symbol table (no debug symbols) *)
Definition ex_user : objfile :=
  mkObj [(12288, [Some 0])] (Some (mkSymtab [([88], mkSym 0 10 true)] [(12288, [88])] None)).
Definition ex_norel : objfile :=
  mkObj [(12288, [Some 0])] (Some (mkSymtab [([88], mkSym 0 10 true)] [] None)).
Definition ex_nosym : objfile := mkObj [(12288, [Some 0])] None.
Example C21_ex : ObjInv ex_user /\ ExtSitesRecorded ex_user [(12288, [88])] /\
  load_check ex_user = LoadUnresolvedExternal /\
  ext_sites_recorded_b ex_norel [(12288, [88])] = false /\
  ext_sites_recorded_b ex_nosym [(12288, [88])] = false /\ load_check ex_nosym = LoadOk.
Proof. vm_compute. repeat split. Qed.
