(* C08 — Each simulator step follows the LC-3 ISA.
   [spec_step] (spec/IsaSpec.v) is the reference semantics over architectural state: one clause
   per opcode, trap/interrupt/exception entry, RTI, memory-mapped I/O, real and virtual traps.
   [abs] (model/IsaWire.v) forgets everything that is not architectural (initialisation masks,
   frames, observer, counters).  The theorem: for EVERY model state in non-strict mode whose
   registers and PC hold 16-bit values, every environment (lock pattern, timer draws, pending
   interrupts) and every flag combination, one model step is exactly one reference step, with
   the same outcome (ok / halt / the same error).  Strict mode is related to non-strict mode by
   C14.  The implementation is tied to BOTH: to the model (`sim.run`, every field after every
   step) and directly to the reference semantics (`isa.run`). *)
From Coq Require Import ZArith List.
From Model Require Import Bits Word Sim IsaWire Load.
From Spec Require Import IsaSpec.
From Proofs Require Import SimNoPanic SimRefinePrims SimRefineExec SimRefineStep SimWf SimStrict SimStrictRun.
Import ListNotations.
Open Scope Z_scope.

Theorem C08_step_refines : forall e s,
  fl_strict (s_flags s) = false ->
  (forall r, 0 <= w_data (rget (s_regs s) r) < 65536) ->
  0 <= s_pc s < 65536 ->
  exists so, out_match (snd (step_in e s)) so /\ spec_step e (abs s) = (abs (fst (step_in e s)), so).
Proof.
  intros e s H W Hpc. unfold step_in.
  destruct (step_refines e (upd_obs s []) H W Hpc) as (o & B & S1 & _).
  destruct (step e (upd_obs s [])) as [s1 r]. cbn [fst snd] in *. rewrite abs_upd_obs in S1.
  exists o. split; [exact (out_match_of r o B)|exact S1].
Qed.
Print Assumptions C08_step_refines.

(* every instruction separately (after fetch and PC increment), incl. the virtual HALT *)
Theorem C08_execute_refines : forall e i s,
  fl_strict (s_flags s) = false ->
  (forall r, 0 <= w_data (rget (s_regs s) r) < 65536) ->
  s_prefetch s = false -> trap_ok i ->
  let '(s', r) := exec e i s in
  exists o, sout_of r = Some o /\ execute e (wrap16 (s_pc s - 1)) i (abs s) = (abs s', o) /\ s_flags s' = s_flags s.
Proof.
  intros e i s H W P T. pose proof (exec_ref e i s H W P T) as R. destruct (exec e i s) as [s' r]. exact R.
Qed.
Print Assumptions C08_execute_refines.

(* trap / exception / interrupt entry: privilege, stack switch, pushes, CC, priority, vectoring *)
Theorem C08_entry_refines : forall e vect prio s,
  fl_strict (s_flags s) = false ->
  let '(s', r) := do_entry e vect prio s in
  enter e vect prio (abs s) = (abs s', match sout_of r with Some o => o | None => SOk end)
  /\ sout_of r <> None /\ s_flags s' = s_flags s.
Proof.
  intros e vect prio s H. destruct (do_entry_ref e vect prio s H) as (o & E & Y & F).
  destruct (do_entry e vect prio s) as [s' r]. cbn [fst snd] in *. rewrite E. repeat split; [exact Y|discriminate|exact F].
Qed.
Print Assumptions C08_entry_refines.

(* a step of a strict machine stops with one of the nine strict errors of C14 or is exactly the reference step *)
Theorem C08_strict_step_refines : forall e s,
  (forall r, 0 <= w_data (rget (s_regs s) r) < 65536) -> 0 <= s_pc s < 65536 ->
  let '(s1, o) := step_in e s in
  (exists x, o = OErr x /\ is_strict_err x = true) \/
  (exists so, out_match o so /\ spec_step e (abs s) = (abs s1, so)).
Proof.
  intros e s W P. pose proof (strict_step_same e s) as S.
  pose proof (C08_step_refines e (unstrict s) eq_refl W P) as (so & OM & SP). change (abs (unstrict s)) with (abs s) in SP.
  destruct (step_in e s) as [s1 o]. cbn [fst snd] in S. destruct (strict_out o) eqn:SO.
  - left. destruct o as [| |x|]; try discriminate SO. exists x. split; [reflexivity|exact SO].
  - right. rewrite (S eq_refl) in OM, SP. exists so. split; assumption.
Qed.
Print Assumptions C08_strict_step_refines.

(* [WF]: what the Rust types u16/u8 guarantee (registers, PC, PSR, saved SP, memory words 16-bit; keyboard bytes
   bytes); preserved in every mode *)
Theorem C08_wf_preserved : forall e s, WF s -> WF (fst (step_in e s)).
Proof. exact wf_step_in. Qed.
Print Assumptions C08_wf_preserved.

(* hence for runs of any length: the outcomes and the final architectural state are the reference's *)
Theorem C08_run_refines : forall es s, fl_strict (s_flags s) = false -> WF s ->
  let '(s', outs) := run_n es s in
  let '(a', souts) := spec_run es (abs s) in
  a' = abs s' /\ Forall2 out_match outs souts.
Proof. exact run_refines. Qed.
Print Assumptions C08_run_refines.

(* the hypotheses are met by a fresh machine (and by every state the harness generates) *)
Example C08_hypotheses_satisfiable :
  let s := new_sim (mkFlags false true false false) 1234 in
  fl_strict (s_flags s) = false /\ (forall r, 0 <= w_data (rget (s_regs s) r) < 65536) /\ 0 <= s_pc s < 65536.
Proof.
  cbv zeta. split; [reflexivity|]. split.
  - apply wf_regs_forall.
    assert (E : s_regs (new_sim (mkFlags false true false false) 1234) = repeat (mkWord 1234 0) 8) by (vm_compute; reflexivity).
    rewrite E. cbn [repeat]. repeat constructor; cbn [w_data]; discriminate.
  - assert (E : s_pc (new_sim (mkFlags false true false false) 1234) = 12288) by (vm_compute; reflexivity).
    rewrite E. split; [discriminate | reflexivity].
Qed.

(* runs of strict machines without a strict error along the way *)
Theorem C08_strict_run_refines : forall es s, WF s ->
  existsb strict_out (snd (run_n es s)) = false ->
  let '(s', outs) := run_n es s in
  let '(a', souts) := spec_run es (abs s) in
  a' = abs s' /\ Forall2 out_match outs souts.
Proof.
  intros es s W H. pose proof (strict_run_simulation es s H) as S.
  pose proof (run_refines es (unstrict s) eq_refl W) as R.
  rewrite S in R. change (abs (unstrict s)) with (abs s) in R.
  destruct (run_n es s) as [s' outs]. cbn [fst snd] in R.
  destruct (spec_run es (abs s)) as [a' souts]. exact R.
Qed.
Print Assumptions C08_strict_run_refines.
