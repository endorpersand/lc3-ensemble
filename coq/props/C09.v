(* C09 — User-mode code cannot touch memory or state outside user space.
   The accesses of an instruction go through [read_mem]/[write_mem] with the context [default_ctx] of the current state
   (two places read memory directly and change nothing in it: the strict look of [set_pc] at its target word, and
   [push_frame], which copies the stack arguments of a callee with a stack-convention signature into the recorded frame,
   unchecked and untracked).  Proved for ALL
   states, addresses and values: in user mode with privilege checks on that context is unprivileged; an unprivileged
   access outside x3000-xFDFF is denied and changes NOTHING; a permitted unprivileged read changes only the observer, a
   permitted write exactly that one user-space word; RTI is a privilege violation that changes nothing.  Composed over
   whole instructions other than TRAP, on every path including the error paths, and over runs of any length of such
   steps (the devices change only by being polled).  TRAP and interrupts enter the OS through the vector table: their
   privileged accesses are exactly those of [enter] (C08_entry_refines). *)
From Coq Require Import ZArith List Bool.
From Model Require Import Bits Word Instr Sim.
From Proofs Require Import SimAccess SimUser IrqProofs SimUserRun SimUserHalt.
Import ListNotations.
Open Scope Z_scope.

Theorem C09_user_context_unprivileged : forall s,
  psr_privileged (s_psr s) = false -> fl_ignore_priv (s_flags s) = false -> c_priv (default_ctx s) = false.
Proof. intros s P I. apply user_ctx. split; assumption. Qed.
Print Assumptions C09_user_context_unprivileged.

Theorem C09_read_denied : forall e a c s, c_priv c = false -> in_user a = false ->
  read_mem e a c s = (s, inr (BErr AccessViolation)).
Proof. exact read_denied. Qed.
Print Assumptions C09_read_denied.

Theorem C09_write_denied : forall e a w c s, c_priv c = false -> in_user a = false ->
  write_mem e a w c s = (s, inr (BErr AccessViolation)).
Proof. exact write_denied. Qed.
Print Assumptions C09_write_denied.

Theorem C09_user_read_is_pure : forall e a c s, c_priv c = false -> in_user a = true ->
  read_mem e a c s = ((if c_track c then upd_obs s (obs_update (s_obs s) a OBS_READ) else s), inl (mget (s_mem s) a)).
Proof. exact read_user. Qed.
Print Assumptions C09_user_read_is_pure.

Theorem C09_user_write_is_local : forall e a w c s, c_priv c = false -> in_user a = true ->
  exists s', write_mem e a w c s = (s', match set_if_init w (c_strict c) with Some _ => inl tt | None => inr (BErr StrictMemSetUninit) end)
    /\ s_regs s' = s_regs s /\ s_pc s' = s_pc s /\ s_psr s' = s_psr s /\ s_devs s' = s_devs s
    /\ s_saved_sp s' = s_saved_sp s /\ s_mcr s' = s_mcr s
    /\ (forall b, 0 <= b -> b <> a -> mget (s_mem s') b = mget (s_mem s) b).
Proof. exact write_user. Qed.
Print Assumptions C09_user_write_is_local.

Theorem C09_rti_user : forall e s,
  psr_privileged (s_psr s) = false -> fl_ignore_priv (s_flags s) = false ->
  exec e SRTI s = (s, inr (BErr PrivilegeViolation)).
Proof. intros e s P I. apply rti_user. split; assumption. Qed.
Print Assumptions C09_rti_user.

(* [U s0 s]: s is in user mode and agrees with s0 on everything a user program must not change *)
Theorem C09_user_instruction_confined : forall e i s0 s,
  is_trap i = false -> U s0 s -> U s0 (fst (exec e i s)).
Proof. intros e i s0 s NT H. exact (inv_U_exec e i s0 NT s H). Qed.
Print Assumptions C09_user_instruction_confined.

Theorem C09_user_fetch_execute_confined : forall e s0 s,
  U s0 s ->
  (forall i, decode (w_data (mget (s_mem s) (s_pc s))) = DOk i -> is_trap i = false) ->
  U s0 (fst (fetch_exec_u e s)).
Proof. intros e s0 s Hs NT. rewrite fetch_exec_u_eq. apply fetch_exec_confined; [exact Hs|]. intros i D. apply inv_U_exec, NT, D. Qed.
Print Assumptions C09_user_fetch_execute_confined.

(* whole steps and runs.  [UP s0 s] is [U s0 s] up to the devices, which the machine itself polls at every boundary
   ([PolledFrom]).  One boundary at which no interrupt is taken, whatever the outcome (completed or any error): *)
Theorem C09_user_step_confined : forall e s0 s,
  UP s0 s -> (forall v p, ~ takes_irq e s v p) ->
  (forall i, decode (w_data (mget (s_mem s) (s_pc s))) = DOk i -> is_trap i = false) ->
  UP s0 (fst (step_inner e s)) /\ s_devs (fst (step_inner e s)) = polled_devs e (s_devs s) (e_draws e).
Proof. intros e s0 s H NT NTR. apply step_confined; [exact H|exact NT|]. intros i D d. apply inv_U_exec, NTR, D. Qed.
Print Assumptions C09_user_step_confined.
(* runs of any length; each step is a [step_inner] from the emptied observer, which is what [step_in] performs as long as
   nothing is redirected into the OS *)
Theorem C09_user_run_confined : forall s0 s t, UserRun s t -> UP s0 s -> UP s0 t /\ PolledFrom (s_devs s) (s_devs t).
Proof. intros s0 s t R. exact (run_confined _ s0 (fun i N e d => inv_U_exec e i _ N) s t (UserRun_of s t R)). Qed.
Print Assumptions C09_user_run_confined.
Theorem C09_user_run_def : forall s t, UserRun s t <->
  s = t \/ exists e,
    (forall v p, ~ takes_irq e s v p) /\
    (forall i, decode (w_data (mget (s_mem s) (s_pc s))) = DOk i -> is_trap i = false) /\
    UserRun (fst (step_inner e (upd_obs s []))) t.
Proof.
  intros s t. split.
  - intros R. destruct R as [s|e s t NT NTR R]; [left; reflexivity|right; exists e; repeat split; assumption].
  - intros [E|(e & NT & NTR & R)]; [subst; apply ur_refl|exact (ur_next e s t NT NTR R)].
Qed.
Print Assumptions C09_user_run_def.
Theorem C09_run_invariant_meaning : forall s0 s, UP s0 s ->
  psr_privileged (s_psr s) = false /\ s_flags s = s_flags s0 /\ s_saved_sp s = s_saved_sp s0 /\
  s_mcr s = s_mcr s0 /\ s_ireg s = s_ireg s0 /\
  (forall a, 0 <= a -> in_user a = false -> mget (s_mem s) a = mget (s_mem s0) a).
Proof.
  intros s0 s (P & F & I & M & D & SS & MC & IR). cbn [upd_devs s_flags s_mem s_saved_sp s_mcr s_ireg] in *.
  repeat split; try assumption. apply user_psr_not_priv. exact P.
Qed.
Print Assumptions C09_run_invariant_meaning.
(* non-vacuity, evaluated in Coq: ADD then STI through a pointer into OS space *)
Theorem C09_run_example :
  UP ex_user_state ex_user_state /\
  exists t, UserRun ex_user_state t /\ UP ex_user_state t /\
    s_instrs t = 1 /\ rget (s_regs t) 0 = new_init 1 /\
    snd (step_inner ex_free (upd_obs (fst (step_inner ex_free (upd_obs ex_user_state []))) [])) = inr (BErr AccessViolation) /\
    mget (s_mem t) 512 = new_init 777.
Proof. exact ex_user_run. Qed.
Print Assumptions C09_run_example.
(* the one TRAP that does not enter the OS: under virtual traps HALT (TRAP x25) stops the machine where it is; the
   confinement theorems hold for programs that end in it *)
Theorem C09_stays_user_def : forall real i,
  stays_user real i = match i with STRAP v => negb real && (v =? 37) | _ => true end.
Proof. reflexivity. Qed.
Print Assumptions C09_stays_user_def.
Theorem C09_user_instruction_confined_halt : forall e i s0 s,
  stays_user (fl_real (s_flags s0)) i = true -> U s0 s -> U s0 (fst (exec e i s)).
Proof. intros e i s0 s H Hs. exact (inv_U_exec_halt e i s0 H s Hs). Qed.
Print Assumptions C09_user_instruction_confined_halt.
Theorem C09_user_step_confined_halt : forall e s0 s,
  UP s0 s -> (forall v p, ~ takes_irq e s v p) ->
  (forall i, decode (w_data (mget (s_mem s) (s_pc s))) = DOk i -> stays_user (fl_real (s_flags s0)) i = true) ->
  UP s0 (fst (step_inner e s)) /\ s_devs (fst (step_inner e s)) = polled_devs e (s_devs s) (e_draws e).
Proof. intros e s0 s H NT NTR. apply step_confined; [exact H|exact NT|]. intros i D d. apply inv_U_exec_halt, NTR, D. Qed.
Print Assumptions C09_user_step_confined_halt.
Theorem C09_user_run_confined_halt : forall s0 s t, UserRunH (fl_real (s_flags s0)) s t -> UP s0 s -> UP s0 t.
Proof.
  intros s0 s t R H. exact (proj1 (run_confined (fun i => stays_user (fl_real (s_flags s0)) i = true) s0
                  (fun i N e d => inv_U_exec_halt e i (upd_devs s0 d) N) s t (UserRunH_of _ s t R) H)).
Qed.
Print Assumptions C09_user_run_confined_halt.
Theorem C09_invariant_meaning : forall s0 s, U s0 s ->
  psr_privileged (s_psr s) = false /\ s_devs s = s_devs s0 /\ s_saved_sp s = s_saved_sp s0 /\ s_mcr s = s_mcr s0
  /\ (forall a, 0 <= a -> in_user a = false -> mget (s_mem s) a = mget (s_mem s0) a).
Proof.
  intros s0 s (P & F & I & M & D & SS & MC & IR). repeat split; try assumption. apply user_psr_not_priv. exact P.
Qed.
Print Assumptions C09_invariant_meaning.

Theorem C09_invariant_initial : forall s, 32768 <= s_psr s < 65536 -> fl_ignore_priv (s_flags s) = false -> U s s.
Proof. exact U_refl. Qed.
Print Assumptions C09_invariant_initial.

Example C09_ex : in_user 12287 = false /\ in_user 12288 = true /\ in_user 65023 = true /\ in_user 65024 = false.
Proof. vm_compute. repeat split. Qed.
