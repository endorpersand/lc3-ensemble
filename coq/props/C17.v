(* C17 — Binary object format round-trips every object file.
   [ser_bin]/[deser_bin] (model/ObjBin.v) are byte-exact models of BinaryFormat::serialize /
   deserialize of the repaired code (relocation addresses little-endian on both sides);
   [obj_inv] is the boolean invariant that the harness checks on every assembled / linked object
   (op objbin.inv); [obj_equiv] (spec/ObjEquiv.v) is equality up to the order of the two hash maps. *)
From Coq Require Import ZArith List Bool.
From Model Require Import Tree Text Obj ObjBin.
From Spec Require Import ObjEquiv.
From Proofs Require Import ObjBytesProofs ObjBinProofs.
Import ListNotations.
Open Scope Z_scope.

(* the writer may iterate label_map and rel_map in any order [o_w]; the reader then returns an
   object equal to the original (same image, labels, external flags, relocation entries, line
   map and source text) *)
Theorem C17_roundtrip : forall o, obj_inv o = true ->
  forall o_w, obj_equiv o o_w -> exists o', deser_bin (ser_bin o_w) = ROk o' /\ obj_equiv o o'.
Proof.
  intros o H o_w E. exists o_w. split; [|exact E].
  apply deser_ser_bin. eapply obj_inv_equiv; eassumption.
Qed.
Print Assumptions C17_roundtrip.

(* in the model the reader even rebuilds the lists in the order they were written *)
Theorem C17_roundtrip_exact : forall o, obj_inv o = true -> deser_bin (ser_bin o) = ROk o.
Proof. exact deser_ser_bin. Qed.
Print Assumptions C17_roundtrip_exact.

Theorem C17_inv_order_independent : forall o o', obj_equiv o o' -> obj_inv o = true -> obj_inv o' = true.
Proof. exact obj_inv_equiv. Qed.
Print Assumptions C17_inv_order_independent.

Theorem C17_u16_le_inverse : forall z, 0 <= z < 65536 -> from_le (u16_le z) = z.
Proof. exact from_le_u16. Qed.
Print Assumptions C17_u16_le_inverse.
Theorem C17_u64_le_inverse : forall z, 0 <= z <= USIZE_MAX -> from_le (u64_le z) = z.
Proof. exact from_le_u64. Qed.
Print Assumptions C17_u64_le_inverse.
Theorem C17_take_append : forall a r n, len a = n -> take_slice n (a ++ r) = Some (a, r).
Proof. exact take_slice_app. Qed.
Print Assumptions C17_take_append.
Theorem C17_utf8_roundtrip : forall s, valid_str s = true -> utf8_decode (utf8_bytes s) = Some s.
Proof. exact utf8_roundtrip. Qed.
Print Assumptions C17_utf8_roundtrip.

(* the hypotheses are satisfiable: an object with two blocks, an external and a defined label
   (one of them non-ASCII), a relocation entry, a line map and a source text *)
Definition C17_example : objfile :=
  mkObj [(12288, [Some 8193; None; Some 0]); (16384, [Some 61477])]
        (Some (mkSymtab [([70; 79; 79], mkSym 0 10 true); ([88; 233], mkSym 12290 40 false)]
                        [(12290, [70; 79; 79])]
                        (Some (mkDebug [(2, [12288; 12289; 12290]); (7, [16384])] [59; 233; 10; 120; 10])))).
Example C17_ex : obj_inv C17_example = true /\ deser_bin (ser_bin C17_example) = ROk C17_example
                 /\ firstn 12 (ser_bin C17_example) = [111; 98; 106; 33; 16; 0; 1; 0; 0; 48; 3; 0].
Proof. vm_compute. repeat split. Qed.
