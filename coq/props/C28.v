(* C28 — Access observer records exactly the memory the program touched.
   Proved for all states: a tracked, permitted read marks exactly its address READ; a tracked, permitted write to
   ordinary memory marks its address WRITTEN, and MODIFIED exactly when the stored word differs from the old one; a
   denied read and an untracked (host) write leave the observer unchanged; every step_in starts from an empty
   observer.  Which addresses an instruction reads and writes is the model's [exec], compared per step with the
   implementation (observer contents are part of `sim.run` observations) and with independent reference access sets in
   harness area simprops. *)
From Coq Require Import ZArith List Bool.
From Model Require Import Bits Word Instr Sim.
From Proofs Require Import SimHoare SimAccess SimObs IrqProofs SimStepObs SimObsEntry.
Import ListNotations.
Open Scope Z_scope.

Theorem C28_read_marks : forall e a c s,
  s_obs (fst (read_mem e a c s)) =
  if negb (c_priv c) && negb (in_user a) then s_obs s
  else if c_track c then obs_update (s_obs s) a OBS_READ else s_obs s.
Proof. exact read_obs. Qed.
Print Assumptions C28_read_marks.

Theorem C28_write_marks : forall e a w c s,
  negb (c_priv c) && negb (in_user a) = false -> (IO_START <=? a) = false -> c_track c = true ->
  s_obs (fst (write_mem e a w c s)) =
  let o := obs_update (s_obs s) a OBS_WRITTEN in
  if word_eqb (mget (s_mem s) a) w then o else obs_update o a OBS_MODIFIED.
Proof. exact write_obs_plain. Qed.
Print Assumptions C28_write_marks.

Theorem C28_untracked_write : forall e a w c s, c_track c = false -> s_obs (fst (write_mem e a w c s)) = s_obs s.
Proof.
  intros e a w c s T. rewrite write_mem_eq. unfold mark_write, put. rewrite T.
  destruct (negb (c_priv c) && negb (in_user a)); [reflexivity|].
  destruct (IO_START <=? a); destruct (may_store w c); try reflexivity.
  unfold io_write. destruct (assoc (s_ireg s) a) as [[]|]; try reflexivity.
  destruct (dev_write e (nth_dev (s_devs s) (port_dev a)) a (w_data w)) as [d' [|]]; reflexivity.
Qed.
Print Assumptions C28_untracked_write.

Theorem C28_lookup_after_update : forall o a f b, sorted_obs o ->
  obs_get (obs_update o a f) b = if b =? a then Z.lor (obs_get o a) f else obs_get o b.
Proof. exact obs_get_update. Qed.
Print Assumptions C28_lookup_after_update.

Theorem C28_update_keeps_sorted : forall o a f, sorted_obs o -> sorted_obs (obs_update o a f).
Proof. exact sorted_update. Qed.
Print Assumptions C28_update_keeps_sorted.

(* whole instructions, after the fetch (one tracked read of the PC); without a memory operand: on every path *)
Theorem C28_no_operand_no_mark : forall e i o s,
  no_mem_operand i = true -> s_obs s = o -> s_obs (fst (exec e i s)) = o.
Proof. intros e i o s N E. rewrite (exec_obs_neutral e i N s). exact E. Qed.
Print Assumptions C28_no_operand_no_mark.

Theorem C28_ld_marks_read : forall e dr off s s' u,
  exec e (SLD dr off) s = (s', inl u) -> s_obs s' = obs_update (s_obs s) (wrap16 (s_pc s + off)) OBS_READ.
Proof. exact exec_obs_ld. Qed.
Print Assumptions C28_ld_marks_read.

Theorem C28_ldr_marks_read : forall e dr br off s s' u,
  exec e (SLDR dr br off) s = (s', inl u) ->
  s_obs s' = obs_update (s_obs s) (wrap16 (w_data (rget (s_regs s) br) + off)) OBS_READ.
Proof. exact exec_obs_ldr. Qed.
Print Assumptions C28_ldr_marks_read.

Theorem C28_st_marks_written : forall e sr off s s' u,
  exec e (SST sr off) s = (s', inl u) ->
  let ea := wrap16 (s_pc s + off) in
  (IO_START <=? ea) = false ->
  s_obs s' = let o := obs_update (s_obs s) ea OBS_WRITTEN in
             if word_eqb (mget (s_mem s) ea) (rget (s_regs s) sr) then o else obs_update o ea OBS_MODIFIED.
Proof. exact exec_obs_st. Qed.
Print Assumptions C28_st_marks_written.

Theorem C28_str_marks_written : forall e sr br off s s' u,
  exec e (SSTR sr br off) s = (s', inl u) ->
  let ea := wrap16 (w_data (rget (s_regs s) br) + off) in
  (IO_START <=? ea) = false ->
  s_obs s' = let o := obs_update (s_obs s) ea OBS_WRITTEN in
             if word_eqb (mget (s_mem s) ea) (rget (s_regs s) sr) then o else obs_update o ea OBS_MODIFIED.
Proof. exact exec_obs_str. Qed.
Print Assumptions C28_str_marks_written.
Theorem C28_ldi_marks : forall e dr off s s' u,
  exec e (SLDI dr off) s = (s', inl u) ->
  exists s1 w, read_mem e (wrap16 (s_pc s + off)) (default_ctx s) s = (s1, inl w) /\
    s_obs s' = obs_update (obs_update (s_obs s) (wrap16 (s_pc s + off)) OBS_READ) (w_data w) OBS_READ.
Proof. exact exec_obs_ldi. Qed.
Print Assumptions C28_ldi_marks.
Theorem C28_sti_marks : forall e sr off s s' u,
  exec e (SSTI sr off) s = (s', inl u) ->
  exists s1 w, read_mem e (wrap16 (s_pc s + off)) (default_ctx s) s = (s1, inl w) /\
    ((IO_START <=? w_data w) = false ->
     s_obs s' = let o := obs_update (obs_update (s_obs s) (wrap16 (s_pc s + off)) OBS_READ) (w_data w) OBS_WRITTEN in
                if word_eqb (mget (s_mem s1) (w_data w)) (rget (s_regs s1) sr) then o else obs_update o (w_data w) OBS_MODIFIED).
Proof. exact exec_obs_sti. Qed.
Print Assumptions C28_sti_marks.

Theorem C28_rti_marks_pops : forall e s s' u,
  exec e SRTI s = (s', inl u) ->
  let sp := w_data (rget (s_regs s) 6) in
  s_obs s' = obs_update (obs_update (s_obs s) sp OBS_READ) (wrap16 (sp + 1)) OBS_READ.
Proof. exact exec_obs_rti. Qed.
Print Assumptions C28_rti_marks_pops.
(* entry into a trap, exception or interrupt routine, stack slots in ordinary memory (the same is asked of the vector,
   though a read marks its address wherever it lies): the two pushes and the vector read, nothing else *)
Theorem C28_wmark_def : forall o a old new,
  wmark o a old new = let o1 := obs_update o a OBS_WRITTEN in if word_eqb old new then o1 else obs_update o1 a OBS_MODIFIED.
Proof. reflexivity. Qed.
Print Assumptions C28_wmark_def.
Theorem C28_entry_sp_def : forall s,
  entry_sp s = if psr_privileged (s_psr s) then w_data (rget (s_regs s) 6) else w_data (s_saved_sp s).
Proof. reflexivity. Qed.
Print Assumptions C28_entry_sp_def.
Theorem C28_interrupt_entry_marks : forall e v p s s' u,
  List.length (s_regs s) = 8%nat -> psr_priority (s_psr s) < p ->
  handle_interrupt e v (Some p) s = (s', inl u) ->
  let a1 := wrap16 (entry_sp s - 1) in let a2 := wrap16 (entry_sp s - 2) in
  (IO_START <=? a1) = false -> (IO_START <=? a2) = false -> (IO_START <=? v) = false ->
  s_obs s' = obs_update (wmark (wmark (s_obs s) a1 (mget (s_mem s) a1) (new_init (s_psr s)))
                                a2 (mget (s_mem s) a2) (new_init (s_pc s))) v OBS_READ.
Proof. exact interrupt_entry_obs. Qed.
Print Assumptions C28_interrupt_entry_marks.
Theorem C28_trap_entry_marks : forall e v s s' u,
  List.length (s_regs s) = 8%nat ->
  handle_interrupt e v None s = (s', inl u) ->
  let a1 := wrap16 (entry_sp s - 1) in let a2 := wrap16 (entry_sp s - 2) in
  (IO_START <=? a1) = false -> (IO_START <=? a2) = false -> (IO_START <=? v) = false ->
  s_obs s' = obs_update (wmark (wmark (s_obs s) a1 (mget (s_mem s) a1) (new_init (s_psr s)))
                                a2 (mget (s_mem s) a2) (new_init (s_pc s))) v OBS_READ.
Proof. exact trap_entry_obs. Qed.
Print Assumptions C28_trap_entry_marks.

(* whole steps: a completed step that takes no interrupt is the fetch, one tracked read of the PC into the emptied
   observer, followed by the instruction the fetched word decodes to *)
Theorem C28_step_is_fetch_then_instruction : forall e s s' u,
  (forall v p, ~ takes_irq e s v p) -> step_inner e (upd_obs s []) = (s', inl u) ->
  step_in e s = (s', OOk) /\
  exists s1 w i s3,
    read_mem e (s_pc s) (default_ctx s) (after_poll e (upd_obs s [])) = (s1, inl w) /\
    decode (w_data w) = DOk i /\
    s_obs (after_fetch s1) = [(s_pc s, OBS_READ)] /\
    exec e i (after_fetch s1) = (s3, inl tt) /\
    s_obs s' = s_obs s3.
Proof.
  intros e s s' u NT E. split.
  - rewrite step_in_eq, E. unfold finish. destruct (fl_real (s_flags s')); reflexivity.
  - destruct (step_fetch_exec e s s' u NT E) as (s1 & w & i & s3 & R & D & X & ->).
    exists s1, w, i, s3. repeat split; try assumption. exact (read_ok_obs _ _ _ _ _ _ R eq_refl).
Qed.
Print Assumptions C28_step_is_fetch_then_instruction.
(* ... hence, in terms of the state before the step *)
Theorem C28_completed_def : forall e s s' u s1 w i,
  Completed e s s' u s1 w i <->
  (forall v p, ~ takes_irq e s v p) /\
  step_inner e (upd_obs s []) = (s', inl u) /\
  read_mem e (s_pc s) (default_ctx s) (after_poll e (upd_obs s [])) = (s1, inl w) /\
  decode (w_data w) = DOk i.
Proof. intros. reflexivity. Qed.
Print Assumptions C28_completed_def.
Theorem C28_step_no_operand : forall e s s' u s1 w i, Completed e s s' u s1 w i ->
  no_mem_operand i = true -> s_obs s' = [(s_pc s, OBS_READ)].
Proof.
  intros e s s' u s1 w i C N. destruct (step_exec _ _ _ _ _ _ _ C) as (V & s3 & X & ->).
  pose proof (exec_obs_neutral e i N (after_fetch s1)) as H. rewrite X in H. cbn [upd_instrs s_obs fst] in *. rewrite H. exact (fv_obs _ _ V).
Qed.
Print Assumptions C28_step_no_operand.
Theorem C28_step_ld : forall e s s' u s1 w dr off, Completed e s s' u s1 w (SLD dr off) ->
  s_obs s' = obs_update [(s_pc s, OBS_READ)] (wrap16 (wrap16 (s_pc s + 1) + off)) OBS_READ.
Proof.
  intros e s s' u s1 w dr off C. destruct (step_exec _ _ _ _ _ _ _ C) as (V & s3 & X & ->). cbn [upd_instrs s_obs].
  rewrite (exec_obs_ld _ _ _ _ _ _ X), (fv_obs _ _ V), (fv_pc _ _ V). reflexivity.
Qed.
Print Assumptions C28_step_ld.
Theorem C28_step_ldr : forall e s s' u s1 w dr br off, Completed e s s' u s1 w (SLDR dr br off) ->
  s_obs s' = obs_update [(s_pc s, OBS_READ)] (wrap16 (w_data (rget (s_regs s) br) + off)) OBS_READ.
Proof.
  intros e s s' u s1 w dr br off C. destruct (step_exec _ _ _ _ _ _ _ C) as (V & s3 & X & ->). cbn [upd_instrs s_obs].
  rewrite (exec_obs_ldr _ _ _ _ _ _ _ X), (fv_obs _ _ V), (fv_regs _ _ V). reflexivity.
Qed.
Print Assumptions C28_step_ldr.
Theorem C28_step_st : forall e s s' u s1 w sr off, Completed e s s' u s1 w (SST sr off) ->
  (IO_START <=? s_pc s) = false ->
  let ea := wrap16 (wrap16 (s_pc s + 1) + off) in
  (IO_START <=? ea) = false ->
  s_obs s' = let o := obs_update [(s_pc s, OBS_READ)] ea OBS_WRITTEN in
             if word_eqb (mget (s_mem s) ea) (rget (s_regs s) sr) then o else obs_update o ea OBS_MODIFIED.
Proof.
  intros e s s' u s1 w sr off C PIO ea IO. destruct (step_exec _ _ _ _ _ _ _ C) as (V & s3 & X & ->).
  pose proof (exec_obs_st _ _ _ _ _ _ X) as H. cbv zeta in H.
  rewrite (fv_obs _ _ V), (fv_pc _ _ V), (fv_regs _ _ V), (fv_mem _ _ V PIO) in H. exact (H IO).
Qed.
Print Assumptions C28_step_st.
Theorem C28_step_str : forall e s s' u s1 w sr br off, Completed e s s' u s1 w (SSTR sr br off) ->
  (IO_START <=? s_pc s) = false ->
  let ea := wrap16 (w_data (rget (s_regs s) br) + off) in
  (IO_START <=? ea) = false ->
  s_obs s' = let o := obs_update [(s_pc s, OBS_READ)] ea OBS_WRITTEN in
             if word_eqb (mget (s_mem s) ea) (rget (s_regs s) sr) then o else obs_update o ea OBS_MODIFIED.
Proof.
  intros e s s' u s1 w sr br off C PIO ea IO. destruct (step_exec _ _ _ _ _ _ _ C) as (V & s3 & X & ->).
  pose proof (exec_obs_str _ _ _ _ _ _ _ X) as H. cbv zeta in H.
  rewrite (fv_obs _ _ V), (fv_regs _ _ V), (fv_mem _ _ V PIO) in H. exact (H IO).
Qed.
Print Assumptions C28_step_str.
Theorem C28_step_ldi : forall e s s' u s1 w dr off, Completed e s s' u s1 w (SLDI dr off) ->
  (IO_START <=? s_pc s) = false ->
  let pa := wrap16 (wrap16 (s_pc s + 1) + off) in
  (IO_START <=? pa) = false ->
  s_obs s' = obs_update (obs_update [(s_pc s, OBS_READ)] pa OBS_READ) (w_data (mget (s_mem s) pa)) OBS_READ.
Proof.
  intros e s s' u s1 w dr off C PIO pa IO. destruct (step_exec _ _ _ _ _ _ _ C) as (V & s3 & X & ->).
  destruct (exec_obs_ldi _ _ _ _ _ _ X) as (t & w2 & R2 & H).
  rewrite (fv_obs _ _ V), (fv_pc _ _ V) in H. rewrite (fv_pc _ _ V) in R2.
  destruct (read_mem_ok_plain _ _ _ _ _ _ R2 IO) as [_ ->]. rewrite (fv_mem _ _ V PIO) in H. exact H.
Qed.
Print Assumptions C28_step_ldi.
Theorem C28_step_sti : forall e s s' u s1 w sr off, Completed e s s' u s1 w (SSTI sr off) ->
  (IO_START <=? s_pc s) = false ->
  let pa := wrap16 (wrap16 (s_pc s + 1) + off) in
  (IO_START <=? pa) = false ->
  let ea := w_data (mget (s_mem s) pa) in
  (IO_START <=? ea) = false ->
  s_obs s' = let o := obs_update (obs_update [(s_pc s, OBS_READ)] pa OBS_READ) ea OBS_WRITTEN in
             if word_eqb (mget (s_mem s) ea) (rget (s_regs s) sr) then o else obs_update o ea OBS_MODIFIED.
Proof.
  intros e s s' u s1 w sr off C PIO pa IO ea EIO. destruct (step_exec _ _ _ _ _ _ _ C) as (V & s3 & X & ->).
  destruct (exec_obs_sti _ _ _ _ _ _ X) as (t & w2 & R2 & H).
  rewrite (fv_obs _ _ V), (fv_pc _ _ V) in H. rewrite (fv_pc _ _ V) in R2.
  destruct (read_mem_ok_plain _ _ _ _ _ _ R2 IO) as [Mm2 ->].
  destruct (read_mem_kept _ _ _ _ _ _ R2) as (K2 & _).
  rewrite Mm2, (kp_regs _ _ K2), (fv_regs _ _ V), (fv_mem _ _ V PIO) in H. exact (H EIO).
Qed.
Print Assumptions C28_step_sti.
Theorem C28_step_rti : forall e s s' u s1 w, Completed e s s' u s1 w SRTI ->
  let sp := w_data (rget (s_regs s) 6) in
  s_obs s' = obs_update (obs_update [(s_pc s, OBS_READ)] sp OBS_READ) (wrap16 (sp + 1)) OBS_READ.
Proof.
  intros e s s' u s1 w C sp. destruct (step_exec _ _ _ _ _ _ _ C) as (V & s3 & X & ->). cbn [upd_instrs s_obs].
  rewrite (exec_obs_rti _ _ _ _ X), (fv_obs _ _ V), (fv_regs _ _ V). reflexivity.
Qed.
Print Assumptions C28_step_rti.
(* a TRAP that enters the OS (real traps, or a vector without virtual short-cut) *)
Theorem C28_step_trap : forall e s s' u s1 w v, Completed e s s' u s1 w (STRAP v) ->
  List.length (s_regs s) = 8%nat -> (IO_START <=? s_pc s) = false ->
  let a1 := wrap16 (entry_sp s - 1) in let a2 := wrap16 (entry_sp s - 2) in
  (IO_START <=? a1) = false -> (IO_START <=? a2) = false -> (IO_START <=? v) = false ->
  s_obs s' = obs_update (wmark (wmark [(s_pc s, OBS_READ)] a1 (mget (s_mem s) a1) (new_init (s_psr s)))
                                a2 (mget (s_mem s) a2) (new_init (wrap16 (s_pc s + 1)))) v OBS_READ.
Proof.
  intros e s s' u s1 w v C L PIO a1 a2 IO1 IO2 IOV. destruct (step_exec _ _ _ _ _ _ _ C) as (V & s3 & X & ->). cbn [upd_instrs s_obs].
  assert (ESP : entry_sp (after_fetch s1) = entry_sp s).
  { unfold entry_sp. rewrite (fv_psr _ _ V), (fv_regs _ _ V), (fv_saved_sp _ _ V). reflexivity. }
  rewrite <- (fv_regs _ _ V) in L.
  pose proof (trap_entry_obs e v (after_fetch s1) s3 tt L X) as H. cbv zeta in H.
  rewrite ESP, (fv_obs _ _ V), (fv_mem _ _ V PIO), (fv_psr _ _ V), (fv_pc _ _ V) in H. exact (H IO1 IO2 IOV).
Qed.
Print Assumptions C28_step_trap.
(* a step that takes an interrupt: nothing is fetched *)
Theorem C28_step_interrupt : forall e s s' u v p,
  List.length (s_regs s) = 8%nat -> takes_irq e s v p ->
  step_inner e (upd_obs s []) = (s', inl u) ->
  let a1 := wrap16 (entry_sp s - 1) in let a2 := wrap16 (entry_sp s - 2) in
  (IO_START <=? a1) = false -> (IO_START <=? a2) = false -> (IO_START <=? 256 + v) = false ->
  s_obs s' = obs_update (wmark (wmark [] a1 (mget (s_mem s) a1) (new_init (s_psr s)))
                                a2 (mget (s_mem s) a2) (new_init (s_pc s))) (256 + v) OBS_READ.
Proof.
  intros e s s' u v p L T STEP a1 a2 IO1 IO2 IOV.
  exact (interrupt_entry_obs e (256 + v) p (after_poll e (upd_obs s [])) s' u L (proj2 T)
           (step_takes_irq e s s' u v p T STEP) IO1 IO2 IOV).
Qed.
Print Assumptions C28_step_interrupt.
(* non-vacuity of the step theorems: `ST R0, #1` at x3000 in user mode with R0 = 5 over a zero word *)
Theorem C28_step_example :
  (forall v p, ~ takes_irq ex_env ex_st_state v p) /\
  (exists s', step_inner ex_env (upd_obs ex_st_state []) = (s', inl tt) /\
              step_in ex_env ex_st_state = (s', OOk) /\
              (exists s1 w, Completed ex_env ex_st_state s' tt s1 w (SST 0 1)) /\
              s_obs s' = [(12288, OBS_READ); (12290, Z.lor OBS_WRITTEN OBS_MODIFIED)] /\
              mget (s_mem s') 12290 = new_init 5).
Proof. exact ex_st_step. Qed.
Print Assumptions C28_step_example.
Theorem C28_cleared_every_step : forall e s, step_in e s = step_in e (upd_obs s []).
Proof. reflexivity. Qed.
Print Assumptions C28_cleared_every_step.
