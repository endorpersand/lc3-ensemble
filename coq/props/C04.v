(* C04 — Parsing never panics and its errors point inside the input.
   Proofs in proofs/LexerProofs.v and proofs/ParserProofs.v; the ASCII tables are compared below.
   The quantifier is over ALL lists of code points, of any length.
   [parse_ast] is the model of the repaired code (/repo commits `fix: lex_str_literal ...`);
   [parse_ast_with false] is the model of the pinned code, which panics. *)
From Coq Require Import ZArith List Bool.
From Model Require Import Tree Text Instr AsmAst Lexer Parser.
From Gen Require UnicodeTables.
From Proofs Require Import LexerProofs ParserProofs.
From Proofs Require Ranges.
Import ListNotations.
Open Scope Z_scope.

(* parsing any text returns statements or an error: no panic site of the model is reachable
   (slicing inside a character, `unreachable!`, Offset assertions, fuel exhaustion) *)
Theorem C04_total : forall s, parse_ast s <> PPanic.
Proof. intros s. pose proof (parse_ast_ok s) as H. destruct (parse_ast s); cbn [res_ok] in H; [discriminate|discriminate|contradiction]. Qed.
Print Assumptions C04_total.

Theorem C04_error_span : forall s k sp, parse_ast s = PErr k sp ->
  0 <= fst sp /\ fst sp <= snd sp /\ snd sp <= byte_len s.
Proof. intros s k sp H. pose proof (parse_ast_ok s) as Hok. rewrite H in Hok. exact Hok. Qed.
Print Assumptions C04_error_span.

(* the lexer alone: no panic; token spans are non-empty, in order, inside the input, and the
   first error (where lexing stops) lies after them and inside the input *)
Theorem C04_lex_total : forall s, lex s <> LexPanic.
Proof. exact lex_no_panic. Qed.
Print Assumptions C04_lex_total.

Theorem C04_lex_spans : forall s,
  match lex s with
  | LexOk l => spans_sorted 0 (byte_len s) l
  | LexErr l e sp => exists mid, spans_sorted 0 mid l /\ mid <= fst sp /\ fst sp < snd sp /\ snd sp <= byte_len s
  | LexPanic => True
  end.
Proof. intros s. exact (lex_at_spans true s 0). Qed.
Print Assumptions C04_lex_spans.

(* the pinned code violates the property: a backslash at the end of the line, and a multi-byte
   character after a backslash, make lex_str_literal panic; the repaired code reports an unclosed
   literal / keeps the character *)
Theorem C04_pinned_refuted :
  parse_ast_with false w_backslash_eol = PPanic /\
  parse_ast_with false w_backslash_multibyte = PPanic /\
  parse_ast w_backslash_eol = PErr (ELex UnclosedStrLit) (9, 14) /\
  parse_ast w_backslash_multibyte = POk [mkStmt [] (NDir (DStringz [97; 92; 233])) 0 15].
Proof. vm_compute. repeat split. Qed.
Print Assumptions C04_pinned_refuted.

(* the model answers ASCII characters without consulting the generated Unicode tables; both agree *)
Theorem C04_ascii_tables : forall c, 0 <= c < 128 ->
  in_ranges UnicodeTables.perl_word c = (is_digit c || is_alpha_us c) /\
  in_ranges UnicodeTables.perl_decimal c = is_digit c.
Proof.
  intros c Hc.
  pose (agree c := Bool.eqb (in_ranges UnicodeTables.perl_word c) (is_digit c || is_alpha_us c)
                   && Bool.eqb (in_ranges UnicodeTables.perl_decimal c) (is_digit c)).
  assert (H : agree c = true) by (apply (Proofs.Ranges.forall_range' agree 0 128); [vm_compute; reflexivity|exact Hc]).
  unfold agree in H. apply andb_prop in H. destruct H as [H1 H2].
  apply Bool.eqb_prop in H1. apply Bool.eqb_prop in H2. split; assumption.
Qed.
Print Assumptions C04_ascii_tables.

Example C04_ex : parse_ast [233] = PErr (ELex InvalidSymbol) (0, 2) /\ parse_ast [] = POk [] /\
                 parse_ast [65; 68; 68] = PErr (EMsg MExpReg) (0, 3).
Proof. vm_compute. repeat split. Qed.
