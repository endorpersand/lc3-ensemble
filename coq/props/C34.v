(* C34 — Timer interrupts follow the configured interval.
   Model: model/Timer.v (follows the repaired poll_interrupt: a fresh count of 0 fires on the poll
   that drew it).  Vocabulary of the statements: spec/TimerSpec.v ([gaps] = numbers of polls
   strictly between consecutive interrupts, [first_fire] = number of polls before the first one).

   The random draws are universally quantified: g k is what the k-th call of random_range returned.
   [timer_ok g t]: the range of t is not empty, its lower end is >= 0 (a u32) and every draw lies
   inside it — the contract of rand's random_range (trusted).  No lower bound 1 is needed: the
   statements hold for ranges that contain 0 as well. *)
From Coq Require Import ZArith List Bool Lia.
From Model Require Import Tree Timer.
From Spec Require Import TimerSpec.
From Proofs Require Import TimerProofs.
Import ListNotations.
Open Scope Z_scope.

(* While the range is unchanged, an enabled timer polled n times (any n, from any state, any draws
   within the range) never panics, and the number of polls strictly between two consecutive
   interrupts is always within the range. *)
Theorem C34_gap : forall g t n,
  timer_ok g t -> t_enabled t = true ->
  exists l t', timer_poll_n g t n = TOk (l, t') /\
               all_within (range_lo (t_range t)) (range_hi (t_range t)) (gaps l).
Proof.
  intros g t n Hok Hen. destruct (poll_n_polls g n t Hok) as [t' E]. exists (polls g t n), t'. split; [exact E|].
  apply polls_gaps; [intros k; apply (draw_bounds g t k Hok) | exact Hen | discriminate].
Qed.
Print Assumptions C34_gap.

(* ... exactly c for an exact count c (c = 0 included: then every poll interrupts). *)
Theorem C34_gap_exact : forall g t n c,
  timer_ok g t -> t_enabled t = true -> range_lo (t_range t) = c -> range_hi (t_range t) = c ->
  exists l t', timer_poll_n g t n = TOk (l, t') /\ Forall (fun x => x = c) (gaps l).
Proof.
  intros g t n c Hok Hen Hl Hh. destruct (C34_gap g t n Hok Hen) as (l & t' & E & Hw).
  exists l, t'. split; [exact E|]. rewrite Hl, Hh in Hw.
  eapply Forall_impl; [|exact Hw]. cbn beta. intros. lia.
Qed.
Print Assumptions C34_gap_exact.

(* Sharper: right after an interrupt (count 0) the next draw d IS the gap — exactly d polls
   without an interrupt, then one with, and one draw consumed.  So interrupts keep coming. *)
Theorem C34_gap_is_draw : forall g t,
  timer_ok g t -> t_enabled t = true -> t_time t = 0 ->
  timer_poll_n g t (S (Z.to_nat (g (t_drawn t)))) =
  TOk (repeat false (Z.to_nat (g (t_drawn t))) ++ [true], with_time t 0 (S (t_drawn t))).
Proof.
  (* the poll that draws d, then a count of d running down *)
  intros g t Hok Hen Ht. pose proof (draw_bounds g t (t_drawn t) Hok) as Hd.
  rewrite poll_n_unfold, (poll_ok g t Hok). unfold poll_next. rewrite Hen, Ht. cbn [negb Z.eqb].
  destruct (Z.eqb_spec (g (t_drawn t)) 0) as [Ed|Ed].
  - rewrite Ed. reflexivity.
  - destruct (Z.to_nat (g (t_drawn t))) as [|k] eqn:Ek; [lia|].
    rewrite countdown; [reflexivity | exact Hen | cbn [t_time with_time]; lia].
Qed.
Print Assumptions C34_gap_is_draw.

(* An enabled timer whose count is within the range interrupts within the first hi + 1 polls
   (at most hi polls pass before the first interrupt). *)
Theorem C34_first : forall g t,
  timer_ok g t -> t_enabled t = true -> 0 <= t_time t <= range_hi (t_range t) ->
  exists l t', timer_poll_n g t (Z.to_nat (range_hi (t_range t) + 1)) = TOk (l, t') /\
               exists k, first_fire l = Some k /\ 0 <= k <= range_hi (t_range t).
Proof.
  (* the first interrupt comes after exactly the distance, which lies within [0, hi] *)
  intros g t Hok Hen Hb. pose proof (draw_bounds g t (t_drawn t) Hok) as Hd.
  assert (Hk : 0 <= polls_to_first g t <= range_hi (t_range t))
    by (unfold polls_to_first; destruct (Z.eqb_spec (t_time t) 0); lia).
  destruct (poll_n_polls g (Z.to_nat (range_hi (t_range t) + 1)) t Hok) as [t' E]. eexists _, t'. split; [exact E|].
  exists (polls_to_first g t). split; [apply first_fire_polls; auto; lia | exact Hk].
Qed.
Print Assumptions C34_first.

(* The hypothesis of C34_first holds after creation followed by ANY history of polls, toggles,
   resets (reset_remaining, io_reset) and vector/priority changes: wherever such a history leaves
   the timer enabled, the next interrupt is at most hi + 1 polls away. *)
Theorem C34_first_after_enable_or_reset : forall g s e v p t0 ops,
  timer_new g s e v p = TOk t0 -> 0 <= range_lo (t_range t0) -> draws_ok g (t_range t0) ->
  Forall keeps_range ops -> t_enabled (timer_run_state g t0 ops) = true ->
  exists l t', timer_poll_n g (timer_run_state g t0 ops) (Z.to_nat (range_hi (t_range t0) + 1)) = TOk (l, t') /\
               exists k, first_fire l = Some k /\ 0 <= k <= range_hi (t_range t0).
Proof.
  intros g s e v p t0 ops Hnew Hlo Hd Hall Hen.
  destruct (timer_new_ok g s e v p t0 Hnew) as (Hne & Hin).
  assert (Hok : timer_ok g t0) by (repeat split; assumption).
  assert (Hinv : time_inv t0) by (apply in_range_iff in Hin; unfold time_inv; lia).
  destruct (run_state_keeps g ops t0 Hok Hinv Hall) as [Hr Hi].
  rewrite <- Hr. apply C34_first; [|exact Hen|exact Hi].
  eapply timer_ok_same_range; [exact Hr|exact Hok].
Qed.
Print Assumptions C34_first_after_enable_or_reset.

(* A disabled timer never raises an interrupt, whatever else is done to it (any draws at all). *)
Theorem C34_disabled : forall g ops t,
  t_enabled t = false -> ~ In OEnable ops -> Forall quiet (timer_run g t ops).
Proof. exact disabled_quiet. Qed.
Print Assumptions C34_disabled.

(* Same draws, same sequence: what is observed from a timer (first count, then per operation the
   interrupt, the remaining count and the enabled flag) is a function of the constructor arguments,
   the history and the draws consumed — at most one per operation.  (That a seed fixes the draws
   is the determinism of StdRng, trusted; the harness checks it on pairs of runs.) *)
Theorem C34_function_of_draws : forall g g' s e v p ops,
  (forall k, (k <= length ops)%nat -> g k = g' k) ->
  observe g s e v p ops = observe g' s e v p ops.
Proof.
  intros g g' s e v p ops H. unfold observe, timer_new.
  destruct (srange_new s e) as [r| |]; try reflexivity.
  rewrite !reset_eq. cbn [t_range t_drawn]. rewrite <- (H O) by lia.
  destruct (range_nonempty r); [|reflexivity]. destruct (in_range r (g O)); [|reflexivity].
  f_equal. f_equal. apply run_ext. cbn [t_drawn with_time]. intros k Hk. apply H. lia.
Qed.
Print Assumptions C34_function_of_draws.

(* For the record, the transition as it was before the repair (poll_unrepaired: a fresh count of
   0 returns no interrupt) violates the gap statement for a range containing 0, and an exact count
   of 0 never fired. *)
Theorem C34_unrepaired_gap_refuted :
  exists g t n, timer_ok g t /\ t_enabled t = true /\
    ~ all_within (range_lo (t_range t)) (range_hi (t_range t)) (gaps (poll_n_unrepaired g t n)).
Proof. exact unrepaired_gap_refuted. Qed.
Print Assumptions C34_unrepaired_gap_refuted.

Theorem C34_unrepaired_exact0_silent : forall n t,
  t_range t = mk_srange 0 0 true -> t_enabled t = true -> t_time t = 0 ->
  poll_n_unrepaired (fun _ => 0) t n = repeat false n.
Proof.
  induction n as [|n IH]; intros t Hr He Ht; [reflexivity|].
  (* the poll at count 0 draws 0 from 0..=0 and, unrepaired, returns no interrupt *)
  cbn [poll_n_unrepaired repeat]. unfold poll_unrepaired. rewrite reset_eq, He, Ht, Hr. cbn.
  f_equal. apply IH; [exact Hr | exact He | reflexivity].
Qed.
Print Assumptions C34_unrepaired_exact0_silent.

(* non-vacuity: a timer 0..=2 with draws 2,0,1,... meets the hypotheses; its gaps are the draws *)
Example C34_ex_hyp :
  let g := fun k => match k with 0%nat => 2 | 1%nat => 0 | 2%nat => 1 | _ => 2 end in
  exists t0, timer_new g (BIncl 0) (BExcl 3) 129 4 = TOk t0 /\ timer_ok g t0 /\
    t_enabled (timer_run_state g t0 [OEnable]) = true /\
    timer_poll_n g (timer_run_state g t0 [OEnable]) 9%nat =
      TOk ([false; true; true; false; true; false; false; true; false], mk_timer (mk_srange 0 3 false) 2 129 4 true 5) /\
    gaps [false; true; true; false; true; false; false; true; false] = [0; 1; 2].
Proof.
  eexists. split; [reflexivity|]. split; [|repeat split; reflexivity].
  split; [reflexivity|]. split; [cbn; lia|]. intros [|[|[|k]]]; reflexivity.
Qed.
