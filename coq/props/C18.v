(* C18 — Text object format round-trips every object file, whatever characters the source contains.
   [ser_text]/[deser_text] (model/ObjText.v) model TextFormat::serialize/deserialize of the
   repaired code over code points, with str::escape_default, unescaper::unescape, str::lines,
   trim, splitn(" | "), uN::from_str_radix and the {:04X}/width formatting written out;
   [text_inv] = obj_inv plus what the tables need (labels without white space that do not start
   with '#', '.' or '='; line runs separated by an unmapped line and ending before the last line),
   checked on every assembled / linked object by the harness (op objtext.inv). *)
From Coq Require Import ZArith List Bool String.
From Model Require Import Tree Text Obj SourceInfo ObjBin ObjText.
From Spec Require Import ObjEquiv.
From Proofs Require Import ObjBytesProofs ObjBinProofs ObjTextLemmas SrcLinesProofs ObjTextProofs.
Import ListNotations.
Open Scope Z_scope.

(* the writer may list the two hash maps in any order [o_w] *)
Theorem C18_roundtrip : forall o, text_inv o = true ->
  forall o_w, obj_equiv o o_w -> exists o', deser_text (ser_text o_w) = ROk o' /\ obj_equiv o o'.
Proof.
  intros o H o_w E. pose proof (text_inv_equiv o o_w E H) as Hw.
  unfold deser_text. rewrite (lines_trim_ser_text o_w Hw).
  destruct (deser_lines_text o_w Hw) as (o' & E1 & E2). exists o'. split; [exact E1|].
  eapply obj_equiv_trans; eassumption.
Qed.
Print Assumptions C18_roundtrip.

(* escaping: for ALL lists of Unicode scalar values (proved by induction on the list) *)
Theorem C18_unescape_escape : forall s, valid_str s = true -> unescape (escape s) = Some s.
Proof. exact unescape_escape. Qed.
Print Assumptions C18_unescape_escape.

(* the source column: the raw lines of any text concatenate to the text (byte-offset arithmetic
   of SourceInfo over UTF-8, any characters incl. CR, CRLF, controls, non-ASCII, no final newline) *)
Theorem C18_source_lines_concat : forall s, flat_map (src_line s) (seqz 0 (List.length (nl_indices s))) = s.
Proof. exact src_lines_concat. Qed.
Print Assumptions C18_source_lines_concat.

Theorem C18_hex4_roundtrip : forall v, 0 <= v < 65536 -> hex2u16 (hex4 v) = Some v.
Proof. exact hex2u16_hex4. Qed.
Print Assumptions C18_hex4_roundtrip.
Theorem C18_decimal_roundtrip : forall max n, 0 <= n <= max -> parse_uint 10 max (fmt_dec n) = Some n.
Proof. exact parse_fmt_dec. Qed.
Print Assumptions C18_decimal_roundtrip.

Theorem C18_row_split : forall f1 f2 f3, no_sp_bar f1 = true -> no_sp_bar f2 = true ->
  splitn 3 (f1 ++ TABLE_DIV ++ f2 ++ TABLE_DIV ++ f3) = [f1; f2; f3].
Proof. exact row_split3. Qed.
Print Assumptions C18_row_split.

Theorem C18_lines_join : forall Ls Llast, Forall (fun l => nl_free l = true) Ls -> nl_free Llast = true -> Llast <> [] ->
  lines (flat_map ln Ls ++ Llast) = Ls ++ [Llast].
Proof. exact lines_join. Qed.
Print Assumptions C18_lines_join.

Theorem C18_inv_order_independent : forall o o', obj_equiv o o' -> text_inv o = true -> text_inv o' = true.
Proof. exact text_inv_equiv. Qed.
Print Assumptions C18_inv_order_independent.

(* satisfiable: an object whose source has quotes, a backslash, a tab, CR LF, a control and
   non-ASCII characters, blank lines and no final newline *)
Definition C18_example : objfile :=
  mkObj [(12288, [Some 8193; None; Some 0])]
        (Some (mkSymtab [([70; 79; 79], mkSym 0 3 true); ([88; 233], mkSym 12290 9 false)]
                        [(12290, [70; 79; 79])]
                        (Some (mkDebug [(1, [12288; 12289; 12290])]
                                       [59; 34; 92; 9; 13; 10; 65; 10; 1; 233; 10; 128512; 10; 32; 10; 32; 124; 32])))).
Example C18_ex : text_inv C18_example = true /\
  (exists o', deser_text (ser_text C18_example) = ROk o' /\ o_blocks o' = o_blocks C18_example).
Proof. split; [vm_compute; reflexivity|]. eexists. split; [vm_compute; reflexivity|reflexivity]. Qed.
