(* C20 — Linking unions images, resolves externals, and is order-independent.
   [link] (model/Link.v) is the model of `ObjectFile::link`; [view_of o] (spec/LinkSpec.v) is what
   the property observes of an object: memory image (= what `addr_iter` lists, C20_addr_iter),
   label addresses and external flags, pending relocations; [vlink], [Linkable], [vlink_all],
   [AllLinkable] are the order-free specification, written on maps without looking at the linker.
   [ObjInv o] is the boolean [obj_inv_b o = true] the harness evaluates on every assembled and
   linked object; [LinesFit] / [total_lines .. <= usize_max] say that the line numbers of the
   combined sources fit a usize (Rust strings are shorter than 2^63 bytes). *)
From Coq Require Import ZArith List Bool Permutation Lia.
From Model Require Import Tree Bits Text SourceInfo Obj Link.
From Spec Require Import LinkSpec.
From Proofs Require Import LinkBlocks LinkSpecProofs LinkProofs.
Import ListNotations.
Open Scope Z_scope.

(* a successful link is the specified union: image = union with resolved externals, labels =
   union (defined beats external), pending = relocations of still-external labels; the result
   satisfies the object invariant again *)
Theorem C20_link_refines : forall a b r, ObjInv a -> ObjInv b -> LinesFit a b -> link a b = LOk r ->
  veq (view_of r) (vlink (view_of a) (view_of b)) /\ ObjInv r /\ nlines r <= nlines a + nlines b.
Proof.
  intros a b r Ia Ib _ H. pose proof (link_spec a b Ia Ib) as S. rewrite H in S.
  exact (conj (lk_view S) (conj (lk_inv S) (lk_lines S))).
Qed.
Print Assumptions C20_link_refines.

(* linking succeeds exactly when the images are disjoint and no name is defined at two addresses *)
Theorem C20_success_iff : forall a b, ObjInv a -> ObjInv b -> LinesFit a b ->
  ((exists r, link a b = LOk r) <-> Linkable (view_of a) (view_of b)).
Proof.
  intros a b Ia Ib Hf. pose proof (link_spec a b Ia Ib) as S. destruct (link a b) as [r| |].
  - split; [intros _; exact (lk_linkable S)|eauto].
  - split; [intros (r & E); discriminate|tauto].
  - split; [intros (r & E); discriminate|]. destruct (S Hf). tauto.
Qed.
Print Assumptions C20_success_iff.

(* link a b ~ link b a: same success, same image, label addresses, external flags, relocations *)
Theorem C20_comm : forall a b r, ObjInv a -> ObjInv b -> LinesFit a b -> link a b = LOk r ->
  exists r', link b a = LOk r' /\ veq (view_of r) (view_of r').
Proof.
  intros a b r Ia Ib Hf H. destruct (pair_tree a b Ia Ib Hf) as (Hinv & Hn).
  destruct (link_any_order (Node (Leaf a) (Leaf b)) (Node (Leaf b) (Leaf a)) (perm_swap _ _ _) Hinv Hn) as ((Hex & _) & Heq).
  destruct Hex as (r' & E); [exists r; exact H|]. exists r'. split; [exact E|]. exact (Heq r r' H E).
Qed.
Print Assumptions C20_comm.
Theorem C20_comm_fail : forall a b, ObjInv a -> ObjInv b -> LinesFit a b ->
  (forall r, link a b <> LOk r) -> (forall r, link b a <> LOk r).
Proof.
  intros a b Ia Ib Hf H r' E. destruct (C20_comm b a r' Ib Ia (linesfit_sym _ _ Hf) E) as (r & E' & _). exact (H r E').
Qed.
Print Assumptions C20_comm_fail.

(* (a b) c ~ a (b c) *)
Theorem C20_assoc : forall a b c ab r, ObjInv a -> ObjInv b -> ObjInv c ->
  nlines a + nlines b + nlines c <= usize_max ->
  link a b = LOk ab -> link ab c = LOk r ->
  exists bc r', link b c = LOk bc /\ link a bc = LOk r' /\ veq (view_of r) (view_of r').
Proof.
  intros a b c ab r Ia Ib Ic Hn H1 H2.
  assert (E : lt_eval (Node (Node (Leaf a) (Leaf b)) (Leaf c)) = LOk r) by (cbn; rewrite H1; exact H2).
  destruct (link_any_order (Node (Node (Leaf a) (Leaf b)) (Leaf c)) (Node (Leaf a) (Node (Leaf b) (Leaf c))))
    as ((Hex & _) & Heq).
  { apply Permutation_refl. }
  { repeat constructor; assumption. }
  { cbn [leaves app]. rewrite !total_lines_cons. change (total_lines []) with 0. lia. }
  destruct Hex as (r' & E'); [exists r; exact E|]. pose proof (Heq r r' E E') as V.
  cbn in E'. destruct (link b c) as [bc| |]; try discriminate. exists bc, r'. auto.
Qed.
Print Assumptions C20_assoc.

(* every order and bracketing of any number of files (in particular 2-4): both succeed or both
   fail, and the outcomes are the same view *)
Theorem C20_any_order : forall t t', Permutation (leaves t) (leaves t') -> Forall ObjInv (leaves t) ->
  total_lines (leaves t) <= usize_max ->
  ((exists r, lt_eval t = LOk r) <-> (exists r', lt_eval t' = LOk r')) /\
  (forall r r', lt_eval t = LOk r -> lt_eval t' = LOk r' -> veq (view_of r) (view_of r')).
Proof. exact link_any_order. Qed.
Print Assumptions C20_any_order.

(* ... namely the order-free meaning of the SET of files, which are pairwise linkable *)
Theorem C20_set_meaning : forall t r, Forall ObjInv (leaves t) -> total_lines (leaves t) <= usize_max ->
  lt_eval t = LOk r ->
  veq (view_of r) (vlink_all (map view_of (leaves t))) /\ AllLinkable (map view_of (leaves t)).
Proof. exact link_tree_refines. Qed.
Print Assumptions C20_set_meaning.

(* the specification itself does not depend on order or grouping *)
Theorem C20_spec_comm : forall a b, ViewInv a -> ViewInv b -> Linkable a b -> veq (vlink a b) (vlink b a).
Proof. exact vlink_comm. Qed.
Print Assumptions C20_spec_comm.
Theorem C20_spec_assoc : forall a b c, ViewInv a -> ViewInv b -> ViewInv c ->
  Linkable a b -> Linkable a c -> Linkable b c -> veq (vlink (vlink a b) c) (vlink a (vlink b c)).
Proof. exact vlink_assoc. Qed.
Print Assumptions C20_spec_assoc.

(* on blocks sorted by start, checking adjacent pairs finds every overlap *)
Theorem adjacent_pair_check_complete : forall l, sorted_from 0 l -> Forall sized l ->
  (adj_check l = AdjOk <-> ForallOrdPairs (fun x y => fst x + zlen (snd x) <= fst y) l).
Proof.
  intros l Hs Hz. rewrite (adj_check_sorted 0 l Hs Hz), <- (chain_iff_pairs 0 l Hs Hz).
  destruct (blocks_ok 0 l); split; congruence.
Qed.
Print Assumptions adjacent_pair_check_complete.
Theorem C20_adjacent_check_total : forall l, sorted_from 0 l -> Forall sized l -> adj_check l <> AdjPanic.
Proof. exact (adj_check_no_panic 0). Qed.
Print Assumptions C20_adjacent_check_total.

(* on such objects linking never panics (given that the label positions fit a usize): so it
   fails with an error exactly when the files are not linkable *)
Theorem C20_link_total : forall a b, ObjInv a -> ObjInv b -> LinesFit a b -> SpansFit a b -> link a b <> LPanic.
Proof. intros a b Ia Ib Hf Hsp Hp. pose proof (link_spec a b Ia Ib) as S. rewrite Hp in S. exact (proj2 (S Hf) Hsp). Qed.
Print Assumptions C20_link_total.

(* the image of the view is what addr_iter lists *)
Theorem C20_addr_iter : forall o addr w, ObjInv o -> (In (addr, w) (addr_iter o) <-> v_img (view_of o) addr = Some w).
Proof. exact addr_iter_image. Qed.
Print Assumptions C20_addr_iter.

(* the hypotheses are satisfiable: a user of X at x3000, a definer of X at x4000 *)
Definition ex_user : objfile :=
  mkObj [(12288, [Some 0])] (Some (mkSymtab [([88], mkSym 0 10 true)] [(12288, [88])] None)).
Definition ex_def : objfile :=
  mkObj [(16384, [Some 7])] (Some (mkSymtab [([88], mkSym 16384 12 false)] [] None)).
Example C20_ex : ObjInv ex_user /\ ObjInv ex_def /\ LinesFit ex_user ex_def /\
  link ex_user ex_def = LOk (mkObj [(12288, [Some 16384]); (16384, [Some 7])]
                                   (Some (mkSymtab [([88], mkSym 16384 12 false)] [] None))) /\
  link ex_def ex_user = LOk (mkObj [(12288, [Some 16384]); (16384, [Some 7])]
                                   (Some (mkSymtab [([88], mkSym 16384 12 false)] [] None))) /\
  link ex_def ex_def = LErr OverlappingBlocks [(0, 0)].
Proof. vm_compute. repeat split; discriminate. Qed.
