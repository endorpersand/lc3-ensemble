(* C22 — Linked debug info still points at the right source text.
   [read_line] is `SourceInfo::read_line` (model/SourceInfo.v), [line_text_at st addr] is
   `rev_lookup_line(addr)` followed by `source_info().read_line(..)`, [LinkedDbg a b r ..] says:
   a and b satisfy the object invariant and [LinesFit], both carry debug symbols (da, db), and
   link a b = r.
   [label_spans_ok_b o] is the boolean the harness evaluates: every label's recorded position
   lies in the source and the text there spells the label (case-insensitively). *)
From Coq Require Import ZArith List Bool.
From Model Require Import Tree Bits Text SourceInfo Obj Link.
From Spec Require Import LinkSpec.
From Proofs Require Import LinkDebug LinkProofs LinkLines.
Import ListNotations.
Open Scope Z_scope.

(* for ALL strings: line (count_lines a + k) of a ++ "\n" ++ b is line k of b ... *)
Theorem C22_lines_append : forall a b k, 0 <= k ->
  read_line (a ++ [10] ++ b) (count_lines a + k) = read_line b k.
Proof. exact lines_append. Qed.
Print Assumptions C22_lines_append.
(* ... and the lines of a keep their text *)
Theorem C22_lines_prefix : forall a b k, 0 <= k < count_lines a ->
  read_line (a ++ [10] ++ b) k = read_line a k.
Proof. exact lines_prefix. Qed.
Print Assumptions C22_lines_prefix.
Theorem C22_count_lines_join : forall a b, count_lines (a ++ [10] ++ b) = count_lines a + count_lines b.
Proof. exact SourceInfoProofs.count_lines_join. Qed.
Print Assumptions C22_count_lines_join.

Theorem C22_linked_debug : forall a b r sa sb sr da db, LinkedDbg a b r sa sb sr da db ->
  st_debug sr = Some (mkDebug (ds_lines da ++ shift_lines (count_lines (ds_src da)) (ds_lines db))
                              (ds_src da ++ [10] ++ ds_src db)).
Proof. exact linked_debug. Qed.
Print Assumptions C22_linked_debug.

(* the source line reported for an address reads the same text as in the file it came from *)
Theorem C22_lines_first : forall a b r sa sb sr da db addr, LinkedDbg a b r sa sb sr da db ->
  v_img (view_of a) addr <> None -> line_text_at sr addr = line_text_at sa addr.
Proof. exact linked_line_first. Qed.
Print Assumptions C22_lines_first.
Theorem C22_lines_second : forall a b r sa sb sr da db addr, LinkedDbg a b r sa sb sr da db ->
  v_img (view_of b) addr <> None ->
  line_text_at sr addr = option_map (fun p => (fst p + count_lines (ds_src da), snd p)) (line_text_at sb addr).
Proof. exact linked_line_second. Qed.
Print Assumptions C22_lines_second.

(* every label's reported span covers that label's text in the combined source *)
Theorem C22_label_spans : forall a b r sa sb sr da db, LinkedDbg a b r sa sb sr da db ->
  label_spans_ok_b a = true -> label_spans_ok_b b = true ->
  byte_len (ds_src da ++ [10] ++ ds_src db) <= usize_max ->
  label_spans_ok_b r = true.
Proof. exact linked_label_spans. Qed.
Print Assumptions C22_label_spans.
Theorem C22_label_spans_meaning : forall o st d, o_sym o = Some st -> st_debug st = Some d ->
  (label_spans_ok_b o = true <-> forall n x, In (n, x) (st_labels st) -> span_ok (ds_src d) n x).
Proof. exact label_spans_ok_iff. Qed.
Print Assumptions C22_label_spans_meaning.

(* ".orig x3000\nA .fill 1\n.end" and ".orig x4000\nBB .fill 2\n.end": after linking, BB's span
   (12 in its own file) is 12 + 26 + 1 in the combined text and x4000 reads "BB .fill 2" *)
Definition src_a : str := [46;111;114;105;103;32;120;51;48;48;48;10;65;32;46;102;105;108;108;32;49;10;46;101;110;100].
Definition src_b : str := [46;111;114;105;103;32;120;52;48;48;48;10;66;66;32;46;102;105;108;108;32;50;10;46;101;110;100].
Definition ex_a : objfile :=
  mkObj [(12288, [Some 1])] (Some (mkSymtab [([65], mkSym 12288 12 false)] [] (Some (mkDebug [(1, [12288])] src_a)))).
Definition ex_b : objfile :=
  mkObj [(16384, [Some 2])] (Some (mkSymtab [([66;66], mkSym 16384 12 false)] [] (Some (mkDebug [(1, [16384])] src_b)))).
Example C22_ex : ObjInv ex_a /\ ObjInv ex_b /\ label_spans_ok_b ex_a = true /\ label_spans_ok_b ex_b = true /\
  match link ex_a ex_b with
  | LOk r => match o_sym r with
             | Some st => line_text_at st 16384 = Some (4, Some [66;66;32;46;102;105;108;108;32;50]) /\
                          get_label_source st [66;66] = Some (Some (39, 41)) /\ label_spans_ok_b r = true
             | None => False end
  | _ => False end.
Proof. vm_compute. repeat split. Qed.
