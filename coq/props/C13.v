(* C13 — run, run_with_limit, run_while, step_over, step_out and pauses equal repeated single steps.
   The declarative side — repeated stepping [iter_steps], "nothing stops here" [quiet_at], "the call
   stops here" [stop_here], the first such boundary [first_stop], entry/exit of a call
   [start]/[finish] — is spec/RunSpec.v.

   Inputs of a call: one [iter] per loop iteration (external MCR clears before the MCR test /
   before the instruction, and the environment of the step).  The list is also the fuel; the
   outcome "inputs exhausted" ([RFuel]/[SFuel]) is excluded.  A tripwire is any function of the
   number of tripwire calls so far and the state. *)
From Coq Require Import ZArith List Bool.
From Model Require Import Word Sim Load Run.
From Spec Require Import RunSpec.
From Proofs Require Import StepFrame RunProofs.
Import ListNotations.
Open Scope Z_scope.

(* The loop returns (state, reason, number of instructions attempted) exactly when that triple is
   the FIRST stop of repeated single stepping: every earlier boundary had the MCR on, the tripwire
   true, its instruction completed and no breakpoint matched after it; at the stop boundary the
   MCR is off, or else the tripwire is false, or else the instruction halts / fails, or else a
   breakpoint matches after it.  Both directions: the description determines the result. *)
Theorem C13_loop_is_first_stop : forall bps T its s s' st n, st <> SFuel ->
  (run_loop bps T O its s = (s', st, n) <-> first_stop bps T its s s' st n).
Proof. exact run_loop_iff. Qed.
Print Assumptions C13_loop_is_first_stop.

Theorem C13_first_stop_unique : forall bps T its s s1 st1 n1 s2 st2 n2,
  first_stop bps T its s s1 st1 n1 -> first_stop bps T its s s2 st2 n2 ->
  s1 = s2 /\ st1 = st2 /\ n1 = n2.
Proof.
  intros bps T its s s1 st1 n1 s2 st2 n2 H1 H2.
  pose proof (first_stop_not_fuel _ _ _ _ _ _ _ H1) as F1. apply (run_loop_iff _ _ _ _ _ _ _ F1) in H1.
  pose proof (first_stop_not_fuel _ _ _ _ _ _ _ H2) as F2. apply (run_loop_iff _ _ _ _ _ _ _ F2) in H2.
  rewrite H1 in H2. injection H2 as -> -> ->. auto.
Qed.
Print Assumptions C13_first_stop_unique.

(* run_while (hence run, run_with_limit, step_over, step_out, which are run_while with their
   tripwires): observer cleared and MCR stored on, first stop of repeated stepping, MCR stored
   off and pause condition recorded. *)
Theorem C13_run_is_iter : forall bps T its sp sp' r n, r <> RFuel ->
  (run_while bps T its sp = (sp', r, n) <->
   exists s1 st, first_stop bps T its (start (fst sp)) s1 st n /\ finish s1 st = (sp', r)).
Proof. exact run_while_is_iter. Qed.
Print Assumptions C13_run_is_iter.

(* the boundary states of the description are those of repeated `step_in` (the public single
   step), up to the access observer, which `step_in` clears before every instruction *)
Theorem C13_steps_are_step_in : forall its n s b,
  iter_steps its n s = Some b -> exists b', step_in_n its n s = Some b' /\ same_but_obs b b'.
Proof.
  intros its n s b H. destruct (iter_steps_step_in n its s (s_obs s) b H) as [o' E].
  rewrite upd_obs_same in E. exists (upd_obs b o'). split; [exact E | reflexivity].
Qed.
Print Assumptions C13_steps_are_step_in.

(* a single step never changes the instruction counter except by adding one when it completes *)
Theorem C13_step_counts_one : forall e s s' r, step e s = (s', r) ->
  s_instrs s' = s_instrs s \/ (r = inl tt /\ s_instrs s' = (s_instrs s + 1) mod 18446744073709551616).
Proof. exact step_instrs. Qed.
Print Assumptions C13_step_counts_one.

(* run_with_limit never completes more than max instructions, and when it pauses on its limit
   exactly max instructions were completed (counter difference modulo 2^64, as the code computes) *)
Theorem C13_limit : forall bps max its sp sp' r n,
  0 <= max < 18446744073709551616 -> run_with_limit bps max its sp = (sp', r, n) ->
  (s_instrs (fst sp') - s_instrs (fst sp)) mod 18446744073709551616 <= max /\
  (r = ROk -> snd sp' = PTripwire ->
     (s_instrs (fst sp') - s_instrs (fst sp)) mod 18446744073709551616 = max).
Proof. intros bps max its sp sp' r n [H0 _]. exact (run_with_limit_count bps max its sp sp' r n H0). Qed.
Print Assumptions C13_limit.

(* step_over: first stop for the tripwire "first iteration, or deeper than at the start"; when it
   pauses on that tripwire at least one instruction ran, the depth is back to <= the starting
   depth, and at every boundary strictly in between the depth was greater *)
Theorem C13_over : forall bps its sp sp' r n,
  step_over bps its sp = (sp', r, n) -> r <> RFuel ->
  exists s1 st, first_stop bps (trip_over (s_frame_no (fst sp))) its (start (fst sp)) s1 st n /\
    finish s1 st = (sp', r) /\
    (st = SPause PTripwire ->
       (1 <= n)%nat /\ s_frame_no s1 <= s_frame_no (fst sp) /\
       forall i b, (1 <= i < n)%nat -> iter_steps its i (start (fst sp)) = Some b ->
                   s_frame_no (fst sp) < s_frame_no b).
Proof.
  intros bps its sp sp' r n. setoid_rewrite <- Z.ltb_ge. setoid_rewrite <- Z.ltb_lt.
  exact (depth_tripwire_call bps _ (Z.ltb (s_frame_no (fst sp))) its sp sp' r n (fun _ => eq_refl) (fun _ _ => eq_refl)).
Qed.
Print Assumptions C13_over.

(* step_out: nothing at all at depth 0 (state, observer, MCR, pause condition unchanged);
   otherwise as step_over with "strictly below the starting depth" *)
Theorem C13_out : forall bps its sp sp' r n,
  step_out bps its sp = (sp', r, n) -> r <> RFuel ->
  (s_frame_no (fst sp) = 0 /\ sp' = sp /\ r = ROk /\ n = O) \/
  (s_frame_no (fst sp) <> 0 /\
   exists s1 st, first_stop bps (trip_out (s_frame_no (fst sp))) its (start (fst sp)) s1 st n /\
    finish s1 st = (sp', r) /\
    (st = SPause PTripwire ->
       (1 <= n)%nat /\ s_frame_no s1 < s_frame_no (fst sp) /\
       forall i b, (1 <= i < n)%nat -> iter_steps its i (start (fst sp)) = Some b ->
                   s_frame_no (fst sp) <= s_frame_no b)).
Proof.
  intros bps its sp sp' r n. unfold step_out. intros H Hr. destruct (Z.eqb_spec (s_frame_no (fst sp)) 0) as [E|E].
  - left. inversion H; subst. auto.
  - right. split; [exact E|]. setoid_rewrite <- Z.leb_gt. setoid_rewrite <- Z.leb_le.
    exact (depth_tripwire_call bps _ (Z.leb (s_frame_no (fst sp))) its sp sp' r n (fun _ => eq_refl) (fun _ _ => eq_refl) H Hr).
Qed.
Print Assumptions C13_out.

(* Splitting: a run limited to a instructions that pauses on its limit, resumed with limit b,
   ends exactly like one run limited to a+b on the consumed inputs of the first followed by the
   inputs of the second: same result, same pause condition, same number of instructions
   attempted in total, same state (instruction counter included) except for the access
   observer, which the resumed call clears at the seam.
   Side conditions: the first segment returned Ok with pause condition Tripwire (this excludes
   a breakpoint matching after its last instruction and the MCR being off at the seam, which
   take precedence over the limit); a+b does not overflow u64. *)
Theorem C13_split : forall bps a b its1 its2 sp sp1 n1 sp2 r2 n2,
  0 <= a -> 0 <= b -> a + b < 18446744073709551616 ->
  run_with_limit bps a its1 sp = (sp1, ROk, n1) -> snd sp1 = PTripwire ->
  run_with_limit bps b its2 sp1 = (sp2, r2, n2) ->
  exists sp', run_with_limit bps (a + b) (firstn n1 its1 ++ its2) sp = (sp', r2, (n1 + n2)%nat) /\
    snd sp' = snd sp2 /\ same_but_obs (fst sp') (fst sp2).
Proof. exact limit_split. Qed.
Print Assumptions C13_split.

(* General form of pause-and-resume: a call that pauses on its tripwire followed by a call with any
   tripwire T2 (one that does not read the observer: all tripwires of the API are such) equals
   ONE call whose tripwire is T1 for the first n1 instructions and T2 afterwards. *)
Theorem C13_resume_after_tripwire : forall bps T1 T2 its1 its2 sp sp1 n1 sp2 r2 n2,
  trip_ignores_obs T2 ->
  run_while bps T1 its1 sp = (sp1, ROk, n1) -> snd sp1 = PTripwire ->
  run_while bps T2 its2 sp1 = (sp2, r2, n2) ->
  exists sp', run_while bps (trip_seq n1 T1 T2) (firstn n1 its1 ++ its2) sp = (sp', r2, (n1 + n2)%nat) /\
    snd sp' = snd sp2 /\ same_but_obs (fst sp') (fst sp2).
Proof. exact resume_after_tripwire. Qed.
Print Assumptions C13_resume_after_tripwire.

Theorem C13_api_tripwires_ignore_observer :
  trip_ignores_obs trip_true /\ (forall i m, trip_ignores_obs (trip_limit i m)) /\
  (forall d, trip_ignores_obs (trip_over d)) /\ (forall d, trip_ignores_obs (trip_out d)).
Proof.
  exact (conj trip_true_ignores_obs (conj trip_limit_ignores_obs (conj trip_over_ignores_obs trip_out_ignores_obs))).
Qed.
Print Assumptions C13_api_tripwires_ignore_observer.

(* the access observer never influences a run *)
Theorem C13_observer_irrelevant : forall bps T, trip_ignores_obs T -> forall its k s o s' st n,
  run_loop bps T k its s = (s', st, n) ->
  exists o', run_loop bps T k its (upd_obs s o) = (upd_obs s' o', st, n).
Proof. exact run_loop_obs. Qed.
Print Assumptions C13_observer_irrelevant.

(* External MCR clear: upper bounds on the number n of instructions attempted, from the loop order
   (MCR test, tripwire, instruction, breakpoints).  A clear before the MCR test of iteration j:
   n <= j (ZERO more).  If instruction j, should it complete, leaves the MCR off — as after a clear
   once the tests of iteration j have passed, unless it is itself a store that turns the MCR on
   again — n <= j + 1 (at most ONE more; that instruction j does run is not claimed). *)
Theorem C13_mcr_zero_more : forall bps T its sp sp' r n j it,
  run_while bps T its sp = (sp', r, n) -> r <> RFuel ->
  nth_error its j = Some it -> it_pre it = true -> (n <= j)%nat.
Proof. intros bps T its sp sp' r n j it H _. exact (run_while_mcr_pre bps T its sp sp' r n j it H). Qed.
Print Assumptions C13_mcr_zero_more.

Theorem C13_mcr_one_more : forall bps T its sp sp' r n j it,
  run_while bps T its sp = (sp', r, n) -> r <> RFuel ->
  nth_error its j = Some it -> it_mid it = true ->
  (forall b b', iter_steps its j (start (fst sp)) = Some b -> exec_iter it b = (b', inl tt) -> s_mcr b' = false) ->
  (n <= S j)%nat.
Proof. intros bps T its sp sp' r n j it H _ Hn _. exact (run_while_mcr_mid bps T its sp sp' r n j it H Hn). Qed.
Print Assumptions C13_mcr_one_more.

Theorem C13_mcr_off_after_call : forall bps T its sp sp' r n,
  run_while bps T its sp = (sp', r, n) -> r = ROk \/ (exists e, r = RErr e) -> s_mcr (fst sp') = false.
Proof.
  (* the loop is left through the store *)
  intros bps T its sp sp' r n H Hr. apply run_while_loop in H. destruct H as (s1 & st & _ & F).
  destruct st; cbn in F; injection F as <- <-; try reflexivity; destruct Hr as [Hr|[e Hr]]; discriminate.
Qed.
Print Assumptions C13_mcr_off_after_call.

(* the hypotheses are satisfiable *)
(* x3000: ADD R0,R0,#1   x3001: ADD R0,R0,#1   x3002: BRnzp x3000 *)
Definition demo : sim :=
  let s := new_sim (mkFlags false false false false) 0 in
  upd_mem s (mset (mset (mset (s_mem s) 12288 (new_init 4129)) 12289 (new_init 4129)) 12290 (new_init 4093)).
Definition quiet_it := mkIter false false (mkEnv false false []).
Definition its20 := repeat quiet_it 20.
Definition summary (x : (sim * pause) * rres * nat) :=
  let '(sp, r, n) := x in (snd sp, r, n, s_instrs (fst sp), s_pc (fst sp), w_data (rget (s_regs (fst sp)) 0), s_mcr (fst sp)).

Example C13_ex_limit : summary (run_with_limit [] 4 its20 (demo, PUnsuccessful)) = (PTripwire, ROk, 4%nat, 4, 12289, 3, false).
Proof. vm_compute. reflexivity. Qed.
Example C13_ex_breakpoint : summary (run [BReg 0 (CGe 2)] its20 (demo, PUnsuccessful)) = (PBreakpoint, ROk, 2%nat, 2, 12290, 2, false).
Proof. vm_compute. reflexivity. Qed.
Example C13_ex_le_at_operand : summary (run [BReg 0 (CLe 1)] its20 (demo, PUnsuccessful)) = (PBreakpoint, ROk, 1%nat, 1, 12289, 1, false).
Proof. vm_compute. reflexivity. Qed.
Example C13_ex_split :
  let '(sp1, _, _) := run_with_limit [] 2 its20 (demo, PUnsuccessful) in
  summary (run_with_limit [] 3 its20 sp1) = (PTripwire, ROk, 3%nat, 5, 12290, 4, false) /\
  summary (run_with_limit [] 5 its20 (demo, PUnsuccessful)) = (PTripwire, ROk, 5%nat, 5, 12290, 4, false).
Proof. vm_compute. split; reflexivity. Qed.
Example C13_ex_mcr_pre : summary (run [] [quiet_it; quiet_it; mkIter true false (mkEnv false false []); quiet_it] (demo, PUnsuccessful))
  = (PMcrOff, ROk, 2%nat, 2, 12290, 2, false).
Proof. vm_compute. reflexivity. Qed.
Example C13_ex_mcr_mid : summary (run [] [quiet_it; quiet_it; mkIter false true (mkEnv false false []); quiet_it; quiet_it] (demo, PUnsuccessful))
  = (PMcrOff, ROk, 3%nat, 3, 12288, 2, false).
Proof. vm_compute. reflexivity. Qed.
(* x3000: JSR x3002   x3001: BRnzp x3001   x3002: RET *)
Definition demo_call : sim :=
  let s := new_sim (mkFlags false false false false) 0 in
  upd_mem s (mset (mset (mset (s_mem s) 12288 (new_init 18433)) 12289 (new_init 4095)) 12290 (new_init 49600)).
Example C13_ex_over : summary (step_over [] its20 (demo_call, PUnsuccessful)) = (PTripwire, ROk, 2%nat, 2, 12289, 0, false).
Proof. vm_compute. reflexivity. Qed.
(* at depth 0 the call is the identity by its first test: nothing is run *)
Example C13_ex_out_noop : step_out [] its20 (demo_call, PHalt) = ((demo_call, PHalt), ROk, O).
Proof. reflexivity. Qed.
Example C13_ex_out :
  let '(sp1, _, _) := do_call [] KStepIn its20 (demo_call, PUnsuccessful) in
  summary (step_out [] its20 sp1) = (PTripwire, ROk, 1%nat, 2, 12289, 0, false).
Proof. vm_compute. reflexivity. Qed.
