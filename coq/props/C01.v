(* C01 — Assembled image is the exact LC-3 encoding of the source.
   [typed p]: the ranges the Rust types and the lexer guarantee (16-bit .orig/.blkw operands,
   string literals shorter than 65535 bytes).  [wf]: spec/WfSpec.v.
   `assemble ast` is [assemble false None], `assemble_debug ast src` is [assemble true (Some src)].
   [image o a]: the word the object file defines at address a (None: not defined,
   Some None: uninitialised); [spec_image p a]: the word of the statement positioned there. *)
From Coq Require Import ZArith List Bool.
From Model Require Import Text Instr AsmAst Obj Assembler.
From Spec Require Import LayoutSpec WfSpec.
From Spec Require Import LineSpec.
From Proofs Require Import AsmBase AsmPass1 AsmDebug AsmThms AsmLines.
Import ListNotations.
Open Scope Z_scope.

(* every well-formed program assembles, and its object file defines exactly the addresses the
   statements occupy, with exactly their encodings (hence no other address is defined) *)
Theorem C01_image : forall p, typed p = true -> wf p = true ->
  exists o, assemble false None p = AOk o /\ forall a, image o a = spec_image p a.
Proof. intros p T W. exact (image_spec false None p W T (total_plain p T)). Qed.
Print Assumptions C01_image.

(* the same with debug symbols, whenever the debug bookkeeping does not panic (it does not
   under [lines_inc]: next theorem) *)
Theorem C01_image_debug : forall src p, typed p = true -> wf p = true -> assemble true (Some src) p <> APanic ->
  exists o, assemble true (Some src) p = AOk o /\ forall a, image o a = spec_image p a.
Proof. intros src p T W N. exact (image_spec true (Some src) p W T N). Qed.
Print Assumptions C01_image_debug.

(* ... in particular for statements on strictly increasing lines, as in parser output *)
Theorem C01_image_debug_parsed : forall src p, typed p = true -> wf p = true -> lines_inc src p ->
  exists o, assemble true (Some src) p = AOk o /\ forall a, image o a = spec_image p a.
Proof. intros src p T W LI. exact (image_spec true (Some src) p W T (assemble_debug_total src p T LI)). Qed.
Print Assumptions C01_image_debug_parsed.

(* the symbol table binds every name, in any letter case, to its first positional binding:
   address of the statement the label stands on (0 for .external), source offset, external flag *)
Theorem C01_labels : forall src p sym, typed p = true -> pass1 p src = AOk sym ->
  forall name, assoc (upper name) (st_labels sym) = option_map sym_of (spec_label p name).
Proof. exact labels_spec. Qed.
Print Assumptions C01_labels.

(* the object file of assemble_debug carries exactly that symbol table *)
Theorem C01_symtab_kept : forall src p o, assemble true (Some src) p = AOk o ->
  exists sym, pass1 p (Some src) = AOk sym /\ o_sym o = Some sym.
Proof.
  intros src p o E. destruct (assemble_ok _ _ _ _ E) as [sym [st [E1 [_ ->]]]]. exists sym. split; [exact E1 | reflexivity].
Qed.
Print Assumptions C01_symtab_kept.

(* debug symbols change neither the image nor the verdict *)
Theorem C01_debug_irrelevant : forall src p,
  (forall o1, assemble true (Some src) p = AOk o1 ->
     exists o0, assemble false None p = AOk o0 /\ o_blocks o1 = o_blocks o0 /\ forall a, image o1 a = image o0 a)
  /\ (forall k sp, assemble true (Some src) p = AErr k sp -> assemble false None p = AErr k sp).
Proof.
  intros src p. pose proof (assemble_dbg src p) as D. split.
  - intros o1 E. rewrite E in D. destruct D as [o0 [E0 B]]. exists o0. split; [exact E0|]. split; [exact B|].
    intros a. unfold image, addr_iter. rewrite B. reflexivity.
  - intros k sp E. rewrite E in D. exact D.
Qed.
Print Assumptions C01_debug_irrelevant.

(* a label operand of a well-formed program: the label is defined, not external, and the field
   value f encoded in the instruction satisfies  address + 1 + f = label address (mod 2^16)
   with f inside the signed n-bit field *)
Theorem C01_offset : forall p c s n l, wf p = true -> In (c, s) (placed p) -> operand_of s = Some (n, l) -> 0 < n ->
  exists o a b f, c = Some (o, a) /\ spec_label p (l_name l) = Some b /\ b_ext b = false /\
    field_value n (b_addr b) a = Some f /\ - 2 ^ (n - 1) <= f < 2 ^ (n - 1) /\ (a + 1 + f) mod 65536 = b_addr b mod 65536.
Proof. exact offset_spec. Qed.
Print Assumptions C01_offset.

(* the hypotheses are satisfiable: a program with a backward and a forward reference, an alias,
   .fill of a label, .stringz, .blkw and two blocks, the second placed before the first *)
Definition lab (n : list Z) : label := mkLabel n 0.
Definition st (ls : list label) (n : nucleus) : stmt := mkStmt ls n 0 0.
Definition ex_prog : list stmt :=
  [ st [] (NDir (DOrig 12288));
    st [lab [108; 111; 111; 112]] (NInstr (AADD 0 0 (Imm 1)));          (* loop ADD R0,R0,#1 *)
    st [] (NInstr (ABR 7 (PLab (lab [76; 79; 79; 80]))));                 (* BR LOOP *)
    st [] (NInstr (ALEA 1 (PLab (lab [109; 115; 103]))));                 (* LEA R1, msg *)
    st [] (NInstr AHALT);
    st [lab [109; 115; 103]] (NDir (DStringz [104; 105]));                (* msg .stringz "hi" *)
    st [] (NDir (DBlkw 2));
    st [] (NDir (DFill (PLab (lab [109; 83; 71]))));                      (* .fill mSG *)
    st [] (NDir DEnd);
    st [] (NDir (DOrig 512));
    st [] (NInstr ARET);
    st [] (NDir DEnd) ].
Example C01_ex : typed ex_prog = true /\ wf ex_prog = true /\
  match assemble false None ex_prog with
  | AOk o => o_blocks o = [ (512, [Some 49600]);
                            (12288, [Some 4129; Some 4094; Some 57857; Some 61477; Some 104; Some 105; Some 0; None; None; Some 12292]) ]
  | _ => False
  end.
Proof. vm_compute. repeat split; reflexivity. Qed.
