(* C33 — keyboard and display deliver bytes exactly once under lock contention.
   A lock pattern is [sc : nat -> env]: [e_kb_locked (sc t)] / [e_ds_locked (sc t)] say whether another
   thread holds the keyboard / display buffer lock during the t-th instruction (trusted abstraction:
   one lock state per instruction, no preemption inside an instruction).
   [getc_pattern sc t d lockr]: for the GETC call starting at instruction t, the first d KBSR polls
   find the keyboard locked, the next finds it free, and [lockr] is the lock state during the KBDR
   read two instructions later.  [out_pattern sc t d lockw]: same for DSR polls and the DDR write.
   THE KNOWN CLASS (DESIGN.md section 9 #14): lockr = true or lockw = true, i.e. the lock is held
   at the data access that follows a ready status read.  The property fails exactly there. *)
From Coq Require Import ZArith List Bool Lia.
From Gen Require Import Constants OsImage.
From Model Require Import Tree Bits Word Instr Sim Load.
From Proofs Require Import SimStep OsProofs OsContracts LockProofs.
Import ListNotations.
Open Scope Z_scope.

(* The property as stated is false on the faithful model: two concrete eventually-free patterns
   (replayed on the implementation by harness area iolock, fixed cases `witness_kb`/`witness_ds`).
   Program: LD R1,#1 ; GETC ; OUT ; ADD R1,R1,#-1 ; BRp ; HALT with byte 65 queued.
   Free pattern: 65 received and shown once.  Keyboard lock during instruction 4 only (the KBDR read
   after the ready KBSR poll): the program receives 0, 65 is never consumed, a spurious 0 is shown.
   Display lock during instruction 13 only (the DDR write after the ready DSR poll): 65 is never shown. *)
Theorem C33_refuted :
  (let r := run (fun _ => free_env) 0 17 wit_state in
   snd r = OOk /\ s_pc (fst r) = 12293 /\ s_devs (fst r) = kdevs [] [65]) /\
  eventually_free wit_kb /\
  (let r := run wit_kb 0 17 wit_state in
   snd r = OOk /\ s_pc (fst r) = 12293 /\ s_devs (fst r) = kdevs [65] [0] /\ rget (s_regs (fst r)) 0 = new_init 0) /\
  eventually_free wit_ds /\
  (let r := run wit_ds 0 17 wit_state in
   snd r = OOk /\ s_pc (fst r) = 12293 /\ s_devs (fst r) = kdevs [] [] /\ rget (s_regs (fst r)) 0 = new_init 65).
Proof. exact (conj wit_free_run (conj wit_kb_eventually_free (conj wit_kb_run (conj wit_ds_eventually_free wit_ds_run)))). Qed.
Print Assumptions C33_refuted.

(* Outside the class, one GETC: whatever the pattern does at the polls (any number d of locked polls)
   the head of the queue is returned in R0 and exactly it is consumed *)
Theorem C33_outside_known_class_getc : forall s sp ch q buf sc t d,
  user_ready s sp (ch :: q) buf -> OS_END + 2 <= sp <= USER_START ->
  mget (s_mem s) (s_pc s) = new_init 61472 ->
  getc_pattern sc t d false ->
  exists s', run sc t (2 * d + 5) s = (s', OOk) /\ s_pc s' = wrap16 (s_pc s + 1) /\
             (exists r1 r2 r3 r4 r5 r6 r7 x0, s_regs s = [x0; r1; r2; r3; r4; r5; r6; r7] /\
                s_regs s' = [new_init ch; r1; r2; r3; r4; r5; r6; r7]) /\
             s_devs s' = kdevs q buf /\ mget (s_mem s') KBDR = new_init ch /\ same_user_view s s'.
Proof. intros s sp ch q buf sc t d. exact (getc_under_locks s sp ch q buf sc t d false). Qed.
Print Assumptions C33_outside_known_class_getc.

(* Outside the class, one OUT: the byte appears exactly once *)
Theorem C33_outside_known_class_out : forall s sp q buf sc t d,
  user_ready s sp q buf -> OS_END + 3 <= sp <= USER_START ->
  mget (s_mem s) (s_pc s) = new_init 61473 ->
  out_pattern sc t d false ->
  exists s', run sc t (2 * d + 9) s = (s', OOk) /\ s_pc s' = wrap16 (s_pc s + 1) /\ s_regs s' = s_regs s /\
             s_devs s' = kdevs q (buf ++ [w_data (rget (s_regs s) 0) mod 256]) /\ same_user_view s s'.
Proof. intros s sp q buf sc t d. exact (out_under_locks s sp q buf sc t d false). Qed.
Print Assumptions C33_outside_known_class_out.

(* Every pattern that is free from some instant on determines, for any number n of GETC;OUT
   iterations from any instant t, the poll counts and the lock bits at the data accesses
   ([matches]); so the theorems below speak about all such patterns *)
Theorem C33_every_pattern_has_its_class_bits : forall sc, eventually_free sc ->
  forall n t, exists cs, length cs = n /\ matches sc t cs.
Proof.
  intros sc [T HT]. induction n as [|n IH]; intros t.
  - exists []. split; [reflexivity | exact Logic.I].
  - destruct (getc_pattern_exists sc t T) as (dg & Hg). { apply HT. lia. }
    destruct (out_pattern_exists sc (t + (2 * dg + 5)) T) as (dw & Hw). { apply HT. lia. }
    set (c := (dg, kb_locked_at sc (t + 2 * dg + 3), dw, ds_locked_at sc (t + (2 * dg + 5) + 2 * dw + 7))).
    destruct (IH (t + iter_len c)%nat) as (cs & Hlen & Hm).
    exists (c :: cs). split; [cbn [length]; lia|]. subst c. cbn [matches]. repeat split; try apply Hg; try apply Hw. exact Hm.
Qed.
Print Assumptions C33_every_pattern_has_its_class_bits.

(* Outside the class, the echo loop  x3001 GETC ; OUT ; ADD R1,R1,#-1 ; BRp x3001  with R1 = number
   of queued bytes (1..32767): every queued byte is received exactly once in order (the queue ends
   empty) and shown exactly once in order. *)
Theorem C33_outside_known_class : forall s sp q buf sc t cs,
  user_ready s sp q buf -> OS_END + 3 <= sp <= USER_START -> psr16 (s_psr s) ->
  s_pc s = 12289 -> echo_prog (s_mem s) ->
  rget (s_regs s) 1 = new_init (Z.of_nat (length q)) ->
  (1 <= length q)%nat -> Z.of_nat (length q) <= 32767 -> length cs = length q ->
  matches sc t cs -> bits_free cs ->
  exists s', run sc t (total_len cs) s = (s', OOk) /\ s_pc s' = 12293 /\
             s_devs s' = kdevs [] (buf ++ map (fun c => c mod 256) q) /\
             (forall a, in_user a = true -> mget (s_mem s') a = mget (s_mem s) a) /\ os_mem (s_mem s').
Proof.
  intros s sp q buf sc t cs.
  intros Hur Hsp Hp16 Hpc Hprog Hr1 Hn1 Hn2 Hlen Hmat Hbits.
  destruct (echo_under_locks s sp q buf sc t cs Hur Hsp Hp16 Hpc Hprog) as (s' & Hrun & Hpc' & Hdev & _ & Hum & Hos');
    try (rewrite Hlen; assumption); try lia; try assumption.
  destruct (echo_spec_outside cs (mget (s_mem s) KBDR) q buf Hbits Hlen) as [E1 E2].
  rewrite E1, E2 in Hdev. exists s'. repeat split; assumption.
Qed.
Print Assumptions C33_outside_known_class.

(* Inside the class: exactly what is delivered.  A locked KBDR read returns the last word read
   from KBDR before (the memory mirror, initially 0) and consumes nothing; a locked DDR write
   drops that byte; nothing else is lost or duplicated.  [echo_spec] is that function. *)
Theorem C33_characterise_getc : forall s sp ch q buf sc t d,
  user_ready s sp (ch :: q) buf -> OS_END + 2 <= sp <= USER_START ->
  mget (s_mem s) (s_pc s) = new_init 61472 ->
  getc_pattern sc t d true ->
  exists s', run sc t (2 * d + 5) s = (s', OOk) /\ s_pc s' = wrap16 (s_pc s + 1) /\
             (exists r1 r2 r3 r4 r5 r6 r7 x0, s_regs s = [x0; r1; r2; r3; r4; r5; r6; r7] /\
                s_regs s' = [mget (s_mem s) KBDR; r1; r2; r3; r4; r5; r6; r7]) /\
             s_devs s' = kdevs (ch :: q) buf /\ mget (s_mem s') KBDR = mget (s_mem s) KBDR /\ same_user_view s s'.
Proof. intros s sp ch q buf sc t d. exact (getc_under_locks s sp ch q buf sc t d true). Qed.
Print Assumptions C33_characterise_getc.

Theorem C33_characterise_out : forall s sp q buf sc t d,
  user_ready s sp q buf -> OS_END + 3 <= sp <= USER_START ->
  mget (s_mem s) (s_pc s) = new_init 61473 ->
  out_pattern sc t d true ->
  exists s', run sc t (2 * d + 9) s = (s', OOk) /\ s_pc s' = wrap16 (s_pc s + 1) /\ s_regs s' = s_regs s /\
             s_devs s' = kdevs q buf /\ same_user_view s s'.
Proof. intros s sp q buf sc t d. exact (out_under_locks s sp q buf sc t d true). Qed.
Print Assumptions C33_characterise_out.

Theorem C33_characterise : forall s sp q buf sc t cs,
  user_ready s sp q buf -> OS_END + 3 <= sp <= USER_START -> psr16 (s_psr s) ->
  s_pc s = 12289 -> echo_prog (s_mem s) ->
  rget (s_regs s) 1 = new_init (Z.of_nat (length cs)) ->
  (1 <= length cs)%nat -> Z.of_nat (length cs) <= 32767 -> (length cs <= length q)%nat ->
  matches sc t cs ->
  exists s', run sc t (total_len cs) s = (s', OOk) /\ s_pc s' = 12293 /\
             s_devs s' = kdevs (snd (fst (echo_spec cs (mget (s_mem s) KBDR) q buf))) (snd (echo_spec cs (mget (s_mem s) KBDR) q buf)) /\
             rget (s_regs s') 0 = fst (fst (echo_spec cs (mget (s_mem s) KBDR) q buf)) /\
             (forall a, in_user a = true -> mget (s_mem s') a = mget (s_mem s) a) /\ os_mem (s_mem s').
Proof. exact echo_under_locks. Qed.
Print Assumptions C33_characterise.

Example C33_ex_spec :
  echo_spec [(0%nat, true, 0%nat, false)] (new_init 0) [65] [] = (new_init 0, [65], [0]) /\
  echo_spec [(0%nat, false, 0%nat, true)] (new_init 0) [65] [] = (new_init 65, [], []) /\
  echo_spec [(3%nat, false, 1%nat, false); (0%nat, false, 2%nat, false)] (new_init 0) [65; 66] [42] = (new_init 66, [], [42; 65; 66]).
Proof. vm_compute. repeat split. Qed.
