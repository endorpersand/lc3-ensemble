(* C03 — The parser returns exactly the statements written, layout-insensitively.
   Proofs in proofs/PiecesProofs.v (lexing a text made of token pieces; spellings),
   proofs/LayoutProofs.v (nucleus, statement and program parsing over tokens with arbitrary spans;
   composition) and proofs/AsmShape.v (what `assemble` makes of two parses of the same shape).

   A text "written in the LC-3 grammar" is the concatenation of PIECES (PiecesProofs.piece):
     W text tok   a word: any spelling that denotes the token (keywords in any letter case, R/r
                  registers with leading zeros, numerals in every notation with leading zeros,
                  labels, directives in any case) — [word_ok] is proved for each class
     Bl bs / Sp   any run of blanks and tabs, Cm comma, Col colon, Nl LF or CR LF,
     Cmt body     a comment up to the line end, St a string literal
   and its TOKEN-LEVEL reading is a list of written statements ([wstmt]): labels with optional
   colon and line breaks after them, the tokens of the instruction or directive with their
   spans, the line breaks that end the statement.
   All theorems are unbounded: any number of statements, labels, blanks, digits. *)
From Coq Require Import ZArith List Bool String Lia.
From Model Require Import Tree Text Instr AsmAst Lexer Parser Print.
From Spec Require Import Numerals.
From Model Require Import Obj Assembler.
From Proofs Require Import LexerProofs LexNumProofs PiecesProofs PrintParseProofs LayoutProofs AsmShape.
Import ListNotations.
Open Scope Z_scope.

(* lexing: the token stream of a rendering is the token list of its pieces, each token
   spanning exactly the bytes of its text *)
Theorem C03_lex_render : forall ps, pieces_ok ps -> lex (text_of ps) = LexOk (toks_of 0 ps).
Proof. exact lex_pieces. Qed.
Print Assumptions C03_lex_render.

(* spellings: every notation of a number (any length, leading zeros, hex digits in any case),
   registers, keywords in any case, labels, directives *)
Theorem C03_spell_decimal : forall ds, ds <> [] -> Forall dec_digit ds -> value_of 10 ds <= 65535 ->
  word_ok ds (TUnsigned (value_of 10 ds)) /\ word_ok (35 :: ds) (TUnsigned (value_of 10 ds)).
Proof. intros. split; [apply (word_ok_unsigned NDec)|apply (word_ok_unsigned NHash)]; first [assumption | reflexivity | exact Logic.I]. Qed.
Print Assumptions C03_spell_decimal.
Theorem C03_spell_negative : forall ds, ds <> [] -> Forall dec_digit ds -> value_of 10 ds <= 32768 ->
  word_ok (45 :: ds) (TSigned (- value_of 10 ds)) /\ word_ok (35 :: 45 :: ds) (TSigned (- value_of 10 ds)).
Proof. intros. split; [apply (word_ok_signed NMinus)|apply (word_ok_signed NHashMinus)]; first [assumption | reflexivity | exact Logic.I]. Qed.
Print Assumptions C03_spell_negative.
Theorem C03_spell_hex : forall x ds, is_x x = true -> ds <> [] -> Forall hex_digit ds ->
  (value_of 16 ds <= 65535 -> word_ok (x :: ds) (TUnsigned (value_of 16 ds))) /\
  (value_of 16 ds <= 32768 -> word_ok (x :: 45 :: ds) (TSigned (- value_of 16 ds))).
Proof. intros x. intros. split; intros; [apply (word_ok_unsigned (NHex x))|apply (word_ok_signed (NHexMinus x))]; first [assumption | reflexivity | exact Logic.I]. Qed.
Print Assumptions C03_spell_hex.
Theorem C03_spell_register : forall r ds, is_r r = true -> ds <> [] -> Forall dec_digit ds -> value_of 10 ds <= 7 ->
  word_ok (r :: ds) (TReg (value_of 10 ds)).
Proof. exact word_ok_reg_digits. Qed.
Print Assumptions C03_spell_register.
(* any identifier-shaped text not starting with x/X (no keyword does) that upper-cases to the keyword *)
Theorem C03_spell_keyword : forall x k, kw_text_ok x k = true -> word_ok x (TIdent (IKw k)).
Proof. exact word_ok_kw. Qed.
Print Assumptions C03_spell_keyword.
Theorem C03_spell_label : forall name, label_name_ok name = true -> word_ok name (TIdent (ILabel name)).
Proof. exact word_ok_label. Qed.
Print Assumptions C03_spell_label.
Theorem C03_spell_directive : forall w, forallb is_word w = true -> word_ok (46 :: w) (TDirective w).
Proof. exact word_ok_directive. Qed.
Print Assumptions C03_spell_directive.

(* parsing: the tokens of an instruction / directive, with ANY spans and either signedness
   of the numeric token, read back as that instruction / directive *)
Theorem C03_instruction_tokens : forall i k nt bare ksp spans,
  instr_okb i = true -> instr_kw_ok i k = true -> bare_ok i bare ->
  (forall v, instr_num i = Some v -> bare = false -> num_tok nt v) ->
  List.length spans = List.length (instr_ops i nt bare) ->
  nucleus_reads ((TIdent (IKw k), ksp) :: combine (instr_ops i nt bare) spans)
                (NInstr (reloc_instr i (List.last spans ksp))) (List.last spans ksp).
Proof. exact nucleus_reads_instr. Qed.
Print Assumptions C03_instruction_tokens.
Theorem C03_directive_tokens : forall d name nt dsp spans,
  directive_okb d = true -> assoc_str (kw_upper name) dir_names = Some (dir_index d) -> dir_num_ok d nt ->
  List.length spans = List.length (dir_ops d nt) ->
  nucleus_reads ((TDirective name, dsp) :: combine (dir_ops d nt) spans)
                (NDir (reloc_dir d (List.last spans dsp))) (List.last spans dsp).
Proof. exact nucleus_reads_directive. Qed.
Print Assumptions C03_directive_tokens.

Theorem C03_parse_program : forall ws f prev, prog_ok ws -> (List.length (prog_toks ws) < f)%nat ->
  p_stmts f (prog_toks ws, prev) = POk (map wstmt_stmt ws).
Proof. exact p_stmts_program. Qed.
Print Assumptions C03_parse_program.

(* composition: parse_ast of the rendered text = the written statements; each statement has
   its labels at the byte offsets of their texts and the span from the first byte of the
   mnemonic/directive to the last byte of the last operand ([wstmt_stmt]); comments, blank
   lines (lead) and layout leave no trace *)
Theorem C03_parse_render : forall ps lead ws, pieces_ok ps ->
  filter (fun t : tok => negb (is_comment (fst t))) (toks_of 0 ps) = nl_toks lead ++ prog_toks ws ->
  prog_ok ws ->
  parse_ast (text_of ps) = POk (map wstmt_stmt ws).
Proof. exact parse_layout. Qed.
Print Assumptions C03_parse_render.

(* two layouts of the same written program parse to the same statements up to source positions:
   the parser's half of the property.  That `assemble` then ignores the positions, so that the
   memory image and the label addresses do not change, is the next theorem. *)
Theorem C03_layout_irrelevant_partial : forall ps1 lead1 ws1 ps2 lead2 ws2,
  pieces_ok ps1 -> filter (fun t : tok => negb (is_comment (fst t))) (toks_of 0 ps1) = nl_toks lead1 ++ prog_toks ws1 -> prog_ok ws1 ->
  pieces_ok ps2 -> filter (fun t : tok => negb (is_comment (fst t))) (toks_of 0 ps2) = nl_toks lead2 ++ prog_toks ws2 -> prog_ok ws2 ->
  map (fun w => shape_stmt (wstmt_stmt w)) ws1 = map (fun w => shape_stmt (wstmt_stmt w)) ws2 ->
  exists l1 l2, parse_ast (text_of ps1) = POk l1 /\ parse_ast (text_of ps2) = POk l2 /\ map shape_stmt l1 = map shape_stmt l2.
Proof. exact parse_layout_shape. Qed.
Print Assumptions C03_layout_irrelevant_partial.

(* the full statement: two layouts of the same written program (same statements up to source
   positions) parse, and `assemble` treats the two parses alike — both rejected with the same error
   kind, or both accepted with the same blocks (memory image) and, where a symbol table is kept,
   the same label -> (address, external flag) table and relocations ([obj_sim], AsmShape.v); and the
   symbol tables `SymbolTable::new` builds for them bind the same names to the same addresses and
   flags ([core] drops only the source offset of the label).  Proved on the assembler model by a
   simulation of both passes (proofs/AsmShape.v); no typing hypothesis is needed. *)
Theorem C03_layout_irrelevant : forall ps1 lead1 ws1 ps2 lead2 ws2,
  pieces_ok ps1 -> filter (fun t : tok => negb (is_comment (fst t))) (toks_of 0 ps1) = nl_toks lead1 ++ prog_toks ws1 -> prog_ok ws1 ->
  pieces_ok ps2 -> filter (fun t : tok => negb (is_comment (fst t))) (toks_of 0 ps2) = nl_toks lead2 ++ prog_toks ws2 -> prog_ok ws2 ->
  map (fun w => shape_stmt (wstmt_stmt w)) ws1 = map (fun w => shape_stmt (wstmt_stmt w)) ws2 ->
  exists l1 l2, parse_ast (text_of ps1) = POk l1 /\ parse_ast (text_of ps2) = POk l2 /\
    match assemble false None l1, assemble false None l2 with
    | AOk o1, AOk o2 => o_blocks o1 = o_blocks o2 /\ obj_sim o1 o2
    | AErr k1 _, AErr k2 _ => k1 = k2
    | APanic, APanic => True
    | _, _ => False
    end /\
    (forall t1 t2, pass1 l1 None = AOk t1 -> pass1 l2 None = AOk t2 ->
       map core (st_labels t1) = map core (st_labels t2) /\ st_rel t1 = st_rel t2).
Proof.
  intros ps1 lead1 ws1 ps2 lead2 ws2 H1 H2 H3 H4 H5 H6 H7.
  destruct (parse_layout_shape ps1 lead1 ws1 ps2 lead2 ws2 H1 H2 H3 H4 H5 H6 H7) as [l1 [l2 [P1 [P2 E]]]].
  exists l1, l2. split; [exact P1|]. split; [exact P2|]. split.
  - pose proof (assemble_same_shape l1 l2 E) as S. unfold rr in S.
    destruct (assemble false None l1); destruct (assemble false None l2); try exact S. split; [exact (proj1 S) | exact S].
  - intros t1 t2. apply pass1_same_canon. apply canon_of_shape. exact E.
Qed.
Print Assumptions C03_layout_irrelevant.

(* letter case of labels does not matter either: statement lists that agree after erasing the
   positions AND upper-casing (ASCII) every label name — definitions and operands — assemble alike *)
Theorem C03_label_case_irrelevant : forall l1 l2, map canon_stmt l1 = map canon_stmt l2 ->
  match assemble false None l1, assemble false None l2 with
  | AOk o1, AOk o2 => o_blocks o1 = o_blocks o2 /\ obj_sim o1 o2
  | AErr k1 _, AErr k2 _ => k1 = k2
  | APanic, APanic => True
  | _, _ => False
  end.
Proof.
  intros l1 l2 E. pose proof (assemble_same_canon l1 l2 E) as S. unfold rr in S.
  destruct (assemble false None l1); destruct (assemble false None l2); try exact S. split; [exact (proj1 S) | exact S].
Qed.
Print Assumptions C03_label_case_irrelevant.

(* the hypotheses are satisfiable: a text with a blank first line, a label with colon and tab,
   mixed-case mnemonic, blanks around commas, R/r with leading zero, #-n, a comment ending in
   CR before LF, a label on its own line, an indented mixed-case directive with a hex literal *)
Definition ex_pieces : list piece :=
  [ Nl false; W (zs "loop") (TIdent (ILabel (zs "loop"))); Col; Bl [9];
    W (zs "adD") (TIdent (IKw KADD)); Sp; W (zs "r1") (TReg 1); Sp; Cm; Sp; W (zs "R02") (TReg 2); Cm;
    W (zs "#-3") (TSigned (-3)); Sp; Cmt [32; 99; 13]; Nl false;
    W (zs "x_1") (TIdent (ILabel (zs "x_1"))); Nl false; Bl [32; 32];
    W (zs ".FiLL") (TDirective (zs "FiLL")); Sp; W (zs "xfF") (TUnsigned 255) ].
Definition ex_prog : list wstmt :=
  [ mkWStmt [mkWLabel (zs "loop") (1, 5) (Some (5, 6)) []]
      [(TIdent (IKw KADD), (7, 10)); (TReg 1, (11, 13)); (TComma, (14, 15)); (TReg 2, (16, 19)); (TComma, (19, 20)); (TSigned (-3), (20, 23))]
      (NInstr (AADD 1 2 (Imm (-3)))) 7 (20, 23) [(28, 29)];
    mkWStmt [mkWLabel (zs "x_1") (29, 32) None [(32, 33)]]
      [(TDirective (zs "FiLL"), (35, 40)); (TUnsigned 255, (41, 44))]
      (NDir (DFill (POff 255))) 35 (41, 44) [] ].

Example C03_ex_text : text_of ex_pieces =
  [10] ++ zs "loop:" ++ [9] ++ zs "adD r1 , R02,#-3 ; c" ++ [13; 10] ++ zs "x_1" ++ [10] ++ zs "  .FiLL xfF".
Proof. vm_compute. reflexivity. Qed.

Example C03_ex_pieces_ok : pieces_ok ex_pieces.
Proof.
  unfold ex_pieces. cbn [pieces_ok delim_next eol_next].
  repeat split; try reflexivity; try exact Logic.I.
  - apply word_ok_label. reflexivity.
  - apply word_ok_kw. reflexivity.
  - apply (word_ok_reg_digits 114 [49]); [reflexivity|discriminate| |vm_compute; discriminate].
    repeat constructor; unfold dec_digit; lia.
  - apply (word_ok_reg_digits 82 [48; 50]); [reflexivity|discriminate| |vm_compute; discriminate].
    repeat constructor; unfold dec_digit; lia.
  - apply (word_ok_signed NHashMinus [51]); [reflexivity|exact Logic.I|discriminate| |vm_compute; discriminate].
    repeat constructor; unfold dec_digit; lia.
  - apply word_ok_label. reflexivity.
  - apply (word_ok_directive (zs "FiLL")). reflexivity.
  - apply (word_ok_unsigned (NHex 120) [102; 70]); [reflexivity|reflexivity|discriminate| |vm_compute; discriminate].
    repeat constructor; unfold hex_digit; lia.
Qed.

Example C03_ex_tokens :
  filter (fun t : tok => negb (is_comment (fst t))) (toks_of 0 ex_pieces) = nl_toks [(0, 1)] ++ prog_toks ex_prog.
Proof. vm_compute. reflexivity. Qed.

Example C03_ex_prog_ok : prog_ok ex_prog.
Proof.
  unfold ex_prog. cbn [prog_ok]. split; [|split; [discriminate|]].
  - split; [|reflexivity]. apply (tokens_read_instr (AADD 1 2 (Imm (-3))) KADD (TSigned (-3))); try reflexivity.
    intros v Hv. injection Hv as <-. right. split; [reflexivity|lia].
  - split; [|reflexivity]. apply (tokens_read_directive (DFill (POff 255)) (zs "FiLL") (TUnsigned 255)); try reflexivity.
    exists 255. split; [left; split; [reflexivity|lia]|reflexivity].
Qed.

Example C03_ex_parse :
  parse_ast (text_of ex_pieces) =
    POk [ mkStmt [mkLabel (zs "loop") 1] (NInstr (AADD 1 2 (Imm (-3)))) 7 23;
          mkStmt [mkLabel (zs "x_1") 29] (NDir (DFill (POff 255))) 35 44 ].
Proof. rewrite (C03_parse_render ex_pieces [(0, 1)] ex_prog C03_ex_pieces_ok C03_ex_tokens C03_ex_prog_ok). reflexivity. Qed.
Example C03_ex_parse_computed :
  parse_ast (text_of ex_pieces) =
    POk [ mkStmt [mkLabel (zs "loop") 1] (NInstr (AADD 1 2 (Imm (-3)))) 7 23;
          mkStmt [mkLabel (zs "x_1") 29] (NDir (DFill (POff 255))) 35 44 ].
Proof. vm_compute. reflexivity. Qed.
