(* C35 — Bounded offsets accept exactly the representable values.  Proofs in proofs/OffsetProofs.v, whose
   [fits_s n v], [fits_u n v] are the range tests written out below (the proofs apply by conversion). *)
From Coq Require Import ZArith Bool.
From Model Require Import Bits Offset.
From Proofs Require Import OffsetProofs.
Open Scope Z_scope.

(* Creating an N-bit signed offset succeeds exactly on the two's-complement range, and holds the value. *)
Theorem C35_new_signed : forall n v, 1 <= n <= 16 -> -32768 <= v < 32768 ->
  new_s n v = if (- 2 ^ (n - 1) <=? v) && (v <? 2 ^ (n - 1)) then Ok v else Err (CannotFitSigned n).
Proof. intros n v Hn _. exact (new_s_spec n v Hn). Qed.
Print Assumptions C35_new_signed.

Theorem C35_new_unsigned : forall n v, 1 <= n <= 16 -> 0 <= v < 65536 ->
  new_u n v = if (0 <=? v) && (v <? 2 ^ n) then Ok v else Err (CannotFitUnsigned n).
Proof. intros n v Hn _. exact (new_u_spec n v Hn). Qed.
Print Assumptions C35_new_unsigned.

(* Truncating creation holds the sign / zero extension of the low N bits. *)
Theorem C35_trunc_signed : forall n v, 1 <= n <= 16 -> -32768 <= v < 32768 ->
  new_trunc_s n v = Ok (sext n v).
Proof. intros n v Hn _. exact (new_trunc_s_spec n v Hn). Qed.
Print Assumptions C35_trunc_signed.

Theorem C35_trunc_unsigned : forall n v, 1 <= n <= 16 -> 0 <= v < 65536 ->
  new_trunc_u n v = Ok (v mod 2 ^ n).
Proof. intros n v Hn _. exact (new_trunc_u_spec n v Hn). Qed.
Print Assumptions C35_trunc_unsigned.

(* sext is what its name says: representable in n bits and congruent to v modulo 2^n *)
Theorem C35_sext_characterised : forall n v, 1 <= n <= 16 ->
  (- 2 ^ (n - 1) <=? sext n v) && (sext n v <? 2 ^ (n - 1)) = true /\ (sext n v) mod 2 ^ n = v mod 2 ^ n.
Proof. intros n v H. split; [exact (sext_fits n v H) | exact (sext_low_bits n v H)]. Qed.
Print Assumptions C35_sext_characterised.

(* non-vacuity: the guards are met by concrete values on both sides of each limit *)
Example C35_ex1 : new_s 5 (-16) = Ok (-16) /\ new_s 5 (-17) = Err (CannotFitSigned 5) /\
                  new_u 8 255 = Ok 255 /\ new_u 8 256 = Err (CannotFitUnsigned 8) /\
                  new_trunc_s 5 16 = Ok (-16) /\ new_trunc_u 5 32 = Ok 0.
Proof. vm_compute. repeat split. Qed.
