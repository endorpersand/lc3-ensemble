(* C07 — Every word disassembles to text that reassembles to the same word.
   C07_roundtrip is the statement for EVERY origin x0000..xFDFF (xFDFF is the last address at which
   one word fits below the I/O page): a word disassembles to `.fill w` or to the instruction it
   decodes to, a statement that carries no label and encodes to the word (decode and encode are
   inverse, C06); the text ".orig xOOOO / that statement printed / .end" is one layout of these
   three statements, so it parses to them (C03, C36); and a label-free statement assembles to the
   same word at every origin (C07_position_independent_ast, proved on the assembler model for
   symbolic origin).  C07_roundtrip_at_origins_partial (origins x0000, x3000, x8000, xFDFF) is an
   instance; "any address" is covered on the implementation by the harness (16 origins in the
   thorough tier). *)
From Coq Require Import ZArith List Bool.
From Model Require Import Tree Bits Text Instr AsmAst Obj Lexer Parser Print Assembler Disasm.
From Proofs Require Import DisasmProofs AsmOrigin DisasmOrigin.
Import ListNotations.
Open Scope Z_scope.

Theorem C07_roundtrip_at_origins_partial : forall o w,
  (o = 0 \/ o = 12288 \/ o = 32768 \/ o = 65023) -> 0 <= w < 65536 ->
  exists p obj, parse_ast (wrap_text o (disasm_text w)) = POk p /\ assemble false None p = AOk obj
                /\ o_blocks obj = [(o, [Some w])].
Proof.
  intros o w Ho Hw.
  assert (Hr : 0 <= o <= 65023) by (destruct Ho as [->|[->|[->| ->]]]; split; intro H; discriminate H).
  destruct (roundtrip_every_origin o w Hr Hw) as (p & obj & P & A & B & _).
  exists p, obj. split; [exact P|]. split; [exact A|exact B].
Qed.
Print Assumptions C07_roundtrip_at_origins_partial.

(* a label-free statement (an instruction without label operand, or .fill with a number) between
   .orig o and .end assembles, for EVERY origin o at which one word fits below the I/O page and
   whatever the source spans are, to the single block (o, [its word]); [word_of] does not mention o *)
Theorem C07_position_independent_ast : forall o n a b c d e f,
  0 <= o <= 65023 -> label_free n = true ->
  assemble false None [mkStmt [] (NDir (DOrig o)) a b; mkStmt [] n c d; mkStmt [] (NDir DEnd) e f]
  = AOk (mkObj [(o, [Some (word_of n)])] None).
Proof. exact single_statement. Qed.
Print Assumptions C07_position_independent_ast.

Theorem C07_parse_at_origin : forall o w, 0 <= o < 65536 -> 0 <= w < 65536 ->
  exists n c d e f,
    parse_ast (wrap_text o (disasm_text w))
    = POk [mkStmt [] (NDir (DOrig o)) 0 11; mkStmt [] n c d; mkStmt [] (NDir DEnd) e f]
    /\ label_free n = true /\ word_of n = w.
Proof. exact parse_at_origin. Qed.
Print Assumptions C07_parse_at_origin.

Theorem C07_roundtrip : forall o w, 0 <= o <= 65023 -> 0 <= w < 65536 ->
  exists p obj, parse_ast (wrap_text o (disasm_text w)) = POk p /\ assemble false None p = AOk obj
                /\ o_blocks obj = [(o, [Some w])] /\ o_sym obj = None.
Proof. exact roundtrip_every_origin. Qed.
Print Assumptions C07_roundtrip.

(* words below x0200 and non-instructions come back as `.fill <the word>`, all others as instructions *)
Theorem C07_fill_rule : forall w, 0 <= w < 65536 ->
  if (w <? 512) || negb (decodes w)
  then s_nucleus (disassemble w) = NDir (DFill (POff w))
  else exists i, s_nucleus (disassemble w) = NInstr i.
Proof. intros w _. apply fill_rule. Qed.
Print Assumptions C07_fill_rule.

Theorem C07_alias_names :
  disasm_text 49600 = [82; 69; 84] /\ disasm_text 61472 = [71; 69; 84; 67] /\ disasm_text 61473 = [80; 85; 84; 67] /\
  disasm_text 61474 = [80; 85; 84; 83] /\ disasm_text 61475 = [73; 78] /\ disasm_text 61476 = [80; 85; 84; 83; 80] /\
  disasm_text 61477 = [72; 65; 76; 84] /\ disasm_text 32768 = [82; 84; 73].
Proof. vm_compute. repeat split. Qed.
Print Assumptions C07_alias_names.

Theorem C07_no_labels : forall w, s_labels (disassemble w) = [] /\ s_start (disassemble w) = 0 /\ s_end (disassemble w) = 0.
Proof.
  intros w. unfold disassemble, try_disassemble. destruct (w <? 512); [repeat split|]. destruct (decode w); repeat split.
Qed.
Print Assumptions C07_no_labels.
