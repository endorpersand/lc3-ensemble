(* C14 — Strict mode only adds uninitialised-value errors.
   [unstrict s] is the same machine state with the strict flag cleared.  For EVERY state and
   environment: if a step in the given state (strict or not) is not rejected, the same step from
   [unstrict s] ends in exactly the [unstrict] of the resulting state — every register, PC, PSR,
   saved SP, memory word, device, frame, observer entry, counter — with the same outcome; and if
   it is rejected, either with one of the strict (uninitialised-value) errors, or the non-strict
   step fails with the same error in the same state.  And on a machine whose registers, saved
   stack pointer and memory words are all fully initialised, no step — under any flags, any
   environment, any instruction or interrupt — reports a strict error, and the machine stays
   fully initialised (an invariant of the step). *)
From Coq Require Import ZArith List.
From Model Require Import Word Sim.
From Proofs Require Import SimMachine SimStrict SimInit.
From Proofs Require Import SimNoPanic SimStrictRun.
Open Scope Z_scope.

Theorem C14_strict_only_adds_strict_errors : forall e s,
  match step_in e s with
  | (s1, OErr x) => is_strict_err x = true \/ step_in e (unstrict s) = (unstrict s1, OErr x)
  | (s1, o) => step_in e (unstrict s) = (unstrict s1, o)
  end.
Proof.
  intros e s. pose proof (strict_step_same e s) as H. destruct (step_in e s) as [s1 o]. cbn [fst snd] in H.
  destruct o as [| |x|]; try exact (H eq_refl). cbn [strict_out] in H.
  destruct (is_strict_err x); [left; reflexivity|right; exact (H eq_refl)].
Qed.
Print Assumptions C14_strict_only_adds_strict_errors.

(* the strict errors are exactly the nine uninitialised-value kinds *)
Theorem C14_strict_error_kinds : forall x, is_strict_err x = true <->
  (x = StrictRegSetUninit \/ x = StrictMemSetUninit \/ x = StrictIOSetUninit \/ x = StrictJmpAddrUninit \/
   x = StrictSRAddrUninit \/ x = StrictMemAddrUninit \/ x = StrictPCCurrUninit \/ x = StrictPCNextUninit \/ x = StrictPSRSetUninit).
Proof.
  intros x. split.
  - destruct x; cbn; intros H; try discriminate H; tauto.
  - intros H. repeat destruct H as [H|H]; subst; reflexivity.
Qed.
Print Assumptions C14_strict_error_kinds.

(* instruction level, trap entry included *)
Theorem C14_exec_simulation : forall e i s, Rel (exec e i) (exec e i) s.
Proof. exact rel_exec. Qed.
Print Assumptions C14_exec_simulation.

(* over runs without a strict error; and up to the first strict error the prefix is simulated *)
Theorem C14_run_simulation : forall es s,
  existsb strict_out (snd (run_n es s)) = false ->
  run_n es (unstrict s) = (unstrict (fst (run_n es s)), snd (run_n es s)).
Proof. exact strict_run_simulation. Qed.
Print Assumptions C14_run_simulation.
Theorem C14_run_prefix_simulation : forall es1 es2 s,
  existsb strict_out (snd (run_n es1 s)) = false ->
  fst (run_n (es1 ++ es2) (unstrict s)) = fst (run_n es2 (unstrict (fst (run_n es1 s)))) /\
  firstn (List.length es1) (snd (run_n (es1 ++ es2) (unstrict s))) = snd (run_n es1 s).
Proof. exact strict_run_prefix. Qed.
Print Assumptions C14_run_prefix_simulation.

Theorem C14_initialized_machine_no_strict_error : forall e s,
  AI s -> AI (fst (step_in e s)) /\ (forall x, snd (step_in e s) = OErr x -> is_strict_err x = false).
Proof.
  intros e s Hs.
  destruct (hi_machine AI ok_brk e (fun _ H => H) (fun _ H => H) (ai_handle_interrupt e) (ai_fetch_exec e) eq_refl s Hs) as [H1 H2].
  split; [exact H1|]. intros x E. rewrite E in H2. exact H2.
Qed.
Print Assumptions C14_initialized_machine_no_strict_error.

Theorem C14_AI_meaning : forall s, AI s <->
  (List.length (s_regs s) = 8%nat /\ Forall (fun w => w_init w = 65535) (s_regs s)
   /\ w_init (s_saved_sp s) = 65535 /\ forall a, w_init (mget (s_mem s) a) = 65535).
Proof.
  intros s. unfold AI, is_init. change ALL_BITS with 65535. split.
  - intros (L & R & S & M). repeat split; try assumption.
    + eapply Forall_impl; [|exact R]. intros w H. apply Z.eqb_eq. exact H.
    + apply Z.eqb_eq. exact S.
    + intros a. apply Z.eqb_eq. apply M.
  - intros (L & R & S & M). repeat split; try assumption.
    + eapply Forall_impl; [|exact R]. intros w H. apply Z.eqb_eq. exact H.
    + apply Z.eqb_eq. exact S.
    + intros a. apply Z.eqb_eq. apply M.
Qed.
Print Assumptions C14_AI_meaning.
