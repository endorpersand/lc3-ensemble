(* C19 — Reading untrusted object files never panics; nor do re-serializing, linking with an
   assembled file and loading what was read.
   Link and load here are the outcome-only models of model/ObjPipeline.v (completes or panics), not
   [Link.link] of C20 or [Load.load_obj] of C29.
   The models (model/ObjBin.v, ObjText.v, ObjPipeline.v) follow the REPAIRED code: every Rust
   panic site (unwrap/unreachable!/assert!, slice copies, `+`/`-` under overflow checks) is an
   explicit RPanic / Panics outcome, and running out of fuel is RPanic too.
   Re-serialization: BinaryFormat::serialize and TextFormat::serialize contain no reachable panic
   site (wrapping_add, checked_ilog10, str::get; `_ser(o).unwrap()` only fails if writing to a
   String fails); their models ser_bin / ser_text are total functions, compared with the
   implementation on every object the readers accept.
   Hypotheses: the input of the binary reader is a list of bytes; [src_fits]: the source text kept
   in the object is a Rust String, hence at most isize::MAX bytes long; usize is 64 bits. *)
From Coq Require Import ZArith List Bool String.
From Model Require Import Tree Text Obj ObjBin ObjText ObjPipeline.
From Proofs Require Import ObjBytesProofs ObjBinProofs ObjPipelineProofs ObjBinReadProofs ObjTextReadProofs.
Import ListNotations.
Open Scope Z_scope.

Theorem C19_bin_total : forall bs, deser_bin bs <> RPanic.
Proof. intro bs. exact (rd_post_np _ _ (deser_bin_post bs)). Qed.
Print Assumptions C19_bin_total.

Theorem C19_text_total : forall s, deser_text s <> RPanic.
Proof. intro s. exact (rd_post_np _ _ (deser_text_post s)). Qed.
Print Assumptions C19_text_total.

(* [pipe_ok]: blocks sorted, starts and lengths in 16 bits, every relocation entry inside a block, line
   runs ending at or before isize::MAX *)
Theorem C19_bin_read_ok : forall bs o, Forall is_byte bs -> deser_bin bs = ROk o -> src_fits o -> pipe_ok o = true.
Proof.
  intros bs o Hb H Hs. destruct (rd_post_ok _ _ _ (deser_bin_post bs) H) as [Hbl Hc].
  apply pipe_ok_intro; [apply Hbl; exact Hb|exact Hc|exact Hs].
Qed.
Print Assumptions C19_bin_read_ok.
Theorem C19_text_read_ok : forall s o, deser_text s = ROk o -> src_fits o -> pipe_ok o = true.
Proof.
  intros s o H Hs. destruct (rd_post_ok _ _ _ (deser_text_post s) H) as [Hbl Hc].
  apply pipe_ok_intro; assumption.
Qed.
Print Assumptions C19_text_read_ok.

(* assembled / linked objects (obj_inv, checked on each by the harness) satisfy it as well *)
Theorem C19_assembled_ok : forall a, obj_inv a = true -> pipe_ok a = true.
Proof. exact obj_inv_pipe_ok. Qed.
Print Assumptions C19_assembled_ok.

(* Completes = Ok or Err *)
Theorem C19_pipeline_total : forall o a, pipe_ok o = true -> pipe_ok a = true ->
  link_outcome o a = Completes /\ link_outcome a o = Completes /\ load_outcome o = Completes.
Proof. intros o a Ho Ha. repeat split; [apply link_total|apply link_total|apply load_total]; assumption. Qed.
Print Assumptions C19_pipeline_total.

Theorem C19_pipeline_total_bin : forall bs o a, Forall is_byte bs -> deser_bin bs = ROk o -> src_fits o ->
  obj_inv a = true ->
  link_outcome o a = Completes /\ link_outcome a o = Completes /\ load_outcome o = Completes.
Proof.
  intros bs o a Hb Hr Hs Ha. apply C19_pipeline_total; [eapply C19_bin_read_ok; eassumption|apply obj_inv_pipe_ok; exact Ha].
Qed.
Print Assumptions C19_pipeline_total_bin.
Theorem C19_pipeline_total_text : forall s o a, deser_text s = ROk o -> src_fits o -> obj_inv a = true ->
  link_outcome o a = Completes /\ link_outcome a o = Completes /\ load_outcome o = Completes.
Proof.
  intros s o a Hr Hs Ha. apply C19_pipeline_total; [eapply C19_text_read_ok; eassumption|apply obj_inv_pipe_ok; exact Ha].
Qed.
Print Assumptions C19_pipeline_total_text.

(* the inputs that made the pinned code panic (DESIGN §9 #7), on the repaired code:
   a .DEBUG section with one divider is read (no line table); a line number of 2^64-1, a
   relocation entry outside every block are rejected; a block reaching past xFFFF is read and
   then linked / loaded without panic *)
Example C19_ex_one_divider :
  deser_text (s2z "LC-3 OBJ FILE"%string ++ [10] ++ s2z ".DEBUG"%string ++ [10] ++ s2z "====="%string ++ [10]) = ROk (mkObj [] None).
Proof. vm_compute. reflexivity. Qed.
Example C19_ex_huge_line :
  deser_bin (BFMT_MAGIC ++ BFMT_VER ++ [2; 255; 255; 255; 255; 255; 255; 255; 255; 1; 0; 0; 48] ++ [3; 0; 0; 0; 0; 0; 0; 0; 0]) = RNone.
Proof. vm_compute. reflexivity. Qed.
Example C19_ex_reloc_outside :
  deser_bin (BFMT_MAGIC ++ BFMT_VER ++ [1; 0; 0; 1; 0; 0; 0; 0; 0; 0; 0; 0; 3; 0; 0; 0; 0; 0; 0; 0; 70; 79; 79]
             ++ [4; 0; 80; 3; 0; 0; 0; 0; 0; 0; 0; 70; 79; 79]) = RNone.
Proof. vm_compute. reflexivity. Qed.
Example C19_ex_wrapping_block :
  let o := mkObj [(65535, [Some 1; Some 2])] None in
  deser_bin (BFMT_MAGIC ++ BFMT_VER ++ [0; 255; 255; 2; 0; 255; 1; 0; 255; 2; 0]) = ROk o
  /\ link_outcome o (mkObj [(0, [Some 7])] None) = Completes /\ load_outcome o = Completes.
Proof. vm_compute. repeat split. Qed.
