(* C27 — Frame stack tracks calls and returns.
   Proved for all states: pushing a frame (done by JSR/JSRR, TRAP, interrupt and exception
   entry — see call_subroutine / call_interrupt in model/Sim.v) increases the depth by exactly one
   and, with debug frames on, adds one entry holding the caller address, the callee / vector, the
   call kind and the arguments of the registered signature; popping (RET = JMP R7, RTI) decreases
   the depth by one saturating at zero and removes the newest entry.  Which instructions push and
   pop is part of the model that is compared with the implementation after every step (depth and
   frame list are fields of `sim.run` observations) and checked against an independent event
   count by harness area simprops.  Composed over whole instructions (C27_instruction_depth,
   C27_interrupt_entry_depth): whenever an instruction completes, the depth afterwards is the
   depth before plus one for JSR/JSRR and TRAP, minus one saturating at zero for RET (JMP R7) and
   RTI, and unchanged for every other instruction; taking an interrupt adds one. *)
From Coq Require Import ZArith List Bool Lia.
From Model Require Import Bits Word Instr Sim.
From Proofs Require Import SimAccess SimFrames IrqProofs SimNoPanic SimStepObs SimStepFrames SimFrameList SimStepFrames2 SimObsEntry.
Import ListNotations.
Open Scope Z_scope.

Theorem C27_push : forall a b f s,
  s_frame_no (fst (push_frame a b f s)) = s_frame_no s + 1
  /\ match s_frames s, s_frames (fst (push_frame a b f s)) with
     | Some fs, Some (top :: fs') => fs' = fs /\ f_caller top = a /\ f_callee top = b /\ f_type top = f
     | None, None => True
     | _, _ => False
     end.
Proof. exact push_frame_depth. Qed.
Print Assumptions C27_push.

Theorem C27_pop : forall s,
  s_frame_no (fst (pop_frame s)) = Z.max 0 (s_frame_no s - 1)
  /\ s_frames (fst (pop_frame s)) = match s_frames s with Some (_ :: r) => Some r | x => x end.
Proof. exact pop_frame_depth. Qed.
Print Assumptions C27_pop.

Theorem C27_args_by_register : forall a b f s fs rs,
  s_frames s = Some fs ->
  (match f with FSubroutine => assoc (s_sr_defns s) b | FTrap => if b <? 256 then trap_defn b else None | FInterrupt => assoc (s_sr_defns s) b end) = Some (PBR rs) ->
  exists top, s_frames (fst (push_frame a b f s)) = Some (top :: fs) /\ f_fp top = None /\ f_args top = map (fun r => rget (s_regs s) r) rs.
Proof. exact push_frame_args_pbr. Qed.
Print Assumptions C27_args_by_register.

Theorem C27_instruction_depth : forall e i s s' u,
  exec e i s = (s', inl u) -> s_frame_no s' = depth_effect i (s_frame_no s).
Proof. intros e i s s' u E. exact (exec_depth e i s s' u E). Qed.
Print Assumptions C27_instruction_depth.

Theorem C27_depth_effect_table : forall i n,
  depth_effect i n = match i with
                     | SJSR _ | STRAP _ => n + 1
                     | SRTI => Z.max 0 (n - 1)
                     | SJMP br => if br =? 7 then Z.max 0 (n - 1) else n
                     | _ => n
                     end.
Proof. reflexivity. Qed.
Print Assumptions C27_depth_effect_table.

Theorem C27_interrupt_entry_depth : forall e v p s s' u,
  handle_interrupt e v (Some p) s = (s', inl u) -> psr_priority (s_psr s) < p -> s_frame_no s' = s_frame_no s + 1.
Proof. exact fe_handle_interrupt_some. Qed.
Print Assumptions C27_interrupt_entry_depth.

Theorem C27_trap_exception_entry_depth : forall e v s s' u,
  handle_interrupt e v None s = (s', inl u) -> s_frame_no s' = s_frame_no s + 1.
Proof. intros e v s s' u E. exact (fe_handle_interrupt_none e v s s' u E). Qed.
Print Assumptions C27_trap_exception_entry_depth.

(* whole steps and runs (machine states before and after [step_in]; [Completed] as in C28_completed_def) *)
Theorem C27_step_depth : forall e s s' u s1 w i, Completed e s s' u s1 w i ->
  s_frame_no s' = depth_effect i (s_frame_no s).
Proof.
  intros e s s' u s1 w i C. destruct (step_exec _ _ _ _ _ _ _ C) as (V & s3 & X & ->). cbn [upd_instrs s_frame_no].
  rewrite (exec_depth e i _ _ _ X), (fv_frame_no _ _ V). reflexivity.
Qed.
Print Assumptions C27_step_depth.
Theorem C27_interrupt_step_depth : forall e s s' u v p, takes_irq e s v p ->
  step_inner e (upd_obs s []) = (s', inl u) -> s_frame_no s' = s_frame_no s + 1.
Proof.
  intros e s s' u v p T STEP.
  exact (fe_handle_interrupt_some e (256 + v) p _ _ _ (step_takes_irq e s s' u v p T STEP) (proj2 T)).
Qed.
Print Assumptions C27_interrupt_step_depth.
(* any run of completed steps, with interrupts taken at any boundaries *)
Theorem C27_run_depth : forall s evs s', Trace s evs s' ->
  s_frame_no s' = fold_left (fun n ev => event_effect ev n) evs (s_frame_no s).
Proof.
  induction 1 as [s|e s s1 u t w i evs s' C _ IH|e s s1 u v p evs s' T ST _ IH]; cbn [fold_left event_effect].
  - reflexivity.
  - rewrite IH, (C27_step_depth _ _ _ _ _ _ _ C). reflexivity.
  - rewrite IH, (C27_interrupt_step_depth _ _ _ _ _ _ T ST). reflexivity.
Qed.
Print Assumptions C27_run_depth.
Theorem C27_trace_def : forall s evs s', Trace s evs s' <->
  match evs with
  | [] => s' = s
  | EInstr i :: r => exists e s1 u t w, Completed e s s1 u t w i /\ Trace s1 r s'
  | EIrq :: r => exists e s1 u v p, takes_irq e s v p /\ step_inner e (upd_obs s []) = (s1, inl u) /\ Trace s1 r s'
  end.
Proof.
  intros s evs s'. split.
  - intros T. destruct T as [s|e s s1 u t w i evs s' C T|e s s1 u v p evs s' K ST T]; [reflexivity| |].
    + exists e, s1, u, t, w. split; assumption.
    + exists e, s1, u, v, p. split; [assumption|split; assumption].
  - destruct evs as [|[i|] r].
    + intros ->. apply tr_nil.
    + intros (e & s1 & u & t & w & C & T). exact (tr_instr e s s1 u t w i r s' C T).
    + intros (e & s1 & u & v & p & K & ST & T). exact (tr_irq e s s1 u v p r s' K ST T).
Qed.
Print Assumptions C27_trace_def.
(* a call, a body without calls / returns / interrupts, and the matching RET restore the depth *)
Theorem C27_call_return_balanced : forall s o body s',
  Trace s (EInstr (SJSR o) :: body ++ [EInstr (SJMP 7)]) s' -> forallb neutral body = true ->
  0 <= s_frame_no s -> s_frame_no s' = s_frame_no s.
Proof.
  intros s o body s' T N P. rewrite (C27_run_depth _ _ _ T). cbn [fold_left event_effect depth_effect].
  rewrite fold_left_app, (neutral_fold _ _ N). cbn [fold_left event_effect depth_effect Z.eqb Pos.eqb]. lia.
Qed.
Print Assumptions C27_call_return_balanced.
(* non-vacuity, evaluated in Coq: JSR at x3000 to x3002, RET there; depth 0 -> 1 -> 0, frame list empty again *)
Theorem C27_run_example :
  exists s1 s', Trace ex_call_state [EInstr (SJSR (Imm 1)); EInstr (SJMP 7)] s' /\
    (exists u t w, Completed ex_env ex_call_state s1 u t w (SJSR (Imm 1))) /\
    s_frame_no s1 = 1 /\ s_pc s1 = 12290 /\
    s_frame_no s' = 0 /\ s_pc s' = 12289 /\ s_frames s' = Some [].
Proof. exact ex_call_ret. Qed.
Print Assumptions C27_run_example.
(* the recorded frame of a call, at step level *)
Theorem C27_step_call_frame : forall e s s' u s1 w o fs, Completed e s s' u s1 w (SJSR o) ->
  0 <= s_pc s < 65536 -> s_frames s = Some fs ->
  exists top, s_frames s' = Some (top :: fs) /\
    f_caller top = s_pc s /\ f_callee top = jsr_target s o /\ f_type top = FSubroutine.
Proof. exact step_jsr_frame. Qed.
Print Assumptions C27_step_call_frame.
Theorem C27_call_target_def : forall s o,
  jsr_target s o = match o with Imm off => wrap16 (wrap16 (s_pc s + 1) + off) | RegOp br => w_data (rget (s_regs s) br) end.
Proof. reflexivity. Qed.
Print Assumptions C27_call_target_def.
(* ... and of an interrupt (stack slots in ordinary memory); [entry_frame] is the general form for any entry *)
Theorem C27_step_interrupt_frame : forall e s s' u v p fs,
  List.length (s_regs s) = 8%nat -> takes_irq e s v p ->
  step_inner e (upd_obs s []) = (s', inl u) ->
  let a1 := wrap16 (entry_sp s - 1) in let a2 := wrap16 (entry_sp s - 2) in
  (IO_START <=? a1) = false -> (IO_START <=? a2) = false ->
  0 <= s_pc s < 65536 -> s_frames s = Some fs ->
  exists top, s_frames s' = Some (top :: fs) /\
    f_caller top = s_pc s /\ f_callee top = 256 + v /\ f_type top = FInterrupt.
Proof.
  intros e s s' u v p fs L T STEP a1 a2 IO1 IO2 PC F. apply (step_takes_irq e s s' u v p T) in STEP.
  rewrite (handle_interrupt_some_is_entry e (256 + v) p (after_poll e (upd_obs s [])) (proj2 T)) in STEP.
  destruct (entry_frame e (256 + v) FInterrupt _ (after_poll e (upd_obs s [])) s' u fs STEP L IO1 IO2 F)
    as (top & A & B & C & D).
  exists top. repeat split; try assumption.
  rewrite B. unfold prefetch_pc, after_poll. cbn [upd_devs upd_prefetch upd_obs s_pc s_prefetch].
  rewrite Z.sub_0_r. unfold wrap16. apply Z.mod_small. exact PC.
Qed.
Print Assumptions C27_step_interrupt_frame.
Theorem C27_entry_frame : forall e v ft psr_f s s' u fs,
  entry_body e v ft psr_f s s = (s', inl u) ->
  let a1 := wrap16 (entry_sp s - 1) in let a2 := wrap16 (entry_sp s - 2) in
  List.length (s_regs s) = 8%nat -> (IO_START <=? a1) = false -> (IO_START <=? a2) = false ->
  s_frames s = Some fs ->
  exists top, s_frames s' = Some (top :: fs) /\
    f_caller top = prefetch_pc s /\ f_callee top = v /\ f_type top = ft.
Proof. exact entry_frame. Qed.
Print Assumptions C27_entry_frame.
(* [entry_body] is the common part of handle_interrupt after the priority gate / the virtual short-cut *)
Theorem C27_entry_body_is_handle_interrupt : forall e v s,
  (forall p, psr_priority (s_psr s) < p ->
     handle_interrupt e v (Some p) s = entry_body e v FInterrupt (fun x => psr_set_priority (psr_set_cc x 2) p) s s) /\
  ((if fl_real (s_flags s) then None else real_int_vect v) = None ->
     handle_interrupt e v None s = entry_body e v FTrap (fun x => psr_set_cc x 2) s s).
Proof. intros e v s. split; [intros p H; exact (handle_interrupt_some_is_entry e v p s H)|exact (handle_interrupt_none_is_entry e v s)]. Qed.
Print Assumptions C27_entry_body_is_handle_interrupt.
(* second sentence: with debug frames on, the frame list has as many entries as the reported depth, on EVERY path
   of [step_in] (also strict-mode failures in the middle of an entry), hence along every run from a state that
   has it (a new or reset simulator: depth 0, empty list) *)
Theorem C27_frame_list_length_step : forall e s, FL s -> FL (fst (step_in e s)).
Proof. exact fl_step_in. Qed.
Print Assumptions C27_frame_list_length_step.
Theorem C27_frame_list_length_run : forall es s, FL s -> FL (steps es s).
Proof.
  intros es s H. rewrite steps_run_n.
  exact (proj1 (run_n_inv FL (fun _ => True) (fun e s0 H0 => conj (fl_step_in e s0 H0) Logic.I) es s H)).
Qed.
Print Assumptions C27_frame_list_length_run.
Theorem C27_frame_list_invariant_meaning : forall s, FL s <->
  match s_frames s with
  | Some fs => s_frame_no s = Z.of_nat (List.length fs)
  | None => 0 <= s_frame_no s
  end.
Proof. intros s. reflexivity. Qed.
Print Assumptions C27_frame_list_invariant_meaning.
Theorem C27_steps_def : forall e es s, steps [] s = s /\ steps (e :: es) s = steps es (fst (step_in e s)).
Proof. intros. split; reflexivity. Qed.
Print Assumptions C27_steps_def.
Example C27_frame_list_initial : FL ex_call_state.
Proof. reflexivity. Qed.
(* built-in trap signatures: GETC/IN return in R0, OUT/PUTS/PUTSP take R0, HALT nothing *)
Example C27_trap_signatures :
  trap_defn 32 = Some (PBR nil) /\ trap_defn 33 = Some (PBR (0 :: nil)) /\ trap_defn 34 = Some (PBR (0 :: nil)) /\
  trap_defn 35 = Some (PBR nil) /\ trap_defn 36 = Some (PBR (0 :: nil)) /\ trap_defn 37 = Some (PBR nil) /\ trap_defn 38 = None.
Proof. vm_compute. repeat split. Qed.
