(* C24 — The line <-> address debug mapping is one-to-one.
   [sym]: the symbol table of `SymbolTable::new(stmts, Some(text))` (what `assemble_debug` stores).
   [spec_lines text p] (spec/LineSpec.v): one pair (line, address) for every statement that occupies
   memory (everything except .orig, .end, .external) and stands inside a block — line of the text
   on which the statement starts, positional address.  Hypotheses: [typed] (ranges the Rust types
   guarantee), [lines_inc text p] (every statement starts on a later line than the one before, as
   in parser output), and for the address -> line direction [wf p] (the program assembles) and
   [blkw_pos p] (no `.blkw 0`, which the parser rejects).  [lines_inc] and [blkw_pos] are hypotheses:
   no theorem derives them from the parser model. *)
From Coq Require Import ZArith List Bool.
From Model Require Import Text Instr AsmAst Obj Assembler.
From Spec Require Import LayoutSpec WfSpec LineSpec.
From Proofs Require Import AsmLines.
Import ListNotations.
Open Scope Z_scope.

(* a line maps to an address exactly when a memory-occupying statement of a block starts on it,
   and then to that statement's address *)
Theorem C24_forward : forall text p sym, typed p = true -> lines_inc text p -> pass1 p (Some text) = AOk sym ->
  forall n a, lookup_line sym n = Some a <-> In (n, a) (spec_lines text p).
Proof. exact forward_spec. Qed.
Print Assumptions C24_forward.

(* that address maps back to the line *)
Theorem C24_backward : forall text p sym, typed p = true -> lines_inc text p -> wf p = true -> blkw_pos p = true ->
  pass1 p (Some text) = AOk sym ->
  forall a n, rev_lookup_line sym a = Some n <-> In (n, a) (spec_lines text p).
Proof. exact backward_spec. Qed.
Print Assumptions C24_backward.

(* no address stands on two lines, no line holds two addresses *)
Theorem C24_injective : forall text p, typed p = true -> wf p = true -> blkw_pos p = true ->
  NoDup (map snd (spec_lines text p)).
Proof. exact lines_injective. Qed.
Print Assumptions C24_injective.
Theorem C24_functional : forall text p, lines_inc text p -> NoDup (map fst (spec_lines text p)).
Proof. exact lines_functional. Qed.
Print Assumptions C24_functional.

(* the table lists exactly these pairs: lines holding only labels, comments, .orig, .end or
   .external map to nothing *)
Theorem C24_nothing_else : forall text p sym, typed p = true -> lines_inc text p -> pass1 p (Some text) = AOk sym ->
  forall n a, In (n, a) (line_iter sym) <-> In (n, a) (spec_lines text p).
Proof. exact listing_lines. Qed.
Print Assumptions C24_nothing_else.

(* the debug bookkeeping never panics on such input (discharges the condition of C01_image_debug
   and C02_accepts_iff_debug) *)
Theorem C24_debug_total : forall text p, typed p = true -> lines_inc text p -> assemble true (Some text) p <> APanic.
Proof. exact assemble_debug_total. Qed.
Print Assumptions C24_debug_total.

(* ".orig x3000 / loop ADD.. / .external X / .blkw 2 / HALT / .end", one statement per line *)
Definition text : str := [46; 10; 108; 10; 46; 10; 46; 10; 72; 10; 46; 10].
Definition ex : list stmt :=
  [ mkStmt [] (NDir (DOrig 12288)) 0 1;
    mkStmt [mkLabel [108] 2] (NInstr (AADD 0 0 (Imm 1))) 2 3;
    mkStmt [] (NDir (DExternal (mkLabel [88] 4))) 4 5;
    mkStmt [] (NDir (DBlkw 2)) 6 7;
    mkStmt [] (NInstr AHALT) 8 9;
    mkStmt [] (NDir DEnd) 10 11 ].
Example C24_ex : spec_lines text ex = [(1, 12288); (3, 12289); (4, 12291)] /\
  match pass1 ex (Some text) with
  | AOk sym => line_iter sym = [(1, 12288); (3, 12289); (4, 12291)] /\ lookup_line sym 2 = None
               /\ rev_lookup_line sym 12289 = Some 3 /\ rev_lookup_line sym 12290 = None
  | _ => False end.
Proof. vm_compute. repeat split; reflexivity. Qed.
