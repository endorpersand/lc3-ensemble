(* C15 — Initialization tracking of words is sound, for every 16-bit operand.
   spec/WordInit.v: `agree a b` = b is a with its uninitialised bits re-chosen arbitrarily (same mask, same
   value on every initialised bit); `sound2 op` = agree l l' -> agree r r' -> agree (op l r) (op l' r'): the
   result mask does not depend on the uninitialised operand bits, and every result bit it reports as
   initialised has the same value for every choice of them. *)
From Coq Require Import ZArith Bool Lia.
From Model Require Import Bits Word.
From Spec Require Import WordInit.
From Proofs Require Import BitsFacts WordProofs.
Open Scope Z_scope.

(* what `agree` says, bit by bit *)
Theorem C15_agree_bitwise : forall a b,
  agree a b <-> w_init a = w_init b /\
                forall i, 0 <= i -> Z.testbit (w_init a) i = true -> Z.testbit (w_data a) i = Z.testbit (w_data b) i.
Proof.
  intros a b. split.
  - intros Hag. split; [apply Hag|]. intros i _ Hi. pose proof (agree_bit a b i Hag) as H.
    rewrite Hi, !andb_true_r in H. exact H.
  - intros [Hi Hb]. split; [exact Hi|]. apply Z.bits_inj'. intros i Hi0. rewrite !Z.land_spec.
    destruct (Z.testbit (w_init a) i) eqn:E; [rewrite (Hb i Hi0 E); reflexivity|rewrite !andb_false_r; reflexivity].
Qed.
Print Assumptions C15_agree_bitwise.

Theorem C15_sound_add : sound2 w_add.
Proof.
  intros l l' r r' Hl Hl' Hr Hr' Hagl Hagr. unfold w_add.
  fold (zero_init r) (zero_init r') (zero_init l) (zero_init l').
  rewrite <- (zero_init_agree r r' Hr Hr' Hagr), <- (zero_init_agree l l' Hl Hl' Hagl).
  destruct (zero_init r) eqn:Zr; [exact Hagl|].
  destruct (zero_init l) eqn:Zl; [exact Hagr|].
  apply (slow_sound Z.add); assumption.
Qed.
Print Assumptions C15_sound_add.

Theorem C15_sound_sub : sound2 w_sub.
Proof.
  intros l l' r r' Hl Hl' Hr Hr' Hagl Hagr. unfold w_sub.
  fold (zero_init r) (zero_init r').
  rewrite <- (zero_init_agree r r' Hr Hr' Hagr).
  destruct (zero_init r) eqn:Zr; [exact Hagl|].
  apply (slow_sound Z.sub); assumption.
Qed.
Print Assumptions C15_sound_sub.

Theorem C15_sound_and : sound2 w_and.
Proof. exact and_sound. Qed.
Print Assumptions C15_sound_and.

Theorem C15_sound_not : sound1 w_not.
Proof. exact not_sound. Qed.
Print Assumptions C15_sound_not.

(* the same, unfolded once, so that the statement can be read without the spec file *)
Theorem C15_sound_and_unfolded : forall l l' r r',
  wf l -> wf l' -> wf r -> wf r' ->
  w_init l = w_init l' -> Z.land (w_data l) (w_init l) = Z.land (w_data l') (w_init l) ->
  w_init r = w_init r' -> Z.land (w_data r) (w_init r) = Z.land (w_data r') (w_init r) ->
  w_init (w_and l r) = w_init (w_and l' r') /\
  Z.land (w_data (w_and l r)) (w_init (w_and l r)) = Z.land (w_data (w_and l' r')) (w_init (w_and l r)).
Proof. intros l l' r r' Hl Hl' Hr Hr' A B C D. exact (and_sound l l' r r' Hl Hl' Hr Hr' (conj A B) (conj C D)). Qed.
Print Assumptions C15_sound_and_unfolded.

(* results are 16-bit words again *)
Theorem C15_results_16bit : forall l r, wf l -> wf r ->
  wf (w_add l r) /\ wf (w_sub l r) /\ wf (w_and l r) /\ wf (w_not l).
Proof. intros l r Hl Hr. repeat split; try apply add_wf; try apply sub_wf; try apply and_wf; try apply not_wf; assumption. Qed.
Print Assumptions C15_results_16bit.

(* fully initialised operands give the fully initialised wrapping 16-bit result *)
Theorem C15_full_add : forall l r, wf l -> wf r -> full l -> full r ->
  w_add l r = new_init (wrap16 (w_data l + w_data r)).
Proof.
  intros l r [Ha _] [Hb _] Fl Fr. rewrite (full_new_init l Fl), (full_new_init r Fr). cbn [new_init w_data].
  apply w_add_new; assumption.
Qed.
Print Assumptions C15_full_add.

Theorem C15_full_sub : forall l r, wf l -> wf r -> full l -> full r ->
  w_sub l r = new_init (wrap16 (w_data l - w_data r)).
Proof.
  intros l r [Ha _] [Hb _] Fl Fr. rewrite (full_new_init l Fl), (full_new_init r Fr). cbn [new_init w_data].
  apply w_sub_new; assumption.
Qed.
Print Assumptions C15_full_sub.

Theorem C15_full_and : forall l r, wf l -> wf r -> full l -> full r ->
  w_and l r = new_init (Z.land (w_data l) (w_data r)) /\
  Z.land (w_data l) (w_data r) = wrap16 (Z.land (w_data l) (w_data r)).
Proof.
  intros l r [Ha _] [Hb _] Fl Fr. rewrite (full_new_init l Fl), (full_new_init r Fr). cbn [new_init w_data].
  split; [|symmetry; apply Z.mod_small, land_lt16; assumption].
  unfold w_and, new_init. cbn [w_data w_init]. f_equal. rewrite all_bits_val.
  pose proof (u16_not16 _ Ha) as Hna. pose proof (u16_not16 _ Hb) as Hnb.
  apply u16_land in Hna, Hnb. rewrite Hna, Hnb. rewrite <- Hna, <- Hnb.
  apply Z.bits_inj'. intros i Hi0. rewrite !Z.lor_spec, !Z.land_spec.
  destruct (Z.testbit (not16 _) i), (Z.testbit (not16 _) i), (Z.testbit 65535 i); reflexivity.
Qed.
Print Assumptions C15_full_and.

Theorem C15_full_not : forall l, wf l -> full l ->
  w_not l = new_init (65535 - w_data l) /\ 65535 - w_data l = wrap16 (65535 - w_data l).
Proof.
  intros l [Ha _] Fl. rewrite (full_new_init l Fl). cbn [new_init w_data]. split; [reflexivity|].
  symmetry. apply Z.mod_small. unfold u16 in Ha. lia.
Qed.
Print Assumptions C15_full_not.

(* new_init words are fully initialised: the conclusions above say "fully initialised" *)
Theorem C15_new_init_full : forall d, full (new_init d) /\ is_init (new_init d) = true.
Proof. intros d. split; reflexivity. Qed.
Print Assumptions C15_new_init_full.

(* non-vacuity: partially initialised operands that agree but differ; AND with an initialised 0
   bit initialises the result bit; x + (uninitialised) is fully uninitialised *)
Example C15_ex1 :
  let l := mkWord 43690 255 in let l' := mkWord 21930 255 in   (* xAAAA / x55AA, low byte initialised *)
  let r := mkWord 255 65295 in                                  (* x00FF, mask xFF0F: initialised zeros on top *)
  agree l l' /\ l <> l' /\
  w_and l r = mkWord 170 65375 /\ w_and l' r = mkWord 170 65375 /\     (* x00AA, mask xFF5F both times *)
  w_add l r = mkWord 43945 0 /\ w_add l (new_init 0) = l /\ w_sub (new_init 1) (new_init 2) = new_init 65535.
Proof. vm_compute. repeat split; congruence. Qed.
