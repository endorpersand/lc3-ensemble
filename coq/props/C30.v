(* C30 — Reset restores a fresh machine and keeps configuration.
   [reset e s fill]: e says which device buffers are locked by another thread and gives the
   timers' new draws; fill is the value of the Known initialisation strategy in the flags.
   Breakpoints and the pause status of the last run-style call are not fields of the model's [sim]
   record (they only matter to `run`); they are the [session] of model/Session.v, tied to the
   implementation by the `session.reset` correspondence cases of harness area load. *)
From Coq Require Import ZArith List Bool.
From Model Require Import Word Sim Load Run Session.
From Proofs Require Import LoadProofs.
Import ListNotations.
Open Scope Z_scope.

(* after ANY state s; memory as a whole, hence at every address *)
Theorem C30_reset : forall e s fill,
  let r := reset e s fill in let n := new_sim (s_flags s) fill in
  s_mem r = s_mem n /\ s_regs r = s_regs n /\ s_pc r = s_pc n /\ s_psr r = s_psr n /\
  s_saved_sp r = s_saved_sp n /\ s_frame_no r = s_frame_no n /\ s_frames r = s_frames n /\
  s_sr_defns r = s_sr_defns n /\ s_alloca r = s_alloca n /\ s_instrs r = s_instrs n /\
  s_prefetch r = s_prefetch n /\ s_obs r = s_obs n.
Proof. intros e s fill. cbv zeta. rewrite reset_eq, new_sim_eq. apply loaded_blank_arch. Qed.
Print Assumptions C30_reset.

Theorem C30_reset_memory_pointwise : forall e s fill a,
  mget (s_mem (reset e s fill)) a = mget (s_mem (new_sim (s_flags s) fill)) a.
Proof. intros e s fill a. destruct (C30_reset e s fill) as [H _]. rewrite H. reflexivity. Qed.
Print Assumptions C30_reset_memory_pointwise.

(* each device has received io_reset ([dev_reset_rel]: keyboard queue cleared unless locked and interrupts
   disabled, display buffer cleared unless locked, timers redrawn, scripted interrupt sources untouched) *)
Theorem C30_keeps : forall e s fill,
  let r := reset e s fill in
  s_flags r = s_flags s /\ s_mcr r = s_mcr s /\ s_ireg r = s_ireg s /\
  s_devs r = reset_devs e (s_devs s) (e_draws e) /\
  Forall2 (dev_reset_rel e) (s_devs s) (s_devs r).
Proof. intros e s fill. cbv zeta. rewrite reset_eq. repeat split; try reflexivity. apply reset_devs_rel. Qed.
Print Assumptions C30_keeps.

(* non-vacuity: a machine that is far from fresh *)
Example C30_ex :
  let s := upd_pc (upd_regs (upd_mem (new_sim (mkFlags true false true false) 7)
                      (mset (s_mem (new_sim (mkFlags true false true false) 7)) 12288 (new_init 61477)))
                    (repeat (new_init 1) 8)) 17 in
  let r := reset (mkEnv false false []) (upd_devs s [DNull; DKb [65; 66] true; DDs [67]]) 9 in
  s_pc r = 12288 /\ mget (s_mem r) 12288 = new_uninit 9 /\ rget (s_regs r) 3 = new_uninit 9 /\
  s_devs r = [DNull; DKb [] false; DDs []] /\ s_flags r = mkFlags true false true false.
Proof. vm_compute. repeat split. Qed.

(* the non-machine part *)
Theorem C30_session_keeps_breakpoints : forall e fill ss s,
  ss_bps (session_reset e fill ss) = ss_bps ss /\
  ss_sim (session_reset e fill ss) = reset e (ss_sim ss) fill /\
  any_bp (ss_bps (session_reset e fill ss)) s = any_bp (ss_bps ss) s.
Proof. intros. repeat split. Qed.
Print Assumptions C30_session_keeps_breakpoints.
Theorem C30_session_pause_status : forall e fill ss,
  ss_pause (session_reset e fill ss) = ss_pause (session_new (s_flags (ss_sim ss)) fill) /\
  hit_halt (ss_pause (session_reset e fill ss)) = false /\
  hit_breakpoint (ss_pause (session_reset e fill ss)) = false.
Proof. intros. repeat split. Qed.
Print Assumptions C30_session_pause_status.
