(* C05 — Numeric and register tokens denote exactly their written value.
   Proofs in proofs/LexNumProofs.v (induction over digit strings of ANY length — no bound on the
   value or on the number of leading zeros), proofs/PiecesProofs.v (a numeral or a register is one
   word of the lexer, [numeral_res], [register_res]) and, for whole statement texts, proofs/OperandTextProofs.v;
   the two instances at the end are derived here.  [value_of], [dec_digit], [hex_digit],
   [fits], [stored] are the independent definitions of spec/Numerals.v.
   [one_token r n] is the lexer outcome "exactly one token / one error spanning bytes 0..n". *)
From Coq Require Import ZArith List Bool String Lia.
From Model Require Import Tree Text Instr AsmAst Lexer Parser Print.
From Spec Require Import Numerals.
From Proofs Require Import LexNumProofs PiecesProofs LayoutProofs OperandTextProofs.
Import ListNotations.
Open Scope Z_scope.

(* every digit string, every notation: Unsigned v iff v <= 65535, Signed (-v) iff v <= 32768 *)
Theorem C05_decimal : forall ds, ds <> [] -> Forall dec_digit ds ->
  lex ds = one_token (if value_of 10 ds <=? 65535 then SOk (TUnsigned (value_of 10 ds)) else SErr DoesNotFitU16) (byte_len ds).
Proof. intros ds. exact (lex_numeral NDec ds Logic.I). Qed.
Print Assumptions C05_decimal.

Theorem C05_hash_decimal : forall ds, ds <> [] -> Forall dec_digit ds ->
  lex (35 :: ds) = one_token (if value_of 10 ds <=? 65535 then SOk (TUnsigned (value_of 10 ds)) else SErr DoesNotFitU16) (byte_len (35 :: ds)).
Proof. intros ds. exact (lex_numeral NHash ds Logic.I). Qed.
Print Assumptions C05_hash_decimal.

Theorem C05_minus_decimal : forall ds, ds <> [] -> Forall dec_digit ds ->
  lex (45 :: ds) = one_token (if value_of 10 ds <=? 32768 then SOk (TSigned (- value_of 10 ds)) else SErr DoesNotFitI16) (byte_len (45 :: ds)).
Proof. intros ds. exact (lex_numeral NMinus ds Logic.I). Qed.
Print Assumptions C05_minus_decimal.

Theorem C05_hash_minus_decimal : forall ds, ds <> [] -> Forall dec_digit ds ->
  lex (35 :: 45 :: ds) = one_token (if value_of 10 ds <=? 32768 then SOk (TSigned (- value_of 10 ds)) else SErr DoesNotFitI16) (byte_len (35 :: 45 :: ds)).
Proof. intros ds. exact (lex_numeral NHashMinus ds Logic.I). Qed.
Print Assumptions C05_hash_minus_decimal.

Theorem C05_hex : forall x ds, is_x x = true -> ds <> [] -> Forall hex_digit ds ->
  lex (x :: ds) = one_token (if value_of 16 ds <=? 65535 then SOk (TUnsigned (value_of 16 ds)) else SErr DoesNotFitU16) (byte_len (x :: ds)).
Proof. intros x ds. exact (lex_numeral (NHex x) ds). Qed.
Print Assumptions C05_hex.

Theorem C05_hex_minus : forall x ds, is_x x = true -> ds <> [] -> Forall hex_digit ds ->
  lex (x :: 45 :: ds) = one_token (if value_of 16 ds <=? 32768 then SOk (TSigned (- value_of 16 ds)) else SErr DoesNotFitI16) (byte_len (x :: 45 :: ds)).
Proof. intros x ds. exact (lex_numeral (NHexMinus x) ds). Qed.
Print Assumptions C05_hex_minus.

Theorem C05_register : forall r ds, is_r r = true -> ds <> [] -> Forall dec_digit ds ->
  lex (r :: ds) = one_token (if value_of 10 ds <=? 7 then SOk (TReg (value_of 10 ds)) else SErr InvalidReg) (byte_len (r :: ds)).
Proof. intros r ds Hr Hne Hd. apply (lex_word_res _ _ (register_res r ds Hr Hne Hd)). Qed.
Print Assumptions C05_register.

(* every integer: the spelling functions are right, so the statements above cover all of Z *)
Theorem C05_spelling_value : forall radix up lz m, 2 <= radix <= 16 -> 0 <= m ->
  value_of radix (spell_mag radix up lz m) = m.
Proof. exact spell_mag_value. Qed.
Print Assumptions C05_spelling_value.

(* for EVERY magnitude m, every notation, upper/lower-case hex digits and any number of leading zeros *)
Theorem C05_every_integer : forall nt up lz m, nt_ok nt -> 0 <= m ->
  lex (spell nt up lz m) =
    one_token (if nt_signed nt
               then (if m <=? 32768 then SOk (TSigned (- m)) else SErr DoesNotFitI16)
               else (if m <=? 65535 then SOk (TUnsigned m) else SErr DoesNotFitU16))
              (byte_len (spell nt up lz m)).
Proof.
  intros nt up lz m Hok Hm. unfold spell.
  rewrite lex_numeral by (first [exact Hok | apply spell_mag_nonempty | apply spell_mag_digits; exact Hm]).
  rewrite spell_mag_value by (destruct nt; cbn; lia). reflexivity.
Qed.
Print Assumptions C05_every_integer.

Theorem C05_every_register_number : forall r lz n, is_r r = true -> 0 <= n ->
  lex (r :: spell_mag 10 true lz n) =
    one_token (if n <=? 7 then SOk (TReg n) else SErr InvalidReg) (byte_len (r :: spell_mag 10 true lz n)).
Proof.
  intros r lz n Hr Hn.
  rewrite (lex_word_res _ _ (register_res r _ Hr (spell_mag_nonempty 10 true lz n) (spell_mag_digits NDec true lz n Hn))).
  rewrite spell_mag_value by lia. reflexivity.
Qed.
Print Assumptions C05_every_register_number.

(* operands: a numeric token (as the lexer produces them: Unsigned 0..65535, Signed -32768..32767)
   is accepted by the operand parser of a field exactly when its value fits the field *)
Theorem C05_operand_imm5 : forall t v sp ts prev, num_tok t v ->
  op_result (fits Imm5 v) (Imm v, (ts, sp)) sp (p_ior 5 ((t, sp) :: ts, prev)).
Proof. exact operand_imm5. Qed.
Print Assumptions C05_operand_imm5.
Theorem C05_operand_offset6 : forall t v sp ts prev, num_tok t v ->
  op_result (fits Offset6 v) (v, (ts, sp)) sp (p_off (conv_s 6) ((t, sp) :: ts, prev)).
Proof. exact operand_offset6. Qed.
Print Assumptions C05_operand_offset6.
Theorem C05_operand_pcoffset9 : forall t v sp ts prev, num_tok t v ->
  op_result (fits PCOffset9 v) (POff v, (ts, sp)) sp (p_pcoff 9 ((t, sp) :: ts, prev)).
Proof. exact operand_pcoffset9. Qed.
Print Assumptions C05_operand_pcoffset9.
Theorem C05_operand_pcoffset11 : forall t v sp ts prev, num_tok t v ->
  op_result (fits PCOffset11 v) (POff v, (ts, sp)) sp (p_pcoff 11 ((t, sp) :: ts, prev)).
Proof. exact operand_pcoffset11. Qed.
Print Assumptions C05_operand_pcoffset11.
Theorem C05_operand_trapvect8 : forall t v sp ts prev, num_tok t v ->
  op_result (fits TrapVect8 v) (v, (ts, sp)) sp (p_off (conv_u 8) ((t, sp) :: ts, prev)).
Proof. exact operand_trapvect8. Qed.
Print Assumptions C05_operand_trapvect8.
(* directives, for every spelling of the directive name that upper-cases to ORIG / BLKW / FILL *)
Theorem C05_operand_orig : forall name dsp t v sp ts prev,
  assoc_str (kw_upper name) dir_names = Some 0 -> num_tok t v ->
  op_result (fits Orig v) (DOrig (stored Orig v), (ts, sp)) sp (p_directive name dsp ((t, sp) :: ts, prev)).
Proof. exact operand_orig. Qed.
Print Assumptions C05_operand_orig.
Theorem C05_operand_blkw : forall name dsp t v sp ts prev,
  assoc_str (kw_upper name) dir_names = Some 2 -> num_tok t v ->
  op_result (fits Blkw v) (DBlkw (stored Blkw v), (ts, sp)) sp (p_directive name dsp ((t, sp) :: ts, prev)).
Proof. exact operand_blkw. Qed.
Print Assumptions C05_operand_blkw.
Theorem C05_operand_fill : forall name dsp t v sp ts prev,
  assoc_str (kw_upper name) dir_names = Some 1 -> num_tok t v ->
  fits Fill v = true /\ p_directive name dsp ((t, sp) :: ts, prev) = POk (DFill (POff (stored Fill v)), (ts, sp)).
Proof. exact operand_fill. Qed.
Print Assumptions C05_operand_fill.

(* end to end: the text of a whole statement ("ADD R1, R2, " / "LDR R3, R4, " / "LD R5, " /
   "JSR " / "TRAP " / ".orig " / ".blkw " / ".fill " followed by a numeral) parses to the
   statement carrying the value exactly when the value fits the field; otherwise parse_ast
   returns an error whose span is the numeral.  [word_ok x t] holds for every spelling of an
   in-range numeral (C03_spell_*, props/C03.v); two instances follow *)
Theorem C05_operand_text : forall f x t v, word_ok x t -> num_tok t v ->
  if fits f v
  then parse_ast (operand_text f x) = POk [mkStmt [] (field_nucleus f v) 0 (byte_len (operand_text f x))]
  else exists k, parse_ast (operand_text f x) = PErr k (byte_len (text_of (field_prefix f)), byte_len (operand_text f x)).
Proof. exact operand_text_parse. Qed.
Print Assumptions C05_operand_text.

Theorem C05_operand_text_decimal : forall f ds, ds <> [] -> Forall dec_digit ds -> value_of 10 ds <= 65535 ->
  operand_outcome f ds (value_of 10 ds) (parse_ast (operand_text f ds)).
Proof.
  intros f ds Hne Hd Hv. apply (operand_text_parse f ds (TUnsigned (value_of 10 ds))).
  - apply (word_ok_unsigned NDec); first [assumption | reflexivity | exact Logic.I].
  - left. split; [reflexivity|]. split; [apply value_of_dec_nonneg; exact Hd|exact Hv].
Qed.
Print Assumptions C05_operand_text_decimal.

Theorem C05_operand_text_hash_minus : forall f ds, ds <> [] -> Forall dec_digit ds -> value_of 10 ds <= 32768 ->
  operand_outcome f (35 :: 45 :: ds) (- value_of 10 ds) (parse_ast (operand_text f (35 :: 45 :: ds))).
Proof.
  intros f ds Hne Hd Hv. apply (operand_text_parse f (35 :: 45 :: ds) (TSigned (- value_of 10 ds))).
  - apply (word_ok_signed NHashMinus); first [assumption | reflexivity | exact Logic.I].
  - right. split; [reflexivity|]. pose proof (value_of_dec_nonneg ds Hd). lia.
Qed.
Print Assumptions C05_operand_text_hash_minus.

(* the hypotheses are satisfiable, and the statements say what they should on familiar inputs *)
Example C05_ex_tokens :
  lex (zs "65535") = LexOk [(TUnsigned 65535, (0, 5))] /\ lex (zs "65536") = LexErr [] DoesNotFitU16 (0, 5) /\
  lex (zs "#-032768") = LexOk [(TSigned (-32768), (0, 8))] /\ lex (zs "x-8001") = LexErr [] DoesNotFitI16 (0, 6) /\
  lex (zs "XfFfF") = LexOk [(TUnsigned 65535, (0, 5))] /\ lex (zs "r007") = LexOk [(TReg 7, (0, 4))] /\
  lex (zs "R8") = LexErr [] InvalidReg (0, 2) /\
  spell (NHexMinus 120) true 2 32768 = zs "x-008000" /\ spell NHash false 0 140000 = zs "#140000" /\
  value_of 16 (zs "00fF") = 255 /\ Forall hex_digit (zs "00fF").
Proof.
  repeat split; try (vm_compute; reflexivity).
  change (zs "00fF") with [48; 48; 102; 70].
  repeat (apply Forall_cons; [unfold hex_digit; lia|]). apply Forall_nil.
Qed.
Example C05_ex_text :
  operand_text Imm5 (zs "#-16") = zs "ADD R1, R2, #-16" /\ operand_text Fill (zs "xFFFF") = zs ".fill xFFFF" /\
  parse_ast (zs "ADD R1, R2, #-16") = POk [mkStmt [] (NInstr (AADD 1 2 (Imm (-16)))) 0 16] /\
  parse_ast (zs "ADD R1, R2, #16") = PErr (EOffS 5) (12, 15) /\
  parse_ast (zs ".blkw 0") = PErr (EMsg MBlkwZero) (6, 7) /\
  parse_ast (zs ".fill -1") = POk [mkStmt [] (NDir (DFill (POff 65535))) 0 8].
Proof. vm_compute. repeat split. Qed.
Example C05_ex_fields :
  fits Imm5 15 = true /\ fits Imm5 16 = false /\ fits Imm5 (-16) = true /\ fits Blkw 0 = false /\
  fits Fill (-32768) = true /\ stored Fill (-1) = 65535 /\ fits TrapVect8 256 = false /\
  num_tok (TSigned (-16)) (-16) /\ assoc_str (kw_upper (zs "FiLl")) dir_names = Some 1.
Proof.
  repeat split; try (vm_compute; reflexivity).
  right. split; [reflexivity|lia].
Qed.
