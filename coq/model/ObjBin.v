(* ObjBin.v — model of `BinaryFormat::{serialize,deserialize}` (src/asm/encoding.rs) with its
   helpers `take/take_slice/map_chunks/assert_sorted_no_dup/check_relocations`, of
   `LineSymbolMap::{new,from_blocks}` (src/asm.rs) and of `String::from_utf8`.
   Bytes, lengths and offsets are Z; `usize` is 64 bits (`u64 as usize` is the identity).
   Every Rust panic site of the reader is an explicit `RPanic` (proved unreachable in
   proofs/ObjBinReadProofs.v); running out of fuel is `RPanic` as well, so "never panics" also says
   that the fuel always suffices.  No proofs here. *)
From Coq Require Import ZArith List Bool String.
From Model Require Import Tree Text Obj.
Import ListNotations.
Open Scope Z_scope.

(* result of a reader: object / rejected (`None`) / Rust panic *)
Inductive rd (A : Type) : Type := ROk (a : A) | RNone | RPanic.
Arguments ROk {A} a.
Arguments RNone {A}.
Arguments RPanic {A}.

Definition rd_bind {A B} (r : rd A) (f : A -> rd B) : rd B :=
  match r with ROk a => f a | RNone => RNone | RPanic => RPanic end.
Definition of_opt {A} (o : option A) : rd A := match o with Some a => ROk a | None => RNone end.

Definition USIZE_MAX : Z := 18446744073709551615.   (* 2^64 - 1 *)
Definition ISIZE_MAX : Z := 9223372036854775807.    (* 2^63 - 1 *)

Definition BFMT_MAGIC : list Z := [111; 98; 106; 33; 16].   (* b"obj\x21\x10" *)
Definition BFMT_VER : list Z := [0; 1].

Definition len {A} (l : list A) : Z := Z.of_nat (List.length l).

(* ---------- little-endian integers ---------- *)
Definition u16_le (z : Z) : list Z := [z mod 256; (z / 256) mod 256].
Definition u64_le (z : Z) : list Z :=
  [z mod 256; (z / 256) mod 256; (z / 65536) mod 256; (z / 16777216) mod 256;
   (z / 4294967296) mod 256; (z / 1099511627776) mod 256; (z / 281474976710656) mod 256;
   (z / 72057594037927936) mod 256].
Fixpoint from_le (bs : list Z) : Z :=
  match bs with [] => 0 | b :: r => b + 256 * from_le r end.

(* ---------- UTF-8 validation/decoding (`String::from_utf8`, `str::from_utf8`) ---------- *)
Definition is_scalar (c : Z) : bool :=
  (0 <=? c) && (c <? 1114112) && negb ((55296 <=? c) && (c <=? 57343)).
Definition is_cont (b : Z) : bool := (128 <=? b) && (b <=? 191).

Fixpoint utf8_decode (bs : list Z) : option str :=
  match bs with
  | [] => Some []
  | b0 :: r =>
      if (0 <=? b0) && (b0 <? 128) then option_map (cons b0) (utf8_decode r)
      else if (192 <=? b0) && (b0 <? 224) then
        match r with
        | b1 :: r1 =>
            let c := (b0 - 192) * 64 + (b1 - 128) in
            if is_cont b1 && (128 <=? c) then option_map (cons c) (utf8_decode r1) else None
        | _ => None
        end
      else if (224 <=? b0) && (b0 <? 240) then
        match r with
        | b1 :: b2 :: r2 =>
            let c := (b0 - 224) * 4096 + (b1 - 128) * 64 + (b2 - 128) in
            if is_cont b1 && is_cont b2 && (2048 <=? c) && is_scalar c
            then option_map (cons c) (utf8_decode r2) else None
        | _ => None
        end
      else if (240 <=? b0) && (b0 <? 248) then
        match r with
        | b1 :: b2 :: b3 :: r3 =>
            let c := (b0 - 240) * 262144 + (b1 - 128) * 4096 + (b2 - 128) * 64 + (b3 - 128) in
            if is_cont b1 && is_cont b2 && is_cont b3 && (65536 <=? c) && is_scalar c
            then option_map (cons c) (utf8_decode r3) else None
        | _ => None
        end
      else None
  end.

(* ---------- take / take_slice / map_chunks ---------- *)
(* take_slice(data, n): None when n > data.len() (n may be as large as 2^64-1) *)
Definition take_slice (n : Z) (bs : list Z) : option (list Z * list Z) :=
  if (n <? 0) || (len bs <? n) then None
  else Some (firstn (Z.to_nat n) bs, skipn (Z.to_nat n) bs).
(* take::<N>: take_slice then `<[_; N]>::try_from(slice).unwrap()` (the slice has length N) *)
Definition take_int (n : Z) (bs : list Z) : rd (Z * list Z) :=
  match take_slice n bs with
  | None => RNone
  | Some (l, r) => if len l =? n then ROk (from_le l, r) else RPanic
  end.

(* map_chunks::<_, 3> with |[init, rest @ ..]| (init == 0xFF).then(|| u16::from_le_bytes(rest));
   `assert_eq!(data.len() % N, 0)` is the RPanic *)
Fixpoint chunks3 (bs : list Z) : rd (list (option Z)) :=
  match bs with
  | [] => ROk []
  | i :: a :: b :: r =>
      rd_bind (chunks3 r) (fun ws => ROk ((if i =? 255 then Some (a + 256 * b) else None) :: ws))
  | _ => RPanic
  end.
Fixpoint chunks2 (bs : list Z) : rd (list Z) :=
  match bs with
  | [] => ROk []
  | a :: b :: r => rd_bind (chunks2 r) (fun ws => ROk ((a + 256 * b) :: ws))
  | _ => RPanic
  end.

(* assert_sorted_no_dup: windows(2).all(l < r) *)
Fixpoint strictly_sorted (l : list Z) : bool :=
  match l with
  | a :: ((b :: _) as r) => (a <? b) && strictly_sorted r
  | _ => true
  end.
Fixpoint weakly_sorted (l : list Z) : bool :=
  match l with
  | a :: ((b :: _) as r) => (a <=? b) && weakly_sorted r
  | _ => true
  end.

(* ---------- maps ---------- *)
(* BTreeMap::insert: sorted by key, an equal key is replaced *)
Fixpoint bt_insert {V} (k : Z) (v : V) (m : list (Z * V)) : list (Z * V) :=
  match m with
  | [] => [(k, v)]
  | (k', v') :: r =>
      if k <? k' then (k, v) :: m
      else if k =? k' then (k, v) :: r
      else (k', v') :: bt_insert k v r
  end.
Fixpoint bt_mem {V} (k : Z) (m : list (Z * V)) : bool :=
  match m with [] => false | (k', _) :: r => (k =? k') || bt_mem k r end.
(* HashMap::insert: an existing key keeps its place and gets the new value, a new key goes last
   (the place is a modelling artefact: the wire sorts, the theorems are up to permutation) *)
Fixpoint hm_insert {K V} (eqb : K -> K -> bool) (k : K) (v : V) (m : list (K * V)) : list (K * V) :=
  match m with
  | [] => [(k, v)]
  | (k', v') :: r => if eqb k k' then (k, v) :: r else (k', v') :: hm_insert eqb k v r
  end.
Fixpoint hm_get {K V} (eqb : K -> K -> bool) (k : K) (m : list (K * V)) : option V :=
  match m with
  | [] => None
  | (k', v') :: r => if eqb k k' then Some v' else hm_get eqb k r
  end.

(* ---------- LineSymbolMap ---------- *)
(* from_blocks on blocks already sorted by (distinct) line number, as a BTreeMap iterates them.
   Repaired code: every block must end at or before isize::MAX (checked_add), then
   `ls + lb.len() <= rs` for neighbours (the `+` is a panic site under overflow checks), then
   every block weakly sorted. *)
Fixpoint no_overlap (bl : linemap) : rd bool :=
  match bl with
  | (ls, lb) :: (((rs, _) :: _) as r) =>
      if USIZE_MAX <? ls + len lb then RPanic
      else if ls + len lb <=? rs then no_overlap r else ROk false
  | _ => ROk true
  end.
Definition lsm_from_blocks (bl : linemap) : rd linemap :=
  if negb (forallb (fun b => fst b + len (snd b) <=? ISIZE_MAX) bl) then RNone
  else rd_bind (no_overlap bl) (fun ok =>
    if ok then (if forallb (fun b => weakly_sorted (snd b)) bl then ROk bl else RNone)
    else RNone).

(* LineSymbolMap::new: condense a vector of optional addresses into runs; a run is stored when a
   `None` follows it (`blocks.insert(i - bl.len(), bl)`, the `-` is a panic site); a run that
   reaches the end of the vector is dropped, as in the code. *)
Fixpoint lsm_runs (lines : list (option Z)) (i : Z) (cur : option (list Z)) (acc : linemap) : rd linemap :=
  match lines with
  | [] => ROk acc
  | Some a :: r => lsm_runs r (i + 1) (Some (match cur with Some c => c ++ [a] | None => [a] end)) acc
  | None :: r =>
      match cur with
      | Some c => if i - len c <? 0 then RPanic else lsm_runs r (i + 1) None (bt_insert (i - len c) c acc)
      | None => lsm_runs r (i + 1) None acc
      end
  end.
Definition lsm_new (lines : list (option Z)) : rd linemap :=
  rd_bind (lsm_runs lines 0 None []) lsm_from_blocks.

(* ---------- check_relocations (repaired code) ---------- *)
(* block_map.range(..=addr).next_back(): the last block whose start is <= addr *)
Fixpoint block_le {V} (addr : Z) (m : list (Z * V)) : option (Z * V) :=
  match m with
  | [] => None
  | (s, v) :: r => if s <=? addr then match block_le addr r with Some x => Some x | None => Some (s, v) end
                   else None
  end.
Definition reloc_ok (blocks : list (Z * list (option Z))) (addr : Z) : bool :=
  match block_le addr blocks with
  | Some (s, b) => addr - s <? len b
  | None => false
  end.
Definition check_relocations (blocks : list (Z * list (option Z))) (rel : list (Z * str)) : bool :=
  forallb (fun p => reloc_ok blocks (fst p)) rel.

(* ---------- serialize ---------- *)
Definition ser_word (w : option Z) : list Z :=
  match w with Some v => 255 :: u16_le v | None => [0; 0; 0] end.
Definition ser_block (b : Z * list (option Z)) : list Z :=
  0 :: u16_le (fst b) ++ u16_le (len (snd b) mod 65536) ++ flat_map ser_word (snd b).
Definition ser_label (p : str * symdata) : list Z :=
  1 :: u16_le (sd_addr (snd p)) ++ [if sd_external (snd p) then 1 else 0]
    ++ u64_le (sd_src_start (snd p)) ++ u64_le (byte_len (fst p)) ++ utf8_bytes (fst p).
Definition ser_lines (p : Z * list Z) : list Z :=
  2 :: u64_le (fst p) ++ u16_le (len (snd p) mod 65536) ++ flat_map u16_le (snd p).
Definition ser_src (s : str) : list Z := 3 :: u64_le (byte_len s) ++ utf8_bytes s.
Definition ser_rel (p : Z * str) : list Z :=
  4 :: u16_le (fst p) ++ u64_le (byte_len (snd p)) ++ utf8_bytes (snd p).
Definition ser_debug (d : option debug_symbols) : list Z :=
  match d with
  | Some d => flat_map ser_lines (ds_lines d) ++ ser_src (ds_src d)
  | None => []
  end.
Definition ser_sym (s : option symtab) : list Z :=
  match s with
  | Some st => flat_map ser_label (st_labels st) ++ ser_debug (st_debug st) ++ flat_map ser_rel (st_rel st)
  | None => []
  end.
(* labels and relocation entries are written in the order of the lists (= the HashMap iteration
   order of the implementation, which is arbitrary) *)
Definition ser_bin (o : objfile) : list Z :=
  BFMT_MAGIC ++ BFMT_VER ++ flat_map ser_block (o_blocks o) ++ ser_sym (o_sym o).

(* ---------- deserialize ---------- *)
Record bstate := mkB {
  b_blocks : list (Z * list (option Z));
  b_labels : list (str * symdata);
  b_rel : list (Z * str);
  b_dbg : option (linemap * str)
}.
Definition b_init : bstate := mkB [] [] [] None.

Fixpoint strip_prefix (p bs : list Z) : option (list Z) :=
  match p, bs with
  | [], _ => Some bs
  | x :: p', y :: bs' => if x =? y then strip_prefix p' bs' else None
  | _ :: _, [] => None
  end.

Definition dbg_or_default (d : option (linemap * str)) : linemap * str :=
  match d with Some x => x | None => ([], []) end.

(* one chunk: identifier byte [id], body in [bs]; returns the remaining bytes *)
Definition parse_chunk (id : Z) (bs : list Z) (st : bstate) : rd (list Z * bstate) :=
  if id =? 0 then
    rd_bind (take_int 2 bs) (fun '(addr, bs) =>
    rd_bind (take_int 2 bs) (fun '(dlen, bs) =>
    rd_bind (of_opt (take_slice (3 * dlen) bs)) (fun '(raw, bs) =>
    rd_bind (chunks3 raw) (fun data =>
    ROk (bs, mkB (bt_insert addr data (b_blocks st)) (b_labels st) (b_rel st) (b_dbg st))))))
  else if id =? 1 then
    rd_bind (take_int 2 bs) (fun '(addr, bs) =>
    rd_bind (take_int 1 bs) (fun '(ext, bs) =>
    rd_bind (take_int 8 bs) (fun '(src_start, bs) =>
    rd_bind (take_int 8 bs) (fun '(slen, bs) =>
    rd_bind (of_opt (take_slice slen bs)) (fun '(raw, bs) =>
    rd_bind (of_opt (utf8_decode raw)) (fun name =>
    ROk (bs, mkB (b_blocks st) (hm_insert str_eqb name (mkSym addr src_start (negb (ext =? 0))) (b_labels st))
                 (b_rel st) (b_dbg st))))))))
  else if id =? 2 then
    let '(lm, src) := dbg_or_default (b_dbg st) in
    rd_bind (take_int 8 bs) (fun '(lno, bs) =>
    rd_bind (take_int 2 bs) (fun '(dlen, bs) =>
    rd_bind (of_opt (take_slice (2 * dlen) bs)) (fun '(raw, bs) =>
    rd_bind (chunks2 raw) (fun data =>
    if strictly_sorted data
    then ROk (bs, mkB (b_blocks st) (b_labels st) (b_rel st) (Some (bt_insert lno data lm, src)))
    else RNone))))
  else if id =? 3 then
    let '(lm, src) := dbg_or_default (b_dbg st) in
    rd_bind (take_int 8 bs) (fun '(slen, bs) =>
    rd_bind (of_opt (take_slice slen bs)) (fun '(raw, bs) =>
    rd_bind (of_opt (utf8_decode raw)) (fun s =>
    ROk (bs, mkB (b_blocks st) (b_labels st) (b_rel st) (Some (lm, src ++ s))))))
  else if id =? 4 then
    rd_bind (take_int 2 bs) (fun '(addr, bs) =>
    rd_bind (take_int 8 bs) (fun '(slen, bs) =>
    rd_bind (of_opt (take_slice slen bs)) (fun '(raw, bs) =>
    rd_bind (of_opt (utf8_decode raw)) (fun name =>
    ROk (bs, mkB (b_blocks st) (b_labels st) (hm_insert Z.eqb addr name (b_rel st)) (b_dbg st))))))
  else RNone.

(* `while let Some((ident_byte, rest)) = vec.split_first()`; every round consumes at least the
   identifier byte, so [length bs] rounds always suffice (out of fuel = RPanic, never reached) *)
Fixpoint chunk_loop (fuel : nat) (bs : list Z) (st : bstate) : rd bstate :=
  match bs with
  | [] => ROk st
  | id :: body =>
      match fuel with
      | O => RPanic
      | S f => rd_bind (parse_chunk id body st) (fun '(rest, st') => chunk_loop f rest st')
      end
  end.

Definition is_some_dbg (d : option debug_symbols) : bool := match d with Some _ => true | None => false end.
(* the common tail of both readers *)
Definition finish_obj (blocks : list (Z * list (option Z))) (labels : list (str * symdata))
    (rel : list (Z * str)) (dbg : option debug_symbols) : rd objfile :=
  if negb (check_relocations blocks rel) then RNone
  else ROk (mkObj blocks
        (if negb (match labels with [] => true | _ => false end) || is_some_dbg dbg
         then Some (mkSymtab labels rel dbg) else None)).

Definition deser_bin (bs : list Z) : rd objfile :=
  match strip_prefix BFMT_MAGIC bs with
  | None => RNone
  | Some bs1 =>
    match strip_prefix BFMT_VER bs1 with
    | None => RNone
    | Some bs2 =>
      rd_bind (chunk_loop (List.length bs2) bs2 b_init) (fun st =>
      rd_bind (match b_dbg st with
               | Some (lm, src) => rd_bind (lsm_from_blocks lm) (fun lm' => ROk (Some (mkDebug lm' src)))
               | None => ROk None
               end) (fun dbg =>
      finish_obj (b_blocks st) (b_labels st) (b_rel st) dbg))
    end
  end.

(* ---------- ObjInv: what every assembled / linked object satisfies (checked on each by the
   harness) and what the round-trip theorem needs ---------- *)
Definition in_u16 (z : Z) : bool := (0 <=? z) && (z <=? 65535).
Definition valid_str (s : str) : bool := forallb is_scalar s.
Fixpoint nodup_by {K} (eqb : K -> K -> bool) (l : list K) : bool :=
  match l with
  | [] => true
  | k :: r => negb (existsb (eqb k) r) && nodup_by eqb r
  end.
Definition block_inv (b : Z * list (option Z)) : bool :=
  in_u16 (fst b) && (len (snd b) <=? 65535)
  && forallb (fun w => match w with Some v => in_u16 v | None => true end) (snd b).
Definition label_inv (p : str * symdata) : bool :=
  valid_str (fst p) && in_u16 (sd_addr (snd p))
  && (0 <=? sd_src_start (snd p)) && (sd_src_start (snd p) <=? USIZE_MAX)
  && (byte_len (fst p) <=? ISIZE_MAX).
Definition run_inv (p : Z * list Z) : bool :=
  (0 <=? fst p) && (len (snd p) <=? 65535) && (fst p + len (snd p) <=? ISIZE_MAX)
  && forallb in_u16 (snd p) && strictly_sorted (snd p).
Fixpoint runs_disjoint (bl : linemap) : bool :=
  match bl with
  | (ls, lb) :: (((rs, _) :: _) as r) => (ls + len lb <=? rs) && runs_disjoint r
  | _ => true
  end.
Definition debug_inv (d : debug_symbols) : bool :=
  forallb run_inv (ds_lines d) && strictly_sorted (map fst (ds_lines d)) && runs_disjoint (ds_lines d)
  && valid_str (ds_src d) && (byte_len (ds_src d) <=? ISIZE_MAX).
Definition symtab_inv (blocks : list (Z * list (option Z))) (st : symtab) : bool :=
  forallb label_inv (st_labels st) && nodup_by str_eqb (map fst (st_labels st))
  && forallb (fun p => in_u16 (fst p) && valid_str (snd p) && (byte_len (snd p) <=? ISIZE_MAX)) (st_rel st)
  && nodup_by Z.eqb (map fst (st_rel st))
  && check_relocations blocks (st_rel st)
  && (match st_debug st with Some d => debug_inv d | None => true end)
  && (negb (match st_labels st with [] => true | _ => false end) || is_some_dbg (st_debug st)).
Definition obj_inv (o : objfile) : bool :=
  forallb block_inv (o_blocks o) && strictly_sorted (map fst (o_blocks o))
  && (match o_sym o with Some st => symtab_inv (o_blocks o) st | None => true end).

(* ---------- wire ---------- *)
Definition t_rd {A} (f : A -> tree) (r : rd A) : tree :=
  match r with ROk a => t_ok [f a] | RNone => t_err [] | RPanic => t_panic end.

Definition ops : op_table :=
  [ ("objbin.ser"%string, fun t => match as_obj t with Some o => t_zs (ser_bin o) | None => t_bad end);
    ("objbin.inv"%string, fun t => match as_obj t with Some o => t_bool (obj_inv o) | None => t_bad end);
    ("objbin.deser"%string, fun t => match as_zs t with Some bs => t_rd t_obj (deser_bin bs) | None => t_bad end) ].
