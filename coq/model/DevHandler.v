(* DevHandler.v — model of the memory-mapped I/O path.

   Part 1: `DeviceHandler` (src/sim/device.rs): devices, io_ports, new, get_dev_id, set_port,
           set_keyboard, set_display, add_device, remove_device, and its ExternalDevice impl
           (io_read, io_write, io_reset, poll_interrupt), `Interrupt::priority`.
   Part 2: the simulator side (src/sim.rs): `InternalRegister` (read/write incl. PSR::set),
           `ireg_mmap`, mmap_internal, munmap_internal and the MMIO arms of read_mem / write_mem
           for a privileged, untracked access with initialised data — the record [bus].
   Part 3: a recording device and the wire for the correspondence check (C32).

   The handler is polymorphic in the device type D; a slot is [option D] (None = SimDevice::Null,
   which is also what NullDevice::_to_sim_device yields) and the behaviour of devices is a record
   of four functions [dev_ops D] (the ExternalDevice trait).  Part 3 instantiates D.

   io_ports (Box<[u16; 512]>, indexed by port - xFE00) is a function Z -> Z over addresses; only the
   512 I/O addresses xFE00..xFFFF are ever read or written through it.
   Rust panic sites: `self.devices[i]` (set_keyboard/set_display: i = 1, 2; io_read/io_write:
   i = the port's id).  The model returns [None] there when the index is out of range;
   proofs/DevHandlerProofs.v shows that this never happens (at least 3 slots, ids below the length).
   No proofs here.

   For importers (model/Sim.v is not one: it has its own [port_dev], [ireg], [psr_set]): instantiate
   D with a device type and give its behaviour as [dev_ops D] (d_read d_write d_reset d_poll).
   Handler: [handler D] (h_devs h_ports),
   [new_handler], [set_keyboard], [set_display], [add_device], [remove_device], [io_read], [io_write],
   [io_reset], [poll_interrupt] (+ [interrupt], [vectored], [int_priority]).  Simulator side: [ireg],
   [iregs] + [ireg_read]/[ireg_write]/[psr_set], [imap] + [default_imap]/[mmap_internal]/
   [munmap_internal], and [bus_read]/[bus_write] for the MMIO arms.  proofs/DevHandlerProofs.v:
   [h_inv] (kept by every operation: the *_inv and *_kept lemmas) excludes the None (panic) results. *)
From Coq Require Import ZArith List Bool String.
From Gen Require Import Constants.
From Model Require Import Tree.
Import ListNotations.
Open Scope Z_scope.
Set Implicit Arguments.

Definition IO_START : Z := sim.IO_START.
Definition KBSR : Z := sim_device.KBSR.
Definition KBDR : Z := sim_device.KBDR.
Definition DSR : Z := sim_device.DSR.
Definition DDR : Z := sim_device.DDR.
Definition NULL_DEV : Z := sim_device.NULL_DEV.
Definition KB_DEV : Z := sim_device.KB_DEV.
Definition DS_DEV : Z := sim_device.DS_DEV.

(* an address with an entry in io_ports: `port.checked_sub(IO_START)` succeeds (and a u16 never
   reaches past the 512 entries) *)
Definition is_io (a : Z) : bool := (IO_START <=? a) && (a <=? 65535).

(* ---------------------------------------------------------------- interrupts *)
Inductive interrupt := IVectored (vect prio : Z) | IExternal (payload : Z).
(* Interrupt::vectored(vect, priority): the priority is clamped to 0..7 at construction *)
Definition vectored (v p : Z) : interrupt := IVectored v (Z.min p 7).
(* Interrupt::priority *)
Definition int_priority (i : interrupt) : option Z :=
  match i with IVectored _ p => Some (Z.land p 7) | IExternal _ => None end.
(* key of max_by_key in DeviceHandler::poll_interrupt: priority().unwrap_or(0b1000) *)
Definition int_key (i : interrupt) : Z := match int_priority i with Some p => p | None => 8 end.

(* ---------------------------------------------------------------- devices *)
(* trait ExternalDevice, state passing *)
Record dev_ops (D : Type) := mk_dev_ops {
  d_read : D -> Z -> bool -> D * option Z;     (* io_read(addr, effectful) *)
  d_write : D -> Z -> Z -> D * bool;           (* io_write(addr, data) *)
  d_reset : D -> D;                            (* io_reset *)
  d_poll : D -> D * option interrupt           (* poll_interrupt *)
}.

(* struct DeviceHandler *)
Record handler (D : Type) := mk_handler {
  h_devs : list (option D);     (* devices: slot id -> device (None = Null) *)
  h_ports : Z -> Z              (* io_ports: address -> id of the owning slot (0 = nobody) *)
}.

Definition upd (f : Z -> Z) (p v : Z) : Z -> Z := fun q => if q =? p then v else f q.
Definition dev_len {D} (h : handler D) : Z := Z.of_nat (List.length (h_devs h)).

(* replace slot k (no change when k is out of range; callers test the index first) *)
Fixpoint set_nth {A} (k : nat) (x : A) (l : list A) : list A :=
  match l, k with
  | [], _ => []
  | _ :: r, O => x :: r
  | a :: r, S k' => a :: set_nth k' x r
  end.
Definition slot {D} (h : handler D) (id : Z) : option (option D) :=
  if id <? 0 then None else nth_error (h_devs h) (Z.to_nat id).

(* get_dev_id *)
Definition get_dev_id {D} (h : handler D) (port : Z) : option Z :=
  if is_io port then Some (h_ports h port) else None.

(* set_port: only an I/O address whose entry is 0 (`Some(d @ 0)`), only an existing slot *)
Definition set_port {D} (h : handler D) (port id : Z) : handler D :=
  if is_io port && (h_ports h port =? 0) && (id <? dev_len h)
  then mk_handler (h_devs h) (upd (h_ports h) port id)
  else h.

(* DeviceHandler::new *)
Definition new_handler (D : Type) : handler D :=
  let h0 := mk_handler (D := D) [None; None; None] (fun _ => 0) in
  set_port (set_port (set_port (set_port h0 KBSR KB_DEV) KBDR KB_DEV) DSR DS_DEV) DDR DS_DEV.

(* `self.devices[id] = dev` — None = index out of bounds (panic) *)
Definition set_slot {D} (h : handler D) (id : Z) (d : option D) : option (handler D) :=
  match slot h id with
  | Some _ => Some (mk_handler (set_nth (Z.to_nat id) d (h_devs h)) (h_ports h))
  | None => None
  end.
Definition set_keyboard {D} (h : handler D) (d : option D) := set_slot h KB_DEV d.
Definition set_display {D} (h : handler D) (d : option D) := set_slot h DS_DEV d.

(* add_device: Ok(id) = Some id, Err(dev) = None.  The new id is the number of slots. *)
Definition port_free {D} (h : handler D) (p : Z) : bool :=
  match get_dev_id h p with Some d => d =? 0 | None => false end.
Definition add_device {D} (h : handler D) (d : option D) (addrs : list Z) : handler D * option Z :=
  let id := dev_len h in
  if id <=? 65535 then
    if forallb (port_free h) addrs then
      let h1 := mk_handler (h_devs h ++ [d]) (h_ports h) in
      (fold_left (fun hh p => set_port hh p id) addrs h1, Some id)
    else (h, None)
  else (h, None).

(* remove_device *)
Definition is_fixed (id : Z) : bool := (id =? NULL_DEV) || (id =? KB_DEV) || (id =? DS_DEV).
Definition remove_device {D} (h : handler D) (id : Z) : handler D :=
  match slot h id with
  | Some _ =>
    mk_handler (set_nth (Z.to_nat id) None (h_devs h))
               (if is_fixed id then h_ports h
                else fun p => if h_ports h p =? id then NULL_DEV else h_ports h p)
  | None => h
  end.

(* ExternalDevice for DeviceHandler.  None = `self.devices[dev_id]` out of bounds (panic). *)
Definition io_read {D} (ops : dev_ops D) (h : handler D) (addr : Z) (eff : bool)
  : option (handler D * option Z) :=
  match get_dev_id h addr with
  | None => Some (h, None)
  | Some id =>
    match slot h id with
    | None => None
    | Some None => Some (h, None)                  (* NullDevice.io_read *)
    | Some (Some d) =>
      let (d', r) := d_read ops d addr eff in
      Some (mk_handler (set_nth (Z.to_nat id) (Some d') (h_devs h)) (h_ports h), r)
    end
  end.
Definition io_write {D} (ops : dev_ops D) (h : handler D) (addr data : Z)
  : option (handler D * bool) :=
  match get_dev_id h addr with
  | None => Some (h, false)
  | Some id =>
    match slot h id with
    | None => None
    | Some None => Some (h, false)                 (* NullDevice.io_write *)
    | Some (Some d) =>
      let (d', r) := d_write ops d addr data in
      Some (mk_handler (set_nth (Z.to_nat id) (Some d') (h_devs h)) (h_ports h), r)
    end
  end.
Definition io_reset {D} (ops : dev_ops D) (h : handler D) : handler D :=
  mk_handler (map (fun s => match s with Some d => Some (d_reset ops d) | None => None end) (h_devs h))
             (h_ports h).
(* max_by_key keeps the LAST of several equally maximal elements *)
Definition better (best : option interrupt) (i : interrupt) : option interrupt :=
  match best with
  | None => Some i
  | Some b => if int_key b <=? int_key i then Some i else Some b
  end.
Fixpoint poll_devs {D} (ops : dev_ops D) (l : list (option D)) (best : option interrupt)
  : list (option D) * option interrupt :=
  match l with
  | [] => ([], best)
  | None :: r => let (r', b) := poll_devs ops r best in (None :: r', b)
  | Some d :: r =>
    let (d', i) := d_poll ops d in
    let (r', b) := poll_devs ops r (match i with Some x => better best x | None => best end) in
    (Some d' :: r', b)
  end.
Definition poll_interrupt {D} (ops : dev_ops D) (h : handler D) : handler D * option interrupt :=
  let (l, b) := poll_devs ops (h_devs h) None in (mk_handler l (h_ports h), b).

(* ---------------------------------------------------------------- internal registers *)
Inductive ireg := RegPC | RegPSR | RegMCR | RegSavedSP.
Definition ireg_eqb (a b : ireg) : bool :=
  match a, b with
  | RegPC, RegPC | RegPSR, RegPSR | RegMCR, RegMCR | RegSavedSP, RegSavedSP => true
  | _, _ => false
  end.

(* the four pieces of simulator state an internal register stands for *)
Record iregs := mk_iregs { ir_pc : Z; ir_psr : Z; ir_mcr : bool; ir_ssp : Z }.

(* PSR::set: mask, then set_cc with the guard against an invalid condition code *)
Definition psr_set (data : Z) : Z :=
  let base := Z.land (Z.land data sim.MASK) 65528 (* & 0xFFF8 *) in
  let cc := Z.land data 7 in
  let cc' := if (cc =? 1) || (cc =? 2) || (cc =? 4) then cc else 2 in
  Z.lor base cc'.

(* InternalRegister::read / write *)
Definition ireg_read (r : ireg) (s : iregs) : Z :=
  match r with
  | RegPC => ir_pc s
  | RegPSR => ir_psr s
  | RegMCR => if ir_mcr s then 32768 else 0
  | RegSavedSP => ir_ssp s
  end.
Definition ireg_write (r : ireg) (s : iregs) (data : Z) : iregs :=
  match r with
  | RegPC => mk_iregs data (ir_psr s) (ir_mcr s) (ir_ssp s)
  | RegPSR => mk_iregs (ir_pc s) (psr_set data) (ir_mcr s) (ir_ssp s)
  | RegMCR => mk_iregs (ir_pc s) (ir_psr s) (32768 <=? data) (ir_ssp s)   (* (data as i16) < 0 *)
  | RegSavedSP => mk_iregs (ir_pc s) (ir_psr s) (ir_mcr s) data
  end.

(* ireg_mmap: HashMap<u16, InternalRegister> as an association list with unique keys *)
Definition imap := list (Z * ireg).
Fixpoint imap_get (m : imap) (a : Z) : option ireg :=
  match m with
  | [] => None
  | (k, r) :: t => if k =? a then Some r else imap_get t a
  end.
Fixpoint imap_remove (m : imap) (a : Z) : imap :=
  match m with
  | [] => []
  | (k, r) :: t => if k =? a then imap_remove t a else (k, r) :: imap_remove t a
  end.
Definition default_imap : imap := [(sim.PSR_ADDR, RegPSR); (sim.MCR_ADDR, RegMCR)].

Inductive mmap_err := NotInIORange | AddrAlreadyMapped.
(* mmap_internal: `(IO_START..).contains(&addr)`, then a vacant entry *)
Definition mmap_internal (m : imap) (a : Z) (r : ireg) : imap * option mmap_err :=
  if a <? IO_START then (m, Some NotInIORange)
  else match imap_get m a with
       | Some _ => (m, Some AddrAlreadyMapped)
       | None => ((a, r) :: m, None)
       end.
(* munmap_internal: whether something was removed *)
Definition munmap_internal (m : imap) (a : Z) : imap * bool :=
  match imap_get m a with
  | Some _ => (imap_remove m a, true)
  | None => (m, false)
  end.

(* ---------------------------------------------------------------- the MMIO path of the simulator *)
Record bus (D : Type) := mk_bus {
  b_imap : imap;            (* ireg_mmap *)
  b_regs : iregs;           (* pc, psr, mcr, saved_sp *)
  b_h : handler D;          (* device_handler *)
  b_mem : Z -> Z            (* mem (data of the words; every word touched here is initialised) *)
}.

Definition new_bus (D : Type) (mem0 : Z -> Z) : bus D :=
  mk_bus default_imap (mk_iregs 12288 32770 false 12288) (new_handler D) mem0.

(* read_mem, privileged, no access tracking: the IO arm updates the memory mirror, then the
   word is loaded from the mirror.  None = panic (device index). *)
Definition bus_read {D} (ops : dev_ops D) (b : bus D) (addr : Z) (eff : bool) : option (bus D * Z) :=
  if IO_START <=? addr then
    match imap_get (b_imap b) addr with
    | Some r =>
      let data := ireg_read r (b_regs b) in
      Some (mk_bus (b_imap b) (b_regs b) (b_h b) (upd (b_mem b) addr data), data)
    | None =>
      match io_read ops (b_h b) addr eff with
      | None => None
      | Some (h', Some data) => Some (mk_bus (b_imap b) (b_regs b) h' (upd (b_mem b) addr data), data)
      | Some (h', None) => Some (mk_bus (b_imap b) (b_regs b) h' (b_mem b), b_mem b addr)
      end
    end
  else Some (b, b_mem b addr).

(* write_mem, privileged, not strict, initialised data: the mirror is written only if the
   register / device took the write.  The result says whether it did. *)
Definition bus_write {D} (ops : dev_ops D) (b : bus D) (addr data : Z) : option (bus D * bool) :=
  if IO_START <=? addr then
    match imap_get (b_imap b) addr with
    | Some r =>
      Some (mk_bus (b_imap b) (ireg_write r (b_regs b) data) (b_h b) (upd (b_mem b) addr data), true)
    | None =>
      match io_write ops (b_h b) addr data with
      | None => None
      | Some (h', true) => Some (mk_bus (b_imap b) (b_regs b) h' (upd (b_mem b) addr data), true)
      | Some (h', false) => Some (mk_bus (b_imap b) (b_regs b) h' (b_mem b), false)
      end
    end
  else Some (mk_bus (b_imap b) (b_regs b) (b_h b) (upd (b_mem b) addr data), true).

(* ---------------------------------------------------------------- histories *)
Inductive bop (D : Type) :=
| BAdd (d : option D) (addrs : list Z)
| BRemove (id : Z)
| BSetKeyboard (d : option D)
| BSetDisplay (d : option D)
| BMmap (a : Z) (r : ireg)
| BMunmap (a : Z)
| BRead (a : Z) (eff : bool)
| BWrite (a data : Z)
| BReset                     (* device_handler.io_reset() *)
| BPoll.                     (* device_handler.poll_interrupt() *)
Arguments BRemove {D}. Arguments BMmap {D}. Arguments BMunmap {D}. Arguments BRead {D}.
Arguments BWrite {D}. Arguments BReset {D}. Arguments BPoll {D}.

Inductive bres :=
| RAdd (r : option Z) | RUnit | RMmap (e : option mmap_err) | RMunmap (ok : bool)
| RRead (v : Z) | RWrite (taken : bool) | RPoll (i : option interrupt) | RPanic.

Definition with_h {D} (b : bus D) (h : handler D) : bus D := mk_bus (b_imap b) (b_regs b) h (b_mem b).
Definition with_imap {D} (b : bus D) (m : imap) : bus D := mk_bus m (b_regs b) (b_h b) (b_mem b).

(* one operation; a panicking operation leaves the state as it was *)
Definition bstep {D} (ops : dev_ops D) (b : bus D) (o : bop D) : bus D * bres :=
  match o with
  | BAdd d addrs => let (h, r) := add_device (b_h b) d addrs in (with_h b h, RAdd r)
  | BRemove id => (with_h b (remove_device (b_h b) id), RUnit)
  | BSetKeyboard d => match set_keyboard (b_h b) d with Some h => (with_h b h, RUnit) | None => (b, RPanic) end
  | BSetDisplay d => match set_display (b_h b) d with Some h => (with_h b h, RUnit) | None => (b, RPanic) end
  | BMmap a r => let (m, e) := mmap_internal (b_imap b) a r in (with_imap b m, RMmap e)
  | BMunmap a => let (m, ok) := munmap_internal (b_imap b) a in (with_imap b m, RMunmap ok)
  | BRead a eff => match bus_read ops b a eff with Some (b', v) => (b', RRead v) | None => (b, RPanic) end
  | BWrite a data => match bus_write ops b a data with Some (b', t) => (b', RWrite t) | None => (b, RPanic) end
  | BReset => (with_h b (io_reset ops (b_h b)), RUnit)
  | BPoll => let (h, i) := poll_interrupt ops (b_h b) in (with_h b h, RPoll i)
  end.

Fixpoint brun {D} (ops : dev_ops D) (b : bus D) (l : list (bop D)) : bus D * list bres :=
  match l with
  | [] => (b, [])
  | o :: r => let (b1, x) := bstep ops b o in let (b2, xs) := brun ops b1 r in (b2, x :: xs)
  end.

(* ---------------------------------------------------------------- a recording device (C32 tie) *)
(* event: (tag of the device, kind 0 read / 1 write / 2 reset / 3 poll, address, data or effectful) *)
Definition event := (Z * Z * Z * Z)%type.
Record rdev := mk_rdev {
  rd_tag : Z;
  rd_reads : bool;                (* answers reads *)
  rd_writes : bool;               (* takes writes *)
  rd_intr : option interrupt;     (* what every poll returns *)
  rd_count : Z;                   (* effectful reads + writes + resets so far (makes answers state dependent) *)
  rd_ev : list event              (* calls received since the log was last cleared, newest first *)
}.
Definition rdev_answer (d : rdev) (addr : Z) : Z := (rd_tag d * 256 + rd_count d * 16 + addr mod 16) mod 65536.
Definition rdev_ops : dev_ops rdev :=
  mk_dev_ops
    (fun d addr eff =>
       (mk_rdev (rd_tag d) (rd_reads d) (rd_writes d) (rd_intr d)
                (if eff then rd_count d + 1 else rd_count d)
                ((rd_tag d, 0, addr, if eff then 1 else 0) :: rd_ev d),
        if rd_reads d then Some (rdev_answer d addr) else None))
    (fun d addr data =>
       (mk_rdev (rd_tag d) (rd_reads d) (rd_writes d) (rd_intr d) (rd_count d + 1)
                ((rd_tag d, 1, addr, data) :: rd_ev d),
        rd_writes d))
    (fun d => mk_rdev (rd_tag d) (rd_reads d) (rd_writes d) (rd_intr d) (rd_count d + 1)
                      ((rd_tag d, 2, 0, 0) :: rd_ev d))
    (fun d => (mk_rdev (rd_tag d) (rd_reads d) (rd_writes d) (rd_intr d) (rd_count d)
                       ((rd_tag d, 3, 0, 0) :: rd_ev d),
               rd_intr d)).

Definition clear_ev (b : bus rdev) : bus rdev :=
  with_h b (mk_handler
    (map (fun s => match s with
                   | Some d => Some (mk_rdev (rd_tag d) (rd_reads d) (rd_writes d) (rd_intr d) (rd_count d) [])
                   | None => None end) (h_devs (b_h b)))
    (h_ports (b_h b))).
(* calls of the last operation in the order they were made: slots in order (io_reset and
   poll_interrupt iterate the slots in order), within a slot oldest first *)
Definition collect_ev (b : bus rdev) : list event :=
  flat_map (fun s => match s with Some d => rev (rd_ev d) | None => [] end) (h_devs (b_h b)).

(* ---- wire ---- *)
Definition as_ireg (t : tree) : option ireg :=
  match t with I 0 => Some RegPC | I 1 => Some RegPSR | I 2 => Some RegMCR | I 3 => Some RegSavedSP | _ => None end.
Definition as_intr (t : tree) : option (option interrupt) :=
  match t with
  | L [] => Some None
  | L [I 0; I v; I p] => Some (Some (vectored v p))
  | L [I 1; I x] => Some (Some (IExternal x))
  | _ => None
  end.
(* device: () = NullDevice, (tag reads writes intr) = recording device *)
Definition as_dev (t : tree) : option (option rdev) :=
  match t with
  | L [] => Some None
  | L [I tag; rd; wr; it] =>
    match as_bool rd, as_bool wr, as_intr it with
    | Some r, Some w, Some i => Some (Some (mk_rdev tag r w i 0 []))
    | _, _, _ => None
    end
  | _ => None
  end.
Definition as_bop (t : tree) : option (bop rdev) :=
  match t with
  | L [I 0; d; addrs] => match as_dev d, as_zs addrs with Some d', Some a => Some (BAdd d' a) | _, _ => None end
  | L [I 1; I id] => Some (BRemove id)
  | L [I 2; d] => match as_dev d with Some d' => Some (BSetKeyboard d') | None => None end
  | L [I 3; d] => match as_dev d with Some d' => Some (BSetDisplay d') | None => None end
  | L [I 4; I a; r] => match as_ireg r with Some r' => Some (BMmap a r') | None => None end
  | L [I 5; I a] => Some (BMunmap a)
  | L [I 6; I a; e] => match as_bool e with Some e' => Some (BRead a e') | None => None end
  | L [I 7; I a; I d] => Some (BWrite a d)
  | L [I 8] => Some BReset
  | L [I 9] => Some BPoll
  | _ => None
  end.
Definition t_intr (i : option interrupt) : tree :=
  match i with
  | None => L []
  | Some (IVectored v p) => L [I 0; I v; I p]
  | Some (IExternal x) => L [I 1; I x]
  end.
Definition t_bres (r : bres) : tree :=
  match r with
  | RAdd (Some id) => t_ok [I id]
  | RAdd None => t_err []
  | RUnit => t_ok []
  | RMmap None => t_ok []
  | RMmap (Some NotInIORange) => t_err [I 0]
  | RMmap (Some AddrAlreadyMapped) => t_err [I 1]
  | RMunmap ok => t_ok [t_bool ok]
  | RRead v => t_ok [I v]
  | RWrite _ => t_ok []        (* write_mem does not say whether the write was taken; the mirror shows it *)
  | RPoll i => t_ok [t_intr i]
  | RPanic => t_panic
  end.
Definition t_event (e : event) : tree := let '(tag, k, a, d) := e in L [I tag; I k; I a; I d].
Definition op_addr (o : bop rdev) : Z :=
  match o with BRead a _ | BWrite a _ | BMmap a _ | BMunmap a => a | _ => 65023 (* xFDFF *) end.

(* per operation: result, device calls, mirror word at the operation's address, pc psr mcr saved_sp *)
Fixpoint observe_run (b : bus rdev) (l : list (bop rdev)) : list tree :=
  match l with
  | [] => []
  | o :: r =>
    let (b1, x) := bstep rdev_ops (clear_ev b) o in
    L [t_bres x; t_list t_event (collect_ev b1); I (b_mem b1 (op_addr o));
       I (ir_pc (b_regs b1)); I (ir_psr (b_regs b1)); t_bool (ir_mcr (b_regs b1)); I (ir_ssp (b_regs b1))]
    :: observe_run b1 r
  end.

(* devhandler.run (fill ops): a fresh simulator whose memory outside the I/O range holds `fill`
   (addresses used by the harness lie outside the OS image) and whose I/O range holds 0 *)
Definition op_run (t : tree) : tree :=
  match t with
  | L [I fill; ops] =>
    match as_list as_bop ops with
    | Some l => L (observe_run (new_bus rdev (fun a => if IO_START <=? a then 0 else fill)) l)
    | None => t_bad
    end
  | _ => t_bad
  end.

Definition ops : op_table := [ ("devhandler.run"%string, op_run) ].
