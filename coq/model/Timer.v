(* Timer.v — model of `TimerDevice` (src/sim/device/timer.rs): SampleRange::new, TimerDevice::new,
   set_range, set_exact, get_remaining, reset_remaining, try_generate_time, and the ExternalDevice
   impl (io_read/io_write do nothing, io_reset, poll_interrupt).

   Randomness is an INPUT.  The Rust timer owns a `StdRng`; the model owns the number of draws made
   so far ([t_drawn]) and every function takes the draw oracle [g : nat -> Z]: "the k-th call of
   `random_range` on this timer's generator returned g k".  TRUSTED (contract of rand 0.9
   `Rng::random_range`): it panics on an empty range *before* touching the generator and otherwise
   returns a value inside the range it was given.  A draw outside the current range is the explicit
   outcome [TBadDraw] (the oracle broke the contract; never produced by the implementation).

   Numbers are Z; `u32` fields never overflow in the modelled code: `s.checked_add(1)` is the
   explicit [TPanic], `time -= 1` happens only for time >= 2.
   No proofs here (proofs/TimerProofs.v, props/C34.v).

   For importers (model/Sim.v is not one: it has a timer record and a [dev_poll] of its own):
   record [timer] (t_range t_time t_vect t_prio t_enabled
   t_drawn), [srange] (r_start r_end r_incl; range_lo / range_hi / range_nonempty / in_range),
   [timer_new], [set_range], [set_exact], [get_remaining], [reset_remaining], [timer_io_reset],
   [timer_poll g t : tres (timer * option (vect * priority))] — the ExternalDevice methods —
   and the outcome type [tres] (TOk / TPanic / TBadDraw).  The draw oracle [g : nat -> Z] is per timer
   (each timer owns its generator); [draw_oracle l] turns a list of observed draws into one. *)
From Coq Require Import ZArith List Bool String.
From Model Require Import Tree.
Import ListNotations.
Open Scope Z_scope.

Definition U32_MAX : Z := 4294967295.

(* std::ops::Bound<u32> *)
Inductive bound := BIncl (z : Z) | BExcl (z : Z) | BUnb.

(* struct SampleRange { start, end, end_incl } *)
Record srange := mk_srange { r_start : Z; r_end : Z; r_incl : bool }.

(* smallest / largest value of the range; empty iff range_hi < range_lo *)
Definition range_lo (r : srange) : Z := r_start r.
Definition range_hi (r : srange) : Z := if r_incl r then r_end r else r_end r - 1.
Definition range_nonempty (r : srange) : bool := range_lo r <=? range_hi r.
Definition in_range (r : srange) (d : Z) : bool := (range_lo r <=? d) && (d <=? range_hi r).

(* outcome of a timer operation *)
Inductive tres (A : Type) := TOk (a : A) | TPanic | TBadDraw.
Arguments TOk {A}. Arguments TPanic {A}. Arguments TBadDraw {A}.

(* SampleRange::new — `Bound::Excluded(u32::MAX)` as start is the `expect` panic *)
Definition srange_new (s e : bound) : tres srange :=
  match (match s with
         | BIncl z => Some z
         | BExcl z => if z =? U32_MAX then None else Some (z + 1)
         | BUnb => Some 0
         end) with
  | None => TPanic
  | Some st => TOk (match e with
                    | BIncl z => mk_srange st z true
                    | BExcl z => mk_srange st z false
                    | BUnb => mk_srange st U32_MAX true
                    end)
  end.

(* struct TimerDevice; [t_drawn] stands for the generator state *)
Record timer := mk_timer {
  t_range : srange;
  t_time : Z;          (* `time`: what get_remaining() returns *)
  t_vect : Z;          (* pub vect: u8 *)
  t_prio : Z;          (* pub priority: u8 *)
  t_enabled : bool;    (* pub enabled *)
  t_drawn : nat        (* number of random_range calls that returned so far *)
}.

Definition with_time (t : timer) (z : Z) (k : nat) : timer :=
  mk_timer (t_range t) z (t_vect t) (t_prio t) (t_enabled t) k.
Definition with_range (t : timer) (r : srange) : timer :=
  mk_timer r (t_time t) (t_vect t) (t_prio t) (t_enabled t) (t_drawn t).
Definition with_enabled (t : timer) (b : bool) : timer :=
  mk_timer (t_range t) (t_time t) (t_vect t) (t_prio t) b (t_drawn t).
Definition with_vect (t : timer) (v : Z) : timer :=
  mk_timer (t_range t) (t_time t) v (t_prio t) (t_enabled t) (t_drawn t).
Definition with_prio (t : timer) (p : Z) : timer :=
  mk_timer (t_range t) (t_time t) (t_vect t) p (t_enabled t) (t_drawn t).

(* try_generate_time: one call of random_range on the current range *)
Definition gen_time (g : nat -> Z) (r : srange) (k : nat) : tres (Z * nat) :=
  if range_nonempty r then
    (if in_range r (g k) then TOk (g k, S k) else TBadDraw)
  else TPanic.

(* reset_remaining and io_reset are the same assignment `time = try_generate_time()` *)
Definition reset_remaining (g : nat -> Z) (t : timer) : tres timer :=
  match gen_time g (t_range t) (t_drawn t) with
  | TOk (d, k) => TOk (with_time t d k)
  | TPanic => TPanic
  | TBadDraw => TBadDraw
  end.
Definition timer_io_reset := reset_remaining.

(* TimerDevice::new(seed, range, vect, priority): disabled, first count drawn at once *)
Definition timer_new (g : nat -> Z) (s e : bound) (vect prio : Z) : tres timer :=
  match srange_new s e with
  | TOk r => reset_remaining g (mk_timer r 0 vect prio false O)
  | TPanic => TPanic
  | TBadDraw => TBadDraw
  end.

Definition set_range (t : timer) (s e : bound) : tres timer :=
  match srange_new s e with
  | TOk r => TOk (with_range t r)
  | TPanic => TPanic
  | TBadDraw => TBadDraw
  end.
Definition set_exact (t : timer) (n : Z) : tres timer := set_range t (BIncl n) (BIncl n).
Definition get_remaining (t : timer) : Z := t_time t.

(* Interrupt::vectored(vect, priority): priority.clamp(0, 7) on a u8 *)
Definition timer_interrupt (t : timer) : Z * Z := (t_vect t, Z.min (t_prio t) 7).

(* poll_interrupt.  At time 0 a fresh count is drawn; a fresh count of 0 fires at once (the
   repaired code: no poll lies between that interrupt and the previous one). *)
Definition timer_poll (g : nat -> Z) (t : timer) : tres (timer * option (Z * Z)) :=
  if negb (t_enabled t) then TOk (t, None)
  else if t_time t =? 0 then
    match reset_remaining g t with
    | TOk t' => TOk (t', if t_time t' =? 0 then Some (timer_interrupt t') else None)
    | TPanic => TPanic
    | TBadDraw => TBadDraw
    end
  else if t_time t =? 1 then TOk (with_time t 0 (t_drawn t), Some (timer_interrupt t))
  else TOk (with_time t (t_time t - 1) (t_drawn t), None).

(* n consecutive polls: which of them raised an interrupt, and the state afterwards *)
Fixpoint timer_poll_n (g : nat -> Z) (t : timer) (n : nat) : tres (list bool * timer) :=
  match n with
  | O => TOk ([], t)
  | S k =>
    match timer_poll g t with
    | TOk (t', f) =>
      match timer_poll_n g t' k with
      | TOk (l, t'') => TOk ((match f with Some _ => true | None => false end) :: l, t'')
      | TPanic => TPanic
      | TBadDraw => TBadDraw
      end
    | TPanic => TPanic
    | TBadDraw => TBadDraw
    end
  end.

(* ---- histories: the public operations of a timer ---- *)
Inductive timer_op :=
| OPoll | OEnable | ODisable | OResetRemaining | OIoReset
| OSetRange (s e : bound) | OSetExact (n : Z) | OSetVect (v : Z) | OSetPrio (p : Z).

(* one operation: new state and the interrupt it returned (only OPoll can return one).
   A panicking operation leaves the timer as it was (the unwind happens before any assignment). *)
Definition timer_step (g : nat -> Z) (t : timer) (o : timer_op) : tres (timer * option (Z * Z)) :=
  let lift (r : tres timer) := match r with TOk t' => TOk (t', None) | TPanic => TPanic | TBadDraw => TBadDraw end in
  match o with
  | OPoll => timer_poll g t
  | OEnable => TOk (with_enabled t true, None)
  | ODisable => TOk (with_enabled t false, None)
  | OResetRemaining => lift (reset_remaining g t)
  | OIoReset => lift (timer_io_reset g t)
  | OSetRange s e => lift (set_range t s e)
  | OSetExact n => lift (set_exact t n)
  | OSetVect v => TOk (with_vect t v, None)
  | OSetPrio p => TOk (with_prio t p, None)
  end.

(* observation after an operation *)
Inductive timer_obs := ObsOk (fired : option (Z * Z)) (remaining : Z) (enabled : bool) | ObsPanic | ObsBadDraw.

(* run a history; a panic is an observation and the history goes on from the unchanged state;
   a bad draw ends it *)
Fixpoint timer_run (g : nat -> Z) (t : timer) (ops : list timer_op) : list timer_obs :=
  match ops with
  | [] => []
  | o :: r =>
    match timer_step g t o with
    | TOk (t', f) => ObsOk f (t_time t') (t_enabled t') :: timer_run g t' r
    | TPanic => ObsPanic :: timer_run g t r
    | TBadDraw => [ObsBadDraw]
    end
  end.

(* state after a history (same conventions) *)
Fixpoint timer_run_state (g : nat -> Z) (t : timer) (ops : list timer_op) : timer :=
  match ops with
  | [] => t
  | o :: r =>
    match timer_step g t o with
    | TOk (t', _) => timer_run_state g t' r
    | TPanic => timer_run_state g t r
    | TBadDraw => t
    end
  end.

(* ---- wire ---- *)
Definition as_bound (t : tree) : option bound :=
  match t with
  | L [] => Some BUnb
  | L [I 0; I z] => Some (BIncl z)
  | L [I 1; I z] => Some (BExcl z)
  | _ => None
  end.
Definition as_top (t : tree) : option timer_op :=
  match t with
  | L [I 0] => Some OPoll
  | L [I 1] => Some OEnable
  | L [I 2] => Some ODisable
  | L [I 3] => Some OResetRemaining
  | L [I 4] => Some OIoReset
  | L [I 5; s; e] => match as_bound s, as_bound e with Some s', Some e' => Some (OSetRange s' e') | _, _ => None end
  | L [I 6; I n] => Some (OSetExact n)
  | L [I 7; I v] => Some (OSetVect v)
  | L [I 8; I p] => Some (OSetPrio p)
  | _ => None
  end.
Definition t_fired (f : option (Z * Z)) : tree :=
  match f with Some (v, p) => L [I v; I p] | None => L [] end.
Definition t_obs (o : timer_obs) : tree :=
  match o with
  | ObsOk f rem en => t_ok [t_fired f; I rem; t_bool en]
  | ObsPanic => t_panic
  | ObsBadDraw => L [I 8]
  end.
(* the draw oracle given as a list; past its end the draw is -1, outside every range *)
Definition draw_oracle (ds : list Z) : nat -> Z := fun k => nth k ds (-1).

(* timer.run ((start end vect prio) draws ops) -> (new-result observations...) *)
Definition op_run (t : tree) : tree :=
  match t with
  | L [L [s; e; I vect; I prio]; ds; ops] =>
    match as_bound s, as_bound e, as_zs ds, as_list as_top ops with
    | Some s', Some e', Some ds', Some ops' =>
      match timer_new (draw_oracle ds') s' e' vect prio with
      | TOk t0 => L (t_ok [I (t_time t0)] :: map t_obs (timer_run (draw_oracle ds') t0 ops'))
      | TPanic => L [t_panic]
      | TBadDraw => L [L [I 8]]
      end
    | _, _, _, _ => t_bad
    end
  | _ => t_bad
  end.

Definition ops : op_table := [ ("timer.run"%string, op_run) ].
