(* LineMapProofs.v — the line table of the text format: the writer's fold of [add_run] over the runs of
   a LineSymbolMap yields one optional address per source line, and the reader's scan [lsm_runs] over
   that vector gives the runs back. *)
From Coq Require Import ZArith List Bool Lia.
From Model Require Import Text Obj ObjBin ObjText.
From Proofs Require Import Ranges ObjBytesProofs ObjBinProofs.
Import ListNotations.
Open Scope Z_scope.

Fixpoint vec (cur : Z) (runs : linemap) (n : Z) : list (option Z) :=
  match runs with
  | [] => repeat None (Z.to_nat (n - cur))
  | (l, a) :: r => repeat None (Z.to_nat (l - cur)) ++ map Some a ++ vec (l + len a) r n
  end.
(* runs lie in [cur, n), are not empty, and an unmapped line follows each of them *)
Fixpoint runs_in (cur : Z) (runs : linemap) (n : Z) : Prop :=
  match runs with
  | [] => cur <= n
  | (l, a) :: r => cur <= l /\ a <> [] /\ runs_in (l + len a + 1) r n
  end.
Definition tbl (i : Z) (v : list (option Z)) : list (Z * option Z) := combine (seqz i (List.length v)) v.

Lemma runs_in_weaken runs : forall cur cur' n, cur' <= cur -> runs_in cur runs n -> runs_in cur' runs n.
Proof. destruct runs as [|[l a] r]; intros cur cur' n H Hr; cbn [runs_in] in *; [lia|]. destruct Hr as (H1 & H2 & H3). repeat split; [lia|exact H2|exact H3]. Qed.
Lemma runs_in_bound runs : forall cur n, runs_in cur runs n -> cur <= n.
Proof.
  induction runs as [|[l a] r IH]; intros cur n H; cbn [runs_in] in H; [exact H|].
  destruct H as (H1 & H2 & H3). apply IH in H3. pose proof (len_nonneg a). lia.
Qed.

Lemma length_vec runs : forall cur n, runs_in cur runs n -> len (vec cur runs n) = n - cur.
Proof.
  induction runs as [|[l a] r IH]; intros cur n H; cbn [runs_in vec] in *.
  - unfold len. rewrite repeat_length. lia.
  - destruct H as (H1 & H2 & H3). rewrite !len_app. unfold len at 1 2. rewrite repeat_length, map_length.
    rewrite IH by (eapply runs_in_weaken; [|exact H3]; lia). fold (len a). lia.
Qed.

Lemma tbl_cons i x v : tbl i (x :: v) = (i, x) :: tbl (i + 1) v.
Proof. reflexivity. Qed.
Lemma seqz_app i n m : seqz i (n + m) = seqz i n ++ seqz (i + Z.of_nat n) m.
Proof. exact (zrange_app i n m). Qed.
Lemma tbl_app v : forall i w, tbl i (v ++ w) = tbl i v ++ tbl (i + len v) w.
Proof.
  induction v as [|x v IH]; intros i w.
  - cbn [app]. unfold len. cbn [List.length]. replace (i + Z.of_nat 0) with i by lia. reflexivity.
  - cbn [app]. rewrite !tbl_cons. rewrite IH. rewrite len_cons. cbn [app]. f_equal. f_equal. f_equal. lia.
Qed.
Lemma keys_lt_mono {V} k k' (P : list (Z * V)) : k <= k' -> Forall (fun p => fst p < k) P -> Forall (fun p => fst p < k') P.
Proof. intros H. apply Forall_impl. intros p Hp. lia. Qed.
Lemma tbl_keys_lt i v k : i + len v <= k -> Forall (fun p : Z * option Z => fst p < k) (tbl i v).
Proof.
  revert i. induction v as [|x v IH]; intros i H; [constructor|]. rewrite tbl_cons. rewrite len_cons in H. pose proof (len_nonneg v).
  constructor; [cbn [fst]; lia|]. apply IH. lia.
Qed.
Lemma tbl_base n : map (fun l : Z => (l, @None Z)) (seqz 0 n) = tbl 0 (repeat None n).
Proof.
  unfold tbl. rewrite repeat_length. generalize 0. induction n as [|n IH]; intro i; [reflexivity|].
  cbn [seqz map repeat combine]. rewrite IH. reflexivity.
Qed.

Lemma bt_insert_at {V} k (x y : V) P Q : Forall (fun p => fst p < k) P ->
  bt_insert k x (P ++ (k, y) :: Q) = P ++ (k, x) :: Q.
Proof.
  induction 1 as [|[k' v'] P Hk _ IH]; cbn [app bt_insert].
  - rewrite Z.ltb_irrefl, Z.eqb_refl. reflexivity.
  - cbn [fst] in Hk. replace (k <? k') with false by lia. replace (k =? k') with false by lia. rewrite IH. reflexivity.
Qed.

(* 18446744073709551616 = 2^64, the modulus of [add_run] *)
Lemma add_run_tbl a : forall l P m, Forall (fun p : Z * option Z => fst p < l) P -> 0 <= l -> l + len a <= 18446744073709551616 ->
  (List.length a <= m)%nat ->
  add_run l a (P ++ tbl l (repeat None m)) = P ++ tbl l (map Some a ++ repeat None (m - List.length a)).
Proof.
  induction a as [|x a IH]; intros l P m HP Hl Hb Hm.
  - cbn [add_run map app List.length]. rewrite Nat.sub_0_r. reflexivity.
  - rewrite len_cons in Hb. pose proof (len_nonneg a). cbn [List.length] in Hm.
    destruct m as [|m]; [lia|]. cbn [add_run repeat]. rewrite tbl_cons.
    rewrite Z.mod_small by lia. rewrite bt_insert_at by exact HP.
    change (P ++ (l, Some x) :: tbl (l + 1) (repeat None m)) with (P ++ [(l, Some x)] ++ tbl (l + 1) (repeat None m)).
    rewrite app_assoc. rewrite IH; [| |lia|lia|lia].
    + rewrite <- app_assoc. cbn [map app List.length Nat.sub]. rewrite tbl_cons. reflexivity.
    + apply Forall_app. split; [apply (keys_lt_mono l); [lia|exact HP]|repeat constructor; cbn; lia].
Qed.

Theorem line_table_vec runs : forall cur P n, runs_in cur runs n -> 0 <= cur -> n <= 18446744073709551616 ->
  Forall (fun p : Z * option Z => fst p < cur) P ->
  fold_left (fun t b => add_run (fst b) (snd b) t) runs (P ++ tbl cur (repeat None (Z.to_nat (n - cur))))
  = P ++ tbl cur (vec cur runs n).
Proof.
  induction runs as [|[l a] r IH]; intros cur P n Hr Hc Hn HP; cbn [fold_left vec runs_in fst snd] in *; [reflexivity|].
  destruct Hr as (H1 & H2 & H3). pose proof (runs_in_bound _ _ _ H3) as Hbn. pose proof (len_nonneg a).
  replace (Z.to_nat (n - cur)) with (Z.to_nat (l - cur) + Z.to_nat (n - l))%nat by lia.
  rewrite repeat_app, tbl_app, app_assoc.
  rewrite len_repeat. replace (cur + Z.of_nat (Z.to_nat (l - cur))) with l by lia.
  rewrite add_run_tbl; [| |lia|lia|unfold len in *; lia].
  2:{ apply Forall_app. split; [apply (keys_lt_mono cur); [lia|exact HP]|].
      apply tbl_keys_lt. rewrite len_repeat. lia. }
  rewrite tbl_app. rewrite len_map.
  replace (Z.to_nat (n - l) - List.length a)%nat with (Z.to_nat (n - (l + len a))) by (unfold len; lia).
  rewrite app_assoc. rewrite IH; [| |lia|lia|].
  - rewrite <- !app_assoc. rewrite !tbl_app. rewrite len_repeat, len_map.
    replace (cur + Z.of_nat (Z.to_nat (l - cur))) with l by lia. reflexivity.
  - eapply runs_in_weaken; [|exact H3]. lia.
  - apply Forall_app. split.
    + apply Forall_app. split; [apply (keys_lt_mono cur); [lia|exact HP]|].
      apply (keys_lt_mono l); [lia|]. apply tbl_keys_lt. rewrite len_repeat. lia.
    + apply tbl_keys_lt. rewrite len_map. lia.
Qed.

Lemma lsm_runs_nones k : forall rest i acc, lsm_runs (repeat None k ++ rest) i None acc = lsm_runs rest (i + Z.of_nat k) None acc.
Proof.
  induction k as [|k IH]; intros rest i acc; [cbn [repeat app]; f_equal; lia|].
  cbn [repeat app lsm_runs]. rewrite IH. f_equal. lia.
Qed.
Lemma lsm_runs_somes a : forall rest i c acc,
  lsm_runs (map Some a ++ rest) i (Some c) acc = lsm_runs rest (i + len a) (Some (c ++ a)) acc.
Proof.
  induction a as [|x a IH]; intros rest i c acc; [cbn [map app]; rewrite app_nil_r; f_equal; unfold len; cbn; lia|].
  cbn [map app lsm_runs]. rewrite IH. rewrite len_cons, <- app_assoc. f_equal. lia.
Qed.

Lemma vec_next runs cur n : runs_in (cur + 1) runs n -> vec cur runs n = None :: vec (cur + 1) runs n.
Proof.
  intro H. pose proof (runs_in_bound _ _ _ H) as Hb. destruct runs as [|[l a] r]; cbn [vec runs_in] in *.
  - replace (Z.to_nat (n - cur)) with (S (Z.to_nat (n - (cur + 1)))) by lia. reflexivity.
  - destruct H as (G1 & _). replace (Z.to_nat (l - cur)) with (S (Z.to_nat (l - (cur + 1)))) by lia. reflexivity.
Qed.

Theorem lsm_runs_vec runs : forall cur n acc, runs_in cur runs n -> 0 <= cur ->
  Forall (fun p : Z * list Z => fst p < cur) acc ->
  lsm_runs (vec cur runs n) cur None acc = ROk (acc ++ runs).
Proof.
  induction runs as [|[l a] r IH]; intros cur n acc Hr Hc Hacc; cbn [vec runs_in] in *.
  - rewrite <- (app_nil_r (repeat None _)), lsm_runs_nones. cbn [lsm_runs]. rewrite app_nil_r. reflexivity.
  - destruct Hr as (H1 & H2 & H3). pose proof (len_nonneg a).
    rewrite lsm_runs_nones. replace (cur + Z.of_nat (Z.to_nat (l - cur))) with l by lia.
    destruct a as [|x a]; [contradiction|]. cbn [map app lsm_runs].
    rewrite lsm_runs_somes. cbn [app].
    rewrite (vec_next r _ n H3). cbn [lsm_runs].
    assert (Ekey : l + 1 + len a - len (x :: a) = l) by (rewrite len_cons; lia). rewrite Ekey.
    replace (l <? 0) with false by lia.
    rewrite bt_insert_last by (apply (keys_lt_mono cur); [lia|exact Hacc]).
    replace (l + 1 + len a + 1) with (l + len (x :: a) + 1) by (rewrite len_cons; lia).
    rewrite IH; [rewrite <- app_assoc; reflexivity|exact H3|lia|].
    apply Forall_app. split; [apply (keys_lt_mono cur); [lia|exact Hacc]|repeat constructor; cbn; lia].
Qed.
