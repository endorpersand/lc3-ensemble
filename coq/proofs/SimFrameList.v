(* SimFrameList.v — C27, second sentence: with debug frames on, the frame list has as many entries as the
   reported depth, on every path of [step_in] (also a strict-mode failure in the middle of an entry). *)
From Coq Require Import ZArith List Lia.
From Model Require Import Sim.
From Proofs Require Import SimHoare SimAccess SimObsEntry IrqProofs SimMachine SimNoPanic.
Import ListNotations.
Open Scope Z_scope.

Definition FL (s : sim) : Prop :=
  match s_frames s with
  | Some fs => s_frame_no s = Z.of_nat (length fs)
  | None => 0 <= s_frame_no s
  end.

Lemma fl_read e a c : hoareI FL (read_mem e a c) anyv anyv.
Proof. apply inv_hi. intros s H. unfold FL. rewrite !read_mem_keeps_field by reflexivity. exact H. Qed.
Lemma fl_write e a w c : hoareI FL (write_mem e a w c) anyv anyv.
Proof.
  apply inv_hi. intros s H. unfold FL.
  rewrite !write_mem_keeps_field by (try reflexivity; intros s0 []; reflexivity). exact H.
Qed.

Lemma fl_push a b f : hoareI FL (push_frame a b f) anyv anyv.
Proof.
  intros s H. rewrite push_frame_run. split; [|exact Logic.I]. unfold FL in *. cbn [upd_frames s_frames s_frame_no].
  destruct (s_frames s) as [fs|]; [|cbn [push_frs]; lia].
  destruct (push_frs_top f (s_sr_defns s) (s_regs s) (s_mem s) a b fs) as (top & -> & _). cbn [length]. lia.
Qed.
Lemma fl_pop : hoareI FL pop_frame anyv anyv.
Proof.
  unfold pop_frame. apply hi_modify. intros s H. unfold FL in *.
  destruct (s_frames s) as [[|f r]|]; cbn [upd_frames s_frames s_frame_no length] in *; lia.
Qed.
#[export] Hint Resolve fl_read fl_write fl_push fl_pop : hoare.
#[export] Hint Extern 0 (hoareI FL (modify _) _ _) => apply hi_modify; intros ? Hfl; exact Hfl : hoare.

Lemma fl_handle_interrupt e v p : hoareI FL (handle_interrupt e v p) anyv anyv.
Proof.
  apply hi_handle_interrupt; [intros; exact Logic.I|intros s H; exact H|].
  intros ft f s0 _. unfold entry_body. cbv delta [call_interrupt swap_sp set_pc]. repeat hstep.
Qed.
#[export] Hint Resolve fl_handle_interrupt : hoare.
Lemma fl_exec e i : hoareI FL (exec e i) anyv anyv.
Proof.
  unfold exec. cbv delta [call_subroutine set_reg_if_init set_cc swap_sp offset_pc set_pc]. repeat hstep.
Qed.
#[export] Hint Resolve fl_exec : hoare.
Lemma fl_fetch_exec e : hoareI FL (fetch_exec e) anyv anyv.
Proof. unfold fetch_exec. cbv delta [offset_pc set_pc]. repeat hstep. Qed.

Theorem fl_step_in e s : FL s -> FL (fst (step_in e s)).
Proof.
  apply (hi_machine FL anyv e).
  - intros s0 H0. exact H0.
  - intros s0 H0. exact H0.
  - intros v p. apply fl_handle_interrupt.
  - apply fl_fetch_exec.
  - exact Logic.I.
Qed.

Fixpoint steps (es : list env) (s : sim) : sim :=
  match es with [] => s | e :: r => steps r (fst (step_in e s)) end.
Lemma steps_run_n es : forall s, steps es s = fst (run_n es s).
Proof.
  induction es as [|e r IH]; intros s; cbn [steps run_n]; [reflexivity|]. rewrite IH.
  destruct (step_in e s) as [s1 o]. cbn [fst]. destruct (run_n r s1). reflexivity.
Qed.
