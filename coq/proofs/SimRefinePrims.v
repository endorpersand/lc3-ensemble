(* SimRefinePrims.v — the primitives of the model refine the reference semantics (spec/IsaSpec.v) under [abs]
   (model/IsaWire.v), in non-strict mode. *)
From Coq Require Import ZArith List Bool Lia FMapPositive.
From Gen Require Import Constants.
From Model Require Import Word Sim IsaWire.
From Spec Require Import IsaSpec.
From Proofs Require Import SimHoare.
Import ListNotations.
Open Scope Z_scope.

Lemma pmap_find {A B} (f : A -> B) m k :
  PositiveMap.find k (PositiveMap.map f m) = option_map f (PositiveMap.find k m).
Proof. unfold PositiveMap.map. apply PositiveMap.gmapi. Qed.

Lemma xmapi_add {A B} (f : A -> B) : forall k v m j,
  PositiveMap.xmapi (fun _ => f) (PositiveMap.add k v m) j
  = PositiveMap.add k (f v) (PositiveMap.xmapi (fun _ => f) m j).
Proof.
  induction k as [k IH|k IH|]; intros v m j; destruct m as [|l o r]; cbn; try rewrite IH; try reflexivity.
Qed.
Lemma pmap_add {A B} (f : A -> B) k v m :
  PositiveMap.map f (PositiveMap.add k v m) = PositiveMap.add k (f v) (PositiveMap.map f m).
Proof. unfold PositiveMap.map, PositiveMap.mapi. apply xmapi_add. Qed.

Lemma amget_abs m a : amget (abs_mem m) a = w_data (mget m a).
Proof.
  unfold amget, abs_mem, mget; cbn [am_over am_fill m_over m_fill]. rewrite pmap_find. destruct (PositiveMap.find (mkey a) (m_over m)); reflexivity.
Qed.
Lemma abs_mem_mset m a w : abs_mem (mset m a w) = amset (abs_mem m) a (w_data w).
Proof. unfold abs_mem, mset, amset; cbn [m_over m_fill]. rewrite pmap_add. reflexivity. Qed.

Lemma map_set_nth {A B} (f : A -> B) : forall l n x, map f (set_nth l n x) = set_nth (map f l) n (f x).
Proof. induction l as [|h t IH]; intros [|n] x; cbn; try rewrite IH; reflexivity. Qed.
Lemma areg_abs s r : areg (abs s) r = w_data (rget (s_regs s) r).
Proof. unfold areg, rget, abs; cbn. change 0 with (w_data (mkWord 0 0)). apply map_nth. Qed.

Lemma abs_upd_regs s r w : abs (upd_regs s (rset (s_regs s) r w)) = with_reg (abs s) r (w_data w).
Proof. unfold abs, with_reg, rset; cbn. rewrite map_set_nth. reflexivity. Qed.
Lemma abs_upd_pc s pc : abs (upd_pc s pc) = with_pc (abs s) pc. Proof. reflexivity. Qed.
Lemma abs_upd_psr s p : abs (upd_psr s p) = with_psr (abs s) p. Proof. reflexivity. Qed.
Lemma abs_upd_mem s m : abs (upd_mem s m) = with_mem (abs s) (abs_mem m). Proof. reflexivity. Qed.
Lemma abs_upd_devs s d : abs (upd_devs s d) = with_devs (abs s) d. Proof. reflexivity. Qed.
Lemma abs_upd_mcr s b : abs (upd_mcr s b) = with_mcr (abs s) b. Proof. reflexivity. Qed.
Lemma abs_upd_saved_sp s w : abs (upd_saved_sp s w) = with_ssp (abs s) (w_data w). Proof. reflexivity. Qed.
Lemma abs_upd_obs s o : abs (upd_obs s o) = abs s. Proof. reflexivity. Qed.
Lemma abs_upd_frames s n f : abs (upd_frames s n f) = abs s. Proof. reflexivity. Qed.
Lemma abs_upd_instrs s n : abs (upd_instrs s n) = abs s. Proof. reflexivity. Qed.
Lemma abs_upd_prefetch s b : abs (upd_prefetch s b) = abs s. Proof. reflexivity. Qed.

Lemma may_access_abs s : may_access_all (abs s) = c_priv (default_ctx s).
Proof. reflexivity. Qed.

(* by conversion [fl_strict (s_flags s) = false] *)
Definition lax (s : sim) : Prop := strict s = false.

Definition ropt {A} (r : word + A) : option Z := match r with inl w => Some (w_data w) | inr _ => None end.
Definition is_inl {A B} (r : A + B) : bool := match r with inl _ => true | inr _ => false end.

Lemma user_space_in_user a : user_space a = in_user a. Proof. reflexivity. Qed.

Lemma read_mem_refines e a c s :
  c_io c = true ->
  load e (c_priv c) a (abs s) = (abs (fst (read_mem e a c s)), ropt (snd (read_mem e a c s))).
Proof.
  intros Hio. rewrite read_mem_eq. unfold load. rewrite user_space_in_user.
  destruct (negb (c_priv c) && negb (in_user a)); [reflexivity|]. cbn [fst snd ropt].
  unfold read_state, io_read. change sim.IO_START with IO_START.
  destruct (Z.leb_spec IO_START a) as [Hge|Hlt].
  - assert (a <? IO_START = false) as -> by lia.
    change (a_ireg (abs s)) with (s_ireg s).
    destruct (assoc (s_ireg s) a) as [r|].
    + destruct (c_track c); cbn; rewrite ?abs_upd_obs, abs_upd_mem, abs_mem_mset, ?mget_mset_same; destruct r; reflexivity.
    + change (a_devs (abs s)) with (s_devs s). rewrite Hio.
      destruct (dev_read e (nth_dev (s_devs s) (port_dev a)) a true) as [d' [v|]].
      * destruct (c_track c); cbn; rewrite ?abs_upd_obs, abs_upd_mem, abs_mem_mset, ?mget_mset_same; reflexivity.
      * destruct (c_track c); cbn; rewrite ?abs_upd_obs, ?amget_abs; reflexivity.
  - assert (a <? IO_START = true) as -> by lia.
    destruct (c_track c); cbn; rewrite ?abs_upd_obs, ?amget_abs; reflexivity.
Qed.

Lemma io_reg_store_abs s r v : abs (ireg_write s r v) = io_reg_store (abs s) r v.
Proof. destruct r; reflexivity. Qed.

Lemma abs_put a w c s : abs (put a w (mark_write a w c s)) = with_mem (abs s) (amset (a_mem (abs s)) a (w_data w)).
Proof. unfold put, mark_write. destruct (c_track c); rewrite abs_upd_mem, abs_mem_mset; reflexivity. Qed.

Lemma write_mem_refines e a w c s :
  c_strict c = false ->
  store e (c_priv c) a (w_data w) (abs s) = (abs (fst (write_mem e a w c s)), is_inl (snd (write_mem e a w c s))).
Proof.
  intros Hst. rewrite write_mem_eq. unfold store, may_store. rewrite user_space_in_user, Hst. cbn [negb orb].
  destruct (negb (c_priv c) && negb (in_user a)); [reflexivity|].
  change sim.IO_START with IO_START.
  destruct (Z.leb_spec IO_START a) as [Hge|Hlt].
  - assert (a <? IO_START = false) as -> by lia.
    unfold io_write. change (a_ireg (abs s)) with (s_ireg s). change (a_devs (abs s)) with (s_devs s).
    destruct (assoc (s_ireg s) a) as [r|]; [cbn [fst snd is_inl]; rewrite abs_put, io_reg_store_abs; reflexivity|].
    destruct (dev_write e (nth_dev (s_devs s) (port_dev a)) a (w_data w)) as [d' [|]]; cbn [fst snd is_inl]; rewrite ?abs_put; reflexivity.
  - assert (a <? IO_START = true) as -> by lia. cbn [fst snd is_inl]. rewrite abs_put. reflexivity.
Qed.
