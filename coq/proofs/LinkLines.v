(* LinkLines.v — C22 on the linker model: the linked object's line and label positions point at
   the same text as in the originating files. *)
From Coq Require Import ZArith List Bool Lia.
From Model Require Import Tree Bits Text SourceInfo Obj Link.
From Spec Require Import LinkSpec.
From Proofs Require Import TextFacts SourceInfoProofs LinkSyms LinkDebug LinkProofs.
Import ListNotations.
Open Scope Z_scope.

Definition LinkedDbg (a b r : objfile) (sa sb sr : symtab) (da db : debug_symbols) : Prop :=
  ObjInv a /\ ObjInv b /\ LinesFit a b /\ link a b = LOk r /\
  o_sym a = Some sa /\ o_sym b = Some sb /\ st_debug sa = Some da /\ st_debug sb = Some db /\ o_sym r = Some sr.
(* opens the nine conjuncts under the names the proofs below use *)
Ltac open_linked H := destruct H as (Ia & Ib & Hfit & Hlink & Ea & Eb & Da & Db & Er).

Lemma linked_lines a b r sa sb sr da db : LinkedDbg a b r sa sb sr da db ->
  lines_ok 0 (count_lines (ds_src da)) (o_blocks a) (ds_lines da) = true /\
  lines_ok 0 (count_lines (ds_src db)) (o_blocks b) (ds_lines db) = true /\
  (forall addr, img_at a addr = None \/ img_at b addr = None).
Proof.
  intro HL. open_linked HL.
  destruct (objinv_sym _ _ Ia Ea) as [_ _ _ _ A5]. destruct (objinv_sym _ _ Ib Eb) as [_ _ _ _ B5].
  rewrite Da in A5. rewrite Db in B5. split; [exact A5|]. split; [exact B5|].
  pose proof (link_spec a b Ia Ib) as S. rewrite Hlink in S. apply (lk_linkable S).
Qed.
Lemma linked_origin a b r sa sb sr da db : LinkedDbg a b r sa sb sr da db ->
  link_dbg sa sb = Some (st_debug sr) /\
  (forall e, In e (st_labels sr) -> In e (st_labels sa) \/ In e (shifted (src_shift sa sb) (st_labels sb))).
Proof.
  intro HL. open_linked HL. pose proof (link_spec a b Ia Ib) as S. rewrite Hlink in S.
  destruct (lk_origin S _ _ Ea Eb) as (sr' & Er' & K). rewrite Er in Er'. injection Er' as <-. exact K.
Qed.

Lemma linked_debug a b r sa sb sr da db : LinkedDbg a b r sa sb sr da db ->
  st_debug sr = Some (mkDebug (ds_lines da ++ shift_lines (count_lines (ds_src da)) (ds_lines db)) (ds_src da ++ [10] ++ ds_src db)).
Proof.
  intro HL. destruct (linked_lines _ _ _ _ _ _ _ _ HL) as (A5 & B5 & _).
  destruct (linked_origin _ _ _ _ _ _ _ _ HL) as (E2 & _). open_linked HL.
  unfold link_dbg in E2. rewrite Da, Db in E2.
  pose proof (debug_link_spec da db _ _ A5 B5) as DS. destruct (debug_link da db) as [d|]; [|discriminate].
  injection E2 as <-. subst d. reflexivity.
Qed.

Theorem linked_line_first a b r sa sb sr da db addr : LinkedDbg a b r sa sb sr da db ->
  img_at a addr <> None -> line_text_at sr addr = line_text_at sa addr.
Proof.
  intros HL Hc. pose proof (linked_debug _ _ _ _ _ _ _ _ HL) as LD.
  destruct (linked_lines _ _ _ _ _ _ _ _ HL) as (A5 & B5 & Dj). open_linked HL.
  unfold line_text_at. rewrite LD, Da. cbn [ds_lines ds_src].
  assert (Cb : img_blocks (o_blocks b) addr = None) by (rewrite <- img_at_blocks; destruct (Dj addr); [contradiction|assumption]).
  rewrite line_find_app, line_find_shift, (line_find_uncovered _ _ _ _ _ B5 Cb). cbn [option_map].
  destruct (line_find (ds_lines da) addr) as [ln|] eqn:E; [|reflexivity].
  destruct (line_find_bounds _ _ _ _ _ _ A5 E) as (Hb & _).
  rewrite lines_prefix by exact Hb. reflexivity.
Qed.

Theorem linked_line_second a b r sa sb sr da db addr : LinkedDbg a b r sa sb sr da db ->
  img_at b addr <> None ->
  line_text_at sr addr = option_map (fun p => (fst p + count_lines (ds_src da), snd p)) (line_text_at sb addr).
Proof.
  intros HL Hc. pose proof (linked_debug _ _ _ _ _ _ _ _ HL) as LD.
  destruct (linked_lines _ _ _ _ _ _ _ _ HL) as (A5 & B5 & Dj). open_linked HL.
  unfold line_text_at. rewrite LD, Db. cbn [ds_lines ds_src].
  assert (Ca : img_blocks (o_blocks a) addr = None) by (rewrite <- img_at_blocks; destruct (Dj addr); [assumption|contradiction]).
  rewrite line_find_app, line_find_shift, (line_find_uncovered _ _ _ _ _ A5 Ca).
  destruct (line_find (ds_lines db) addr) as [ln|] eqn:E; [|reflexivity].
  destruct (line_find_bounds _ _ _ _ _ _ B5 E) as (Hb & _). cbn [option_map fst snd].
  replace (ln + count_lines (ds_src da)) with (count_lines (ds_src da) + ln) by lia.
  rewrite lines_append by lia. reflexivity.
Qed.

Definition span_ok (src : str) (n : str) (d : symdata) : Prop :=
  0 <= sd_src_start d /\ sd_src_start d + byte_len n <= byte_len src /\
  upper (substr src (sd_src_start d) (sd_src_start d + byte_len n)) = n.

Lemma label_spans_ok_iff o st d : o_sym o = Some st -> st_debug st = Some d ->
  (label_spans_ok_b o = true <-> forall n x, In (n, x) (st_labels st) -> span_ok (ds_src d) n x).
Proof.
  intros E1 E2. unfold label_spans_ok_b. rewrite E1, E2, forallb_forall. split.
  - intros H n x Hin. specialize (H _ Hin). cbn [fst snd] in H.
    apply andb_true_iff in H. destruct H as (H & H3). apply andb_true_iff in H. destruct H as (H1 & H2).
    apply Z.leb_le in H1. apply Z.leb_le in H2. apply str_eqb_eq in H3. repeat split; assumption.
  - intros H (n, x) Hin. destruct (H _ _ Hin) as (H1 & H2 & H3). cbn [fst snd].
    apply andb_true_iff. split; [apply andb_true_iff; split; [apply Z.leb_le|apply Z.leb_le]; assumption|].
    apply str_eqb_eq. exact H3.
Qed.

Lemma span_ok_app_l p q n d : span_ok p n d -> span_ok (p ++ q) n d.
Proof.
  intros (H1 & H2 & H3). repeat split; [exact H1| |rewrite substr_app_l by exact H2; exact H3].
  rewrite byte_len_app. pose proof (byte_len_nonneg q). lia.
Qed.
Lemma span_ok_app_r p q n d : span_ok q n d -> byte_len (p ++ q) <= usize_max ->
  span_ok (p ++ q) n (shift_sym (byte_len p) d).
Proof.
  intros (H1 & H2 & H3) Hfit. pose proof (byte_len_nonneg p). pose proof (byte_len_nonneg n).
  unfold span_ok, shift_sym. cbn [sd_src_start]. rewrite byte_len_app in *. rewrite Z.min_l by lia. repeat split; [lia|lia|].
  replace (sd_src_start d + byte_len p + byte_len n) with (sd_src_start d + byte_len n + byte_len p) by lia.
  rewrite substr_app_r by exact H1. exact H3.
Qed.

Theorem linked_label_spans a b r sa sb sr da db : LinkedDbg a b r sa sb sr da db ->
  label_spans_ok_b a = true -> label_spans_ok_b b = true ->
  byte_len (ds_src da ++ [10] ++ ds_src db) <= usize_max ->
  label_spans_ok_b r = true.
Proof.
  intros HL La Lb SrcFit. pose proof (linked_debug _ _ _ _ _ _ _ _ HL) as LD.
  destruct (linked_origin _ _ _ _ _ _ _ _ HL) as (_ & Org). open_linked HL.
  apply (label_spans_ok_iff r sr _ Er LD). cbn [ds_src].
  pose proof (proj1 (label_spans_ok_iff a sa da Ea Da) La) as Sa.
  pose proof (proj1 (label_spans_ok_iff b sb db Eb Db) Lb) as Sb.
  (* a label of the result is a label of a, or one of b moved behind the source of a and its new line *)
  intros n x Hin. destruct (Org _ Hin) as [K|K].
  - apply span_ok_app_l. exact (Sa _ _ K).
  - apply in_shifted in K. destruct K as (bd & K & ->).
    assert (Sh : src_shift sa sb = byte_len (ds_src da ++ [10])).
    { unfold src_shift. rewrite Da, Db, byte_len_app. reflexivity. }
    rewrite Sh, app_assoc. apply span_ok_app_r; [exact (Sb _ _ K)|rewrite <- app_assoc; exact SrcFit].
Qed.
