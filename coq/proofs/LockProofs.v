(* LockProofs.v — C33: what GETC / OUT deliver under lock contention.  A lock pattern is a schedule [sc : nat -> env],
   one lock state per instruction (the model's granularity).  Polling loops by induction on the polls that find the
   lock held; the data access comes 2 (KBDR read) resp. 4 (DDR write) instructions after the free poll, and the
   patterns that hold the lock again then (lock bit = true below) are "the known class" of props/C33.v. *)
From Coq Require Import ZArith List Bool Lia FMapPositive.
From Gen Require Import Constants OsImage.
From Model Require Import Tree Bits Word Instr Sim Load.
From Proofs Require Import SimHoare PsrBits SimAccess SimStep OsProofs OsContracts.
Import ListNotations.
Open Scope Z_scope.

Lemma first_free : forall n (locked : nat -> bool), locked n = false ->
  exists d, (forall i, (i < d)%nat -> locked i = true) /\ locked d = false.
Proof.
  induction n as [|n IH]; intros locked H.
  - exists O. split; [intros i Hi; lia | exact H].
  - destruct (locked O) eqn:E.
    + destruct (IH (fun i => locked (S i)) H) as (d & Hl & Hf). exists (S d). split; [|exact Hf].
      intros [|i] Hi; [exact E | apply Hl; lia].
    + exists O. split; [intros i Hi; lia | exact E].
Qed.

(* polls at t+1, t+3, …; the KBDR read at t+2d+3 *)
Definition getc_pattern (sc : sched) (t d : nat) (lockr : bool) : Prop :=
  (forall i, (i < d)%nat -> kb_locked_at sc (t + 1 + 2 * i) = true) /\
  kb_locked_at sc (t + 1 + 2 * d) = false /\ kb_locked_at sc (t + 2 * d + 3) = lockr.
Definition out_pattern (sc : sched) (t d : nat) (lockw : bool) : Prop :=
  (forall i, (i < d)%nat -> ds_locked_at sc (t + 3 + 2 * i) = true) /\
  ds_locked_at sc (t + 3 + 2 * d) = false /\ ds_locked_at sc (t + 2 * d + 7) = lockw.

Lemma getc_pattern_exists sc t n : kb_locked_at sc (t + 1 + 2 * n) = false ->
  exists d, getc_pattern sc t d (kb_locked_at sc (t + 2 * d + 3)).
Proof.
  intros H. destruct (first_free n (fun i => kb_locked_at sc (t + 1 + 2 * i)) H) as (d & Hl & Hf).
  exists d. repeat split; assumption.
Qed.
Lemma out_pattern_exists sc t n : ds_locked_at sc (t + 3 + 2 * n) = false ->
  exists d, out_pattern sc t d (ds_locked_at sc (t + 2 * d + 7)).
Proof.
  intros H. destruct (first_free n (fun i => ds_locked_at sc (t + 3 + 2 * i)) H) as (d & Hl & Hf).
  exists d. repeat split; assumption.
Qed.

(* inside the class (lockr = true) the stale mirror word of KBDR is returned and nothing consumed *)
Theorem getc_under_locks s sp ch q buf sc t d lockr :
  user_ready s sp (ch :: q) buf -> OS_END + 2 <= sp <= USER_START ->
  mget (s_mem s) (s_pc s) = new_init 61472 ->
  getc_pattern sc t d lockr ->
  exists s', run sc t (2 * d + 5) s = (s', OOk) /\ s_pc s' = wrap16 (s_pc s + 1) /\
             (exists r1 r2 r3 r4 r5 r6 r7 x0, s_regs s = [x0; r1; r2; r3; r4; r5; r6; r7] /\
                s_regs s' = [if lockr then mget (s_mem s) KBDR else new_init ch; r1; r2; r3; r4; r5; r6; r7]) /\
             s_devs s' = kdevs (if lockr then ch :: q else q) buf /\
             mget (s_mem s') KBDR = (if lockr then mget (s_mem s) KBDR else new_init ch) /\
             same_user_view s s'.
Proof.
  intros Hur Hsp Hw (Hl & Hf & Hlr). unfold OS_END, USER_START, sim.USER_START in Hsp.
  as_st Hur.
  apply t_exact. apply (a_run _ _ sp); [exact Hos|].
  apply getc_call with (sp := sp) (lockr := lockr) (d := d); try assumption; [apply Htrap; [lia | exact Hw] | ].
  intros t' Ht'. apply a_0. intros m' T' Hm'. split; [exact Ht'|]. split; [reflexivity|].
  split; [exists r1, r2, r3, r4, r5, r6, r7, r0; split; reflexivity|]. split; [reflexivity|].
  split; [exact (proj2 (proj2 Hm')) | eapply view_of_sim; [exact Hm' | lia]].
Qed.

Theorem out_under_locks s sp q buf sc t d lockw :
  user_ready s sp q buf -> OS_END + 3 <= sp <= USER_START ->
  mget (s_mem s) (s_pc s) = new_init 61473 ->
  out_pattern sc t d lockw ->
  exists s', run sc t (2 * d + 9) s = (s', OOk) /\ s_pc s' = wrap16 (s_pc s + 1) /\ s_regs s' = s_regs s /\
             s_devs s' = kdevs q (if lockw then buf else buf ++ [w_data (rget (s_regs s) 0) mod 256]) /\
             same_user_view s s'.
Proof.
  intros Hur Hsp Hw (Hl & Hf & Hlw). unfold OS_END, USER_START, sim.USER_START in Hsp.
  as_st Hur.
  apply t_exact. apply (a_run _ _ sp); [exact Hos|].
  apply putc_call with (sp := sp) (lockw := lockw) (d := d); try assumption; [apply Htrap; [lia | exact Hw] | ].
  apply a_return. lia.
Qed.

Definition psr16 (p : Z) : Prop := 0 <= p < 65536.
(* x3001 GETC ; x3002 OUT ; x3003 ADD R1,R1,#-1 ; x3004 BRp x3001 ; x3005 ... *)
Definition echo_prog (m : mem) : Prop :=
  mget m 12289 = new_init 61472 /\ mget m 12290 = new_init 61473 /\ mget m 12291 = new_init 4735 /\ mget m 12292 = new_init 1020.

(* (polls before GETC's free poll, lock at KBDR read, polls before OUT's free poll, lock at DDR write) *)
Notation call := (nat * bool * nat * bool)%type.
(* GETC, OUT, and 2 for ADD and BRp *)
Definition iter_len (c : call) : nat := let '(dg, _, dw, _) := c in ((2 * dg + 5) + (2 * dw + 9) + 2)%nat.
Fixpoint total_len (cs : list call) : nat := match cs with [] => O | c :: r => (iter_len c + total_len r)%nat end.
Fixpoint matches (sc : sched) (t : nat) (cs : list call) : Prop :=
  match cs with
  | [] => True
  | (dg, lr, dw, lw) :: r =>
      getc_pattern sc t dg lr /\ out_pattern sc (t + (2 * dg + 5)) dw lw /\ matches sc (t + iter_len (dg, lr, dw, lw)) r
  end.
(* what is delivered: (last word read from KBDR, remaining queue, display) *)
Fixpoint echo_spec (cs : list call) (stale : word) (q buf : list Z) : word * list Z * list Z :=
  match cs with
  | [] => (stale, q, buf)
  | (_, lr, _, lw) :: r =>
      match q with
      | [] => (stale, q, buf)
      | ch :: q0 =>
          let v := if lr then stale else new_init ch in
          echo_spec r v (if lr then q else q0) (if lw then buf else buf ++ [w_data v mod 256])
      end
  end.

(* [length cs] <= 32767: R1 has to stay positive as a signed 16-bit value for BRp *)
Lemma echo_loop K sc m Post : forall cs t kd a0 r2 r3 r4 r5 r6 r7 psr sp F T q buf,
  (1 <= length cs)%nat -> Z.of_nat (length cs) <= 32767 -> (length cs <= length q)%nat ->
  echo_prog m -> psr16 psr -> psr_privileged psr = false -> 1027 <= sp <= 12288 -> f_ssp F = new_init sp -> 0 <= f_fno F ->
  matches sc t cs ->
  (forall t' psr', t' = (t + total_len cs)%nat ->
     aruns sc t' sp (fst (fst (echo_spec cs kd q buf)))
       (st K m [fst (fst (echo_spec cs kd q buf)); new_init 0; r2; r3; r4; r5; r6; r7] 12293 psr' F T
           (snd (fst (echo_spec cs kd q buf))) (snd (echo_spec cs kd q buf))) Post) ->
  aruns sc t sp kd (st K m [a0; new_init (Z.of_nat (length cs)); r2; r3; r4; r5; r6; r7] 12289 psr F T q buf) Post.
Proof.
  induction cs as [|[[[dg lr] dw] lw] cs IH]; intros t kd a0 r2 r3 r4 r5 r6 r7 psr sp F T q buf Hn1 Hn2 Hq Hprog Hp16 Husr Hsp Hssp Hfno Hmat Hk.
  - cbn in Hn1. lia.
  - destruct q as [|ch q0]; [cbn in Hq; lia|].
    cbn [matches] in Hmat. destruct Hmat as ((Hg1 & Hg2 & Hg3) & (Hw1 & Hw2 & Hw3) & Hmat).
    pose proof Hprog as (Hp1 & Hp2 & Hp3 & Hp4).
    apply getc_call with (sp := sp) (lockr := lr) (d := dg); try assumption; try lia; [apply at_trap_user; assumption || lia | ].
    intros t1 Ht1. change (wrap16 (12289 + 1)) with 12290.
    set (v := if lr then kd else new_init ch) in *.
    apply putc_call with (sp := sp) (lockw := lw) (d := dw); try lia;
      [apply at_trap_user; assumption || lia | subst t1; assumption | subst t1; assumption | subst t1; assumption | ].
    intros t2 Ht2. change (wrap16 (12290 + 1)) with 12291.
    (* x3003 ADD R1,R1,#-1 ; x3004 BRp *)
    eapply a_user_step; [lia | lia | exact Hp3 | vm_compute; reflexivity | intros; apply exec_ADD | ].
    reg_eval. cbn [operand_of]. change (to_u16 (-1)) with 65535. cbn [length]. rewrite Nat2Z.inj_succ, w_add_new by (cbn [length] in Hn2; lia).
    change 65535 with (-1 mod 65536). rewrite wrap16_add by (cbn [length] in Hn2; lia). replace (Z.succ (Z.of_nat (length cs)) + -1) with (Z.of_nat (length cs)) by lia.
    cbn [w_data new_init]. change (wrap16 (12291 + 1)) with 12292.
    destruct (psr16_set_cc psr (cc_of (Z.of_nat (length cs))) Hp16 Husr) as [Hp16' Husr'].
    eapply a_user_step; [lia | lia | exact Hp4 | vm_compute; reflexivity | intros; apply exec_BR | ].
    rewrite psr_cc_set_cc, br_spec by (cbn [length] in Hn2; lia).
    change (wrap16 (wrap16 (12292 + 1) + -4)) with 12289. change (wrap16 (12292 + 1)) with 12293.
    assert (Hspec : echo_spec ((dg, lr, dw, lw) :: cs) kd (ch :: q0) buf =
                    echo_spec cs v (if lr then ch :: q0 else q0) (if lw then buf else buf ++ [w_data v mod 256])) by reflexivity.
    rewrite Hspec in Hk.
    destruct cs as [|c2 cs'].
    + (* last iteration *)
      cbn [length total_len iter_len echo_spec fst snd Z.of_nat] in *.
      change (negb (Z.land 1 (if 0 =? 0 then 2 else if 0 <? 32768 then 1 else 4) =? 0)) with false. cbv iota.
      apply Hk. lia.
    + assert (Hlen : 1 <= Z.of_nat (length (c2 :: cs')) <= 32766) by (cbn [length] in *; lia).
      replace (Z.of_nat (length (c2 :: cs')) =? 0) with false by (symmetry; apply Z.eqb_neq; lia).
      replace (Z.of_nat (length (c2 :: cs')) <? 32768) with true by (symmetry; apply Z.ltb_lt; lia). cbv iota.
      apply IH with (sp := sp); try assumption.
      * cbn [length]. lia.
      * lia.
      * destruct lr; cbn [length] in *; lia.
      * replace (S (S t2)) with (t + iter_len (dg, lr, dw, lw))%nat by (cbn [iter_len]; lia). exact Hmat.
      * intros t3 psr3 Ht3. apply Hk. cbn [total_len iter_len] in *. lia.
Qed.

Definition bits_free (cs : list call) : Prop := Forall (fun c => snd (fst (fst c)) = false /\ snd c = false) cs.

Lemma echo_spec_outside cs : forall stale q buf, bits_free cs -> length cs = length q ->
  snd (fst (echo_spec cs stale q buf)) = [] /\ snd (echo_spec cs stale q buf) = buf ++ map (fun c => c mod 256) q.
Proof.
  induction cs as [|[[[dg lr] dw] lw] cs IH]; intros stale q buf Hb Hl.
  - destruct q; [|discriminate]. cbn. rewrite app_nil_r. auto.
  - destruct q as [|ch q]; [discriminate|]. inversion Hb as [|x y [Hx1 Hx2] Hy]; subst. cbn in Hx1, Hx2. subst lr lw.
    cbn [echo_spec]. cbn [length] in Hl. destruct (IH (new_init ch) q (buf ++ [w_data (new_init ch) mod 256]) Hy ltac:(lia)) as [H1 H2].
    split; [exact H1|]. rewrite H2. cbn [map w_data new_init]. rewrite <- app_assoc. reflexivity.
Qed.

Definition eventually_free (sc : sched) : Prop := exists T, forall t, (T <= t)%nat -> kb_locked_at sc t = false /\ ds_locked_at sc t = false.

Theorem echo_under_locks s sp q buf sc t cs :
  user_ready s sp q buf -> OS_END + 3 <= sp <= USER_START -> psr16 (s_psr s) ->
  s_pc s = 12289 -> echo_prog (s_mem s) ->
  rget (s_regs s) 1 = new_init (Z.of_nat (length cs)) ->
  (1 <= length cs)%nat -> Z.of_nat (length cs) <= 32767 -> (length cs <= length q)%nat ->
  matches sc t cs ->
  exists s', run sc t (total_len cs) s = (s', OOk) /\ s_pc s' = 12293 /\
             s_devs s' = kdevs (snd (fst (echo_spec cs (mget (s_mem s) KBDR) q buf))) (snd (echo_spec cs (mget (s_mem s) KBDR) q buf)) /\
             rget (s_regs s') 0 = fst (fst (echo_spec cs (mget (s_mem s) KBDR) q buf)) /\
             (forall a, in_user a = true -> mget (s_mem s') a = mget (s_mem s) a) /\ os_mem (s_mem s').
Proof.
  intros Hur Hsp Hp16 Hpc Hprog Hr1 Hn1 Hn2 Hq Hmat. unfold OS_END, USER_START, sim.USER_START in Hsp.
  pose proof (ur_user _ _ _ _ Hur) as Husr. pose proof (ur_ssp _ _ _ _ Hur) as Hssp. pose proof (ur_fno _ _ _ _ Hur) as Hfno.
  as_st Hur.
  cbn [s_pc s_psr s_mem s_regs s_saved_sp s_frame_no st] in *. change (rget [r0; r1; r2; r3; r4; r5; r6; r7] 1) with r1 in Hr1. subst r1 pc.
  apply t_exact. apply (a_run _ _ sp); [exact Hos|].
  apply echo_loop with (sp := sp); try assumption.
  intros t' psr' Ht'. apply a_0. intros m' T' Hm'.
  split; [exact Ht'|]. split; [reflexivity|]. split; [reflexivity|]. split; [reflexivity|].
  split; [apply (ms_user sp _ _ _ ltac:(lia) Hm') | exact (proj1 Hm')].
Qed.

(* the harness program `getc_out` for one byte: x3000 LD R1,CNT ; GETC ; OUT ; ADD R1,R1,#-1 ; BRp x3001 ; HALT ; CNT .fill 1 *)
Definition wit_state : sim :=
  user_machine (mkFlags false false false false) 0 (repeat (new_init 0) 8) 12288 32770
    [(12288, new_init 8709); (12289, new_init 61472); (12290, new_init 61473); (12291, new_init 4735);
     (12292, new_init 1020); (12293, new_init 61477); (12294, new_init 1)] [65] [].
Definition free_env : env := mkEnv false false [].
(* instruction 4: the KBDR read that follows the ready KBSR poll of instruction 2 *)
Definition wit_kb : sched := fun t => if Nat.eqb t 4 then mkEnv true false [] else free_env.
(* instruction 13: the DDR write that follows the ready DSR poll of instruction 9 *)
Definition wit_ds : sched := fun t => if Nat.eqb t 13 then mkEnv false true [] else free_env.

Lemma wit_kb_eventually_free : eventually_free wit_kb.
Proof. exists 5%nat. intros t Ht. unfold kb_locked_at, ds_locked_at, wit_kb. replace (Nat.eqb t 4) with false by (symmetry; apply Nat.eqb_neq; lia). split; reflexivity. Qed.
Lemma wit_ds_eventually_free : eventually_free wit_ds.
Proof. exists 14%nat. intros t Ht. unfold kb_locked_at, ds_locked_at, wit_ds. replace (Nat.eqb t 13) with false by (symmetry; apply Nat.eqb_neq; lia). split; reflexivity. Qed.

Lemma wit_free_run :
  let r := run (fun _ => free_env) 0 17 wit_state in
  snd r = OOk /\ s_pc (fst r) = 12293 /\ s_devs (fst r) = kdevs [] [65].
Proof. vm_compute. repeat split; reflexivity. Qed.
(* the stale word 0 is received, byte 65 stays queued, a spurious 0 is shown *)
Lemma wit_kb_run :
  let r := run wit_kb 0 17 wit_state in
  snd r = OOk /\ s_pc (fst r) = 12293 /\ s_devs (fst r) = kdevs [65] [0] /\ rget (s_regs (fst r)) 0 = new_init 0.
Proof. vm_compute. repeat split; reflexivity. Qed.
(* byte 65 is received but never shown *)
Lemma wit_ds_run :
  let r := run wit_ds 0 17 wit_state in
  snd r = OOk /\ s_pc (fst r) = 12293 /\ s_devs (fst r) = kdevs [] [] /\ rget (s_regs (fst r)) 0 = new_init 65.
Proof. vm_compute. repeat split; reflexivity. Qed.
