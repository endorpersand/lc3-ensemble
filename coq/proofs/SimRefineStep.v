(* SimRefineStep.v — C08: in non-strict mode one step of the model refines one step of the reference semantics
   under [abs], for every state with 16-bit registers and PC, every environment and flag combination. *)
From Coq Require Import ZArith List Lia.
From Model Require Import Bits Word Instr Sim IsaWire.
From Spec Require Import IsaSpec.
From Proofs Require Import SimHoare SimAccess IrqProofs SimMachine SimRefinePrims SimRefineExec.
Import ListNotations.
Open Scope Z_scope.

Lemma regs_ok_trap_ok i : regs_ok i -> trap_ok i.
Proof. destruct i; intros H; try exact Logic.I. exact H. Qed.

Inductive out_match : outcome -> sout -> Prop :=
| om_ok : out_match OOk SOk
| om_halt : out_match OHalt SHalt
| om_err e : out_match (OErr e) (SErr e).
Lemma out_match_of r o : sout_of r = Some o -> out_match (outcome_of r) o.
Proof. destruct r as [u|[ |x| ]]; intros E; inversion E; constructor. Qed.

Definition spec_fetch_exec (e : env) (a0 : astate) : astate * sout :=
  match load e (may_access_all a0) (a_pc a0) a0 with
  | (a1, None) => raise_exc AccessViolation a1
  | (a1, Some w) =>
      match decode w with
      | DOk i => execute e (a_pc a0) i (with_pc a1 (wrap16 (a_pc a1 + 1)))
      | DIllegalOpcode => raise_exc IllegalOpcode a1
      | _ => raise_exc InvalidInstrFormat a1
      end
  end.

(* the instruction counter is no part of the architectural state *)
Lemma ref_count (m : M unit) f s y fl :
  refines (m s) y fl -> refines ((m ;;; modify (fun s => upd_instrs s (f s))) s) y fl.
Proof.
  intros (o & E & Y & F). rewrite run_bind. destruct (m s) as [s1 [[]|b]]; exists o; repeat split; assumption.
Qed.

Lemma fetch_exec_refines e s :
  lax s -> wf_regs s -> 0 <= s_pc s < 65536 ->
  refines (fetch_exec e s) (spec_fetch_exec e (abs s)) (s_flags s).
Proof.
  intros H W Hpc. unfold fetch_exec, spec_fetch_exec. rewrite run_bind, run_get.
  change (a_pc (abs s)) with (s_pc s).
  apply ref_read; [reflexivity|reflexivity|]. intros w s1 F _ R C.
  assert (L1 : lax s1) by (eapply lax_flags; eauto).
  rewrite H. unfold get_if_init. cbn [negb orb of_opt]. rewrite run_bind, run_ret, run_bind.
  unfold decode_m. pose proof (decode_spec (w_data w)) as DS.
  destruct (decode (w_data w)) as [i| | |]; try contradiction.
  2:{ exists (SErr IllegalOpcode). repeat split. exact F. }
  2:{ exists (SErr InvalidInstrFormat). repeat split. exact F. }
  rewrite run_ret, run_bind, offset_pc_lax by exact L1. rewrite run_bind, run_modify.
  set (s3 := upd_prefetch (upd_pc s1 (wrap16 (s_pc s1 + 1))) false).
  assert (W3 : wf_regs s3) by (unfold wf_regs, s3; cbn [s_regs upd_prefetch upd_pc]; rewrite R; exact W).
  pose proof (exec_ref e i s3 L1 W3 eq_refl (regs_ok_trap_ok i DS)) as X.
  assert (P3 : wrap16 (s_pc s3 - 1) = s_pc s).
  { unfold s3. cbn [s_pc upd_prefetch upd_pc]. rewrite C. apply wrap16_succ_pred. exact Hpc. }
  rewrite P3 in X. apply ref_count. rewrite <- F. exact X.
Qed.

Lemma step_inner_refines e s :
  lax s -> wf_regs s -> 0 <= s_pc s < 65536 ->
  refines (step_inner e s) (inner_step e (abs s)) (s_flags s).
Proof.
  intros H W Hpc. rewrite step_inner_cases. unfold inner_step, pending, after_poll.
  change (a_devs (abs s)) with (s_devs s).
  pose proof (poll_all_spec e (s_devs s) (e_draws e) None) as PS.
  destruct (poll_all e (s_devs s) (e_draws e) None) as [[ds i] rest]. cbn [fst snd] in *.
  injection PS as <- _.
  set (s1 := upd_devs (upd_prefetch s true) ds).
  pose proof (fetch_exec_refines e s1 H W Hpc) as FE.
  destruct i as [[vect prio|]|].
  - change (Z.land (Z.shiftr (a_psr (with_devs (abs s) ds)) 8) 7) with (psr_priority (s_psr s)).
    destruct (Z.ltb_spec (psr_priority (s_psr s)) prio) as [Hlt|Hge]; [|exact FE].
    exact (handle_interrupt_ref e (256 + vect) (Some prio) s1 H Hlt).
  - exists (SErr InterruptErr). repeat split.
  - exact FE.
Qed.

Definition spec_vector (o : sout) : option Z :=
  match o with SErr which => exception_vector which | SHalt => Some 37 | SOk => None end.
Lemma redirect_spec r o : sout_of r = Some o -> redirect r = spec_vector o.
Proof. destruct r as [u|[ |x| ]]; try destruct x; intros E; inversion E; reflexivity. Qed.

Theorem step_refines e s :
  lax s -> wf_regs s -> 0 <= s_pc s < 65536 ->
  refines (step e s) (spec_step e (abs s)) (s_flags s).
Proof.
  intros H W Hpc. rewrite step_eq. unfold spec_step.
  pose proof (step_inner_refines e s H W Hpc) as SI.
  destruct (step_inner e s) as [s1 r]. destruct SI as (o & B & I1 & F1). cbn [fst snd] in *. rewrite I1.
  change (a_real (abs s1)) with (fl_real (s_flags s1)).
  destruct (fl_real (s_flags s1)) eqn:R.
  2:{ exists o. repeat split; assumption. }
  rewrite (redirect_spec r o B).
  assert (SV : match o with
               | SErr which => match exception_vector which with Some v => enter e v None (abs s1) | None => (abs s1, o) end
               | SHalt => enter e 37 None (abs s1)
               | SOk => (abs s1, o)
               end = match spec_vector o with Some v => enter e v None (abs s1) | None => (abs s1, o) end)
    by (destruct o; reflexivity).
  rewrite SV. destruct (spec_vector o) as [v|]; [|exists o; repeat split; assumption].
  rewrite <- F1. apply handle_interrupt_ref; [eapply lax_flags; eauto|rewrite R; reflexivity].
Qed.
