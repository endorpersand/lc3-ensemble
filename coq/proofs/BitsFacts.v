(* BitsFacts.v — 16-bit arithmetic of model/Bits.v: [wrap16], [to_i16], ranges of [Z.land] / [Z.lor]. *)
From Coq Require Import ZArith Lia.
From Model Require Import Bits.
Open Scope Z_scope.

Lemma wrap16_small z : 0 <= z < 65536 -> wrap16 z = z.
Proof. apply Z.mod_small. Qed.
Lemma wrap16_range z : 0 <= wrap16 z < 65536.
Proof. unfold wrap16. apply Z.mod_pos_bound. reflexivity. Qed.
Lemma wrap16_succ_pred x : 0 <= x < 65536 -> wrap16 (wrap16 (x + 1) - 1) = x.
Proof.
  intros H. unfold wrap16. destruct (Z.eq_dec x 65535) as [->|Hne]; [reflexivity|].
  rewrite (Z.mod_small (x + 1)) by lia. replace (x + 1 - 1) with x by lia. apply Z.mod_small. lia.
Qed.
Lemma wrap16_add x k : 0 <= x + k < 65536 -> wrap16 (x + (k mod 65536)) = x + k.
Proof. intros H. unfold wrap16. rewrite Z.add_mod_idemp_r by lia. apply Z.mod_small. exact H. Qed.
Lemma wrap16_pred_ne x : wrap16 (x - 1) <> wrap16 (x - 2).
Proof. unfold wrap16. pose proof (Z.mod_pos_bound (x - 1) 65536 eq_refl). pose proof (Z.mod_pos_bound (x - 2) 65536 eq_refl).
  pose proof (Z.div_mod (x - 1) 65536). pose proof (Z.div_mod (x - 2) 65536). lia. Qed.

Lemma to_i16_range z : -32768 <= to_i16 z < 32768.
Proof.
  unfold to_i16, wrap16. pose proof (Z.mod_pos_bound z 65536 eq_refl).
  destruct (z mod 65536 <? 32768) eqn:E; lia.
Qed.

Lemma to_i16_mod z : to_i16 z mod 65536 = z mod 65536.
Proof.
  unfold to_i16, wrap16. destruct (z mod 65536 <? 32768); [apply Z.mod_mod; lia|].
  replace (z mod 65536 - 65536) with (z mod 65536 + (-1) * 65536) by lia. rewrite Z_mod_plus_full. apply Z.mod_mod. lia.
Qed.

Lemma land_lt16 a m : 0 <= m < 65536 -> 0 <= Z.land a m < 65536.
Proof.
  intros H. rewrite <- (Z.mod_small m 65536) by exact H. change 65536 with (2 ^ 16).
  rewrite <- Z.land_ones, Z.land_assoc, Z.land_ones by lia. apply Z.mod_pos_bound. reflexivity.
Qed.
Lemma lor_lt16 a b : 0 <= a < 65536 -> 0 <= b < 65536 -> 0 <= Z.lor a b < 65536.
Proof.
  intros Ha Hb. rewrite <- (Z.mod_small a 65536), <- (Z.mod_small b 65536) by assumption. change 65536 with (2 ^ 16).
  rewrite <- !Z.land_ones, <- Z.land_lor_distr_l, Z.land_ones by lia. apply Z.mod_pos_bound. reflexivity.
Qed.
Lemma land7_range c : 0 <= Z.land c 7 < 8.
Proof. change 7 with (Z.ones 3). rewrite Z.land_ones by lia. apply Z.mod_pos_bound. reflexivity. Qed.
