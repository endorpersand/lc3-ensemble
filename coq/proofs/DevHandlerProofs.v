(* DevHandlerProofs.v — model/DevHandler.v against the port table of spec/PortSpec.v (C32), in three
   parts: the handler alone, the bus against the table, histories. *)
From Coq Require Import ZArith List Bool Lia Sorted.
From Gen Require Import Constants.
From Model Require Import DevHandler.
From Spec Require Import PortSpec.
From Proofs Require Import ListFacts.
Import ListNotations.
Open Scope Z_scope.

Lemma IO_START_val : IO_START = 65024. Proof. reflexivity. Qed.
Lemma is_io_iff a : is_io a = true <-> 65024 <= a <= 65535.
Proof. unfold is_io. rewrite IO_START_val, andb_true_iff, !Z.leb_le. tauto. Qed.
Lemma is_io_false a : is_io a = false <-> ~ (65024 <= a <= 65535).
Proof. rewrite <- is_io_iff. symmetry. apply not_true_iff_false. Qed.

Lemma set_nth_length {A} (x : A) : forall l k, length (set_nth k x l) = length l.
Proof. induction l as [|a l IH]; intros [|k]; cbn [set_nth length]; auto. Qed.
Lemma set_nth_same {A} (x : A) : forall l k, (k < length l)%nat -> nth_error (set_nth k x l) k = Some x.
Proof.
  induction l as [|a l IH]; intros [|k] H; cbn [set_nth length nth_error] in *; try lia; auto.
  apply IH. lia.
Qed.
Lemma set_nth_other {A} (x : A) : forall l k j, j <> k -> nth_error (set_nth k x l) j = nth_error l j.
Proof.
  induction l as [|a l IH]; intros [|k] [|j] H; cbn [set_nth nth_error]; try congruence; auto.
Qed.

Lemma mem_z_in p l : mem_z p l = true <-> In p l.
Proof.
  unfold mem_z. rewrite existsb_exists. split.
  - intros (x & Hx & E). apply Z.eqb_eq in E. subst. exact Hx.
  - intros H. exists p. split; [exact H|apply Z.eqb_refl].
Qed.

(* the handler alone: [h_inv] keeps every `self.devices[i]` in range *)
Section Handler.
Context {D : Type}.
Implicit Types h hh : handler D.

Lemma slot_as_nth h id : 0 <= id -> slot h id = nth_error (h_devs h) (Z.to_nat id).
Proof. intros H. unfold slot. destruct (Z.ltb_spec id 0); [lia | reflexivity]. Qed.
Lemma slot_some h id x : slot h id = Some x -> 0 <= id < dev_len h.
Proof.
  unfold slot, dev_len. destruct (Z.ltb_spec id 0); [discriminate|].
  intros E. assert (Hn : nth_error (h_devs h) (Z.to_nat id) <> None) by congruence.
  apply nth_error_Some in Hn. lia.
Qed.
Lemma slot_in_range h id : 0 <= id < dev_len h -> exists x, slot h id = Some x.
Proof.
  unfold dev_len. intros H. rewrite slot_as_nth by lia.
  destruct (nth_error (h_devs h) (Z.to_nat id)) eqn:E; [eauto|]. apply nth_error_None in E. lia.
Qed.

(* [inv_kb], [inv_ds] are iff: ONLY those ports carry the ids 1 and 2, so removing the keyboard or
   the display frees nothing *)
Record h_inv h : Prop := mk_h_inv {
  inv_len : 3 <= dev_len h <= 65536;                       (* slots 0,1,2 exist; ids fit u16 *)
  inv_null : nth_error (h_devs h) 0 = Some None;           (* slot 0 is the null device *)
  inv_range : forall p, 0 <= h_ports h p < dev_len h;       (* every mapped id is a slot *)
  inv_io : forall p, is_io p = false -> h_ports h p = 0;    (* only I/O addresses are mapped *)
  inv_kb : forall p, h_ports h p = 1 <-> (p = 65024 \/ p = 65026);   (* keyboard ports reserved, only they *)
  inv_ds : forall p, h_ports h p = 2 <-> (p = 65028 \/ p = 65030)    (* display ports reserved, only they *)
}.

Lemma new_handler_ports p :
  h_ports (new_handler D) p =
  if p =? 65030 then 2 else if p =? 65028 then 2 else if p =? 65026 then 1 else if p =? 65024 then 1 else 0.
Proof. reflexivity. Qed.
Lemma new_handler_devs : h_devs (new_handler D) = [None; None; None].
Proof. reflexivity. Qed.

Lemma new_handler_inv : h_inv (new_handler D).
Proof.
  split; unfold dev_len; rewrite ?new_handler_devs; cbn [length]; [lia | reflexivity | ..];
    intros p; rewrite new_handler_ports; try (intros Hp; apply is_io_false in Hp);
    destruct (Z.eqb_spec p 65030), (Z.eqb_spec p 65028), (Z.eqb_spec p 65026), (Z.eqb_spec p 65024); lia.
Qed.

Lemma dev_len_snoc h h' d : h_devs h' = h_devs h ++ [d] -> dev_len h' = dev_len h + 1.
Proof. unfold dev_len. intros ->. rewrite app_length. cbn [length]. lia. Qed.

Lemma set_port_devs h p id : h_devs (set_port h p id) = h_devs h.
Proof. unfold set_port. destruct (is_io p && (h_ports h p =? 0) && (id <? dev_len h)); reflexivity. Qed.

Lemma set_port_ports h p id q :
  h_ports (set_port h p id) q =
  if (q =? p) && (is_io p && (h_ports h p =? 0) && (id <? dev_len h)) then id else h_ports h q.
Proof.
  unfold set_port, upd. destruct (is_io p && (h_ports h p =? 0) && (id <? dev_len h)); cbn [h_ports].
  - rewrite andb_true_r. reflexivity.
  - rewrite andb_false_r. reflexivity.
Qed.

Lemma port_free_iff h p : port_free h p = true <-> is_io p = true /\ h_ports h p = 0.
Proof.
  unfold port_free, get_dev_id. destruct (is_io p).
  - rewrite Z.eqb_eq. tauto.
  - split; [discriminate|intros [H _]; discriminate].
Qed.

Lemma fold_set_port id : forall addrs (hh : handler D), id < dev_len hh -> id <> 0 ->
  (forall p, In p addrs -> is_io p = true /\ (h_ports hh p = 0 \/ h_ports hh p = id)) ->
  h_devs (fold_left (fun x p => set_port x p id) addrs hh) = h_devs hh /\
  forall q, h_ports (fold_left (fun x p => set_port x p id) addrs hh) q =
            if mem_z q addrs then id else h_ports hh q.
Proof.
  induction addrs as [|p rest IH]; intros hh Hlt Hnz Hall.
  - split; reflexivity.
  - cbn [fold_left].
    destruct (Hall p (or_introl eq_refl)) as [Hio Hp].
    destruct (IH (set_port hh p id)) as [Hd Hq].
    + unfold dev_len in *. rewrite set_port_devs. exact Hlt.
    + exact Hnz.
    + intros p' Hin. destruct (Hall p' (or_intror Hin)) as [Hio' Hp']. split; [exact Hio'|].
      rewrite set_port_ports. destruct ((p' =? p) && _); [right; reflexivity|exact Hp'].
    + split; [rewrite Hd; apply set_port_devs|].
      intros q. rewrite Hq. unfold mem_z. cbn [existsb]. fold (mem_z q rest).
      destruct (mem_z q rest); [rewrite orb_true_r; reflexivity|]. rewrite orb_false_r.
      rewrite set_port_ports. destruct (Z.eqb_spec q p) as [->|]; cbn [andb]; [|reflexivity].
      rewrite Hio. cbn [andb]. destruct (Z.ltb_spec id (dev_len hh)); [|lia].
      destruct Hp as [->| ->]; [reflexivity|]. destruct (Z.eqb_spec id 0); [lia | reflexivity].
Qed.

Record added h (d : option D) (addrs : list Z) h' : Prop := mk_added {
  added_inv : h_inv h';
  added_devs : h_devs h' = h_devs h ++ [d];
  added_ports : forall q, h_ports h' q = if mem_z q addrs then dev_len h else h_ports h q
}.

Lemma add_device_cases h d addrs : h_inv h ->
  if (dev_len h <=? 65535) && forallb (port_free h) addrs
  then exists h', add_device h d addrs = (h', Some (dev_len h)) /\ added h d addrs h'
  else add_device h d addrs = (h, None).
Proof.
  intros Hi. unfold add_device. pose proof (inv_len _ Hi) as Hlen.
  destruct (Z.leb_spec (dev_len h) 65535); cbn [andb]; [|reflexivity].
  destruct (forallb (port_free h) addrs) eqn:Hfree; [|reflexivity].
  assert (Hf : forall q, mem_z q addrs = true -> is_io q = true /\ h_ports h q = 0).
  { intros q Hq. rewrite forallb_forall in Hfree. apply mem_z_in, Hfree, port_free_iff in Hq. exact Hq. }
  destruct (fold_set_port (dev_len h) addrs (mk_handler (h_devs h ++ [d]) (h_ports h))) as [Hd Hq].
  - unfold dev_len. cbn [h_devs]. rewrite app_length. cbn [length]. lia.
  - lia.
  - intros p Hin. apply mem_z_in, Hf in Hin. destruct Hin. auto.
  - eexists. split; [reflexivity|]. cbn [h_devs h_ports] in Hd, Hq.
    set (h' := fold_left _ addrs _) in *. split; [|exact Hd|exact Hq].
    pose proof (dev_len_snoc h h' d Hd) as Hl.
    (* a requested port was free (entry 0), so it was neither a keyboard nor a display port *)
    destruct Hi as [H1 H2 H3 H4 H5 H6]. split.
    + lia.
    + rewrite Hd. destruct (h_devs h); [discriminate H2|exact H2].
    + intros p. rewrite Hq, Hl. specialize (H3 p). destruct (mem_z p addrs); lia.
    + intros p Hp. rewrite Hq. destruct (mem_z p addrs) eqn:Em; [|apply H4, Hp].
      destruct (Hf p Em) as [Hio _]. congruence.
    + intros p. rewrite Hq. destruct (mem_z p addrs) eqn:Em; [|apply H5].
      destruct (Hf p Em) as [_ Hz]. rewrite <- H5, Hz. lia.
    + intros p. rewrite Hq. destruct (mem_z p addrs) eqn:Em; [|apply H6].
      destruct (Hf p Em) as [_ Hz]. rewrite <- H6, Hz. lia.
Qed.

Record kept h h' : Prop := mk_kept {
  kept_inv : h_inv h';
  kept_ports : forall p, h_ports h' p = h_ports h p;
  kept_len : dev_len h' = dev_len h
}.

Lemma kept_refl h : h_inv h -> kept h h.
Proof. intros Hi. split; [exact Hi | reflexivity | reflexivity]. Qed.

Lemma kept_intro h l :
  h_inv h -> length l = length (h_devs h) -> nth_error l 0 = Some None -> kept h (mk_handler l (h_ports h)).
Proof.
  intros [H1 H2 H3 H4 H5 H6] Hl Hn.
  assert (Hl' : dev_len (mk_handler l (h_ports h)) = dev_len h) by (unfold dev_len; cbn [h_devs]; rewrite Hl; reflexivity).
  split; [|reflexivity|exact Hl']. split; rewrite ?Hl'; assumption.
Qed.

Lemma set_nth_kept h k x : h_inv h -> k <> O -> kept h (mk_handler (set_nth k x (h_devs h)) (h_ports h)).
Proof.
  intros Hi Hk. apply kept_intro; [exact Hi | apply set_nth_length |].
  rewrite set_nth_other by congruence. apply Hi.
Qed.

Lemma set_slot_kept h id d : h_inv h -> 0 < id < 3 -> exists h', set_slot h id d = Some h' /\ kept h h'.
Proof.
  intros Hi Hid. destruct (slot_in_range h id) as [x Hx]; [pose proof (inv_len _ Hi); lia|].
  unfold set_slot. rewrite Hx. eexists. split; [reflexivity|]. apply set_nth_kept; [exact Hi | lia].
Qed.

Lemma is_fixed_false id : is_fixed id = false <-> id <> 0 /\ id <> 1 /\ id <> 2.
Proof.
  unfold is_fixed, NULL_DEV, KB_DEV, DS_DEV, sim_device.NULL_DEV, sim_device.KB_DEV, sim_device.DS_DEV.
  rewrite !orb_false_iff, !Z.eqb_neq. tauto.
Qed.

Lemma remove_device_ports h id : h_inv h -> forall p,
  h_ports (remove_device h id) p = if (3 <=? id) && (h_ports h p =? id) then 0 else h_ports h p.
Proof.
  intros Hi p. unfold remove_device. destruct (slot h id) as [x|] eqn:E.
  - cbn [h_ports]. destruct (Z.leb_spec 3 id); cbn [andb].
    + rewrite (proj2 (is_fixed_false id)) by lia. reflexivity.
    + apply slot_some in E. destruct (is_fixed id) eqn:F; [reflexivity|]. apply is_fixed_false in F. lia.
  - destruct (Z.eqb_spec (h_ports h p) id) as [<-|]; [|rewrite andb_false_r; reflexivity].
    destruct (slot_in_range h _ (inv_range _ Hi p)). congruence.
Qed.

Lemma remove_device_len h id : dev_len (remove_device h id) = dev_len h.
Proof. unfold dev_len, remove_device. destruct (slot h id); [cbn [h_devs]; rewrite set_nth_length|]; reflexivity. Qed.

Lemma remove_device_inv h id : h_inv h -> h_inv (remove_device h id).
Proof.
  intros Hi. pose proof (remove_device_ports h id Hi) as Hp.
  pose proof (remove_device_len h id) as Hl.
  assert (Hn : nth_error (h_devs (remove_device h id)) 0 = Some None).
  { unfold remove_device. destruct (slot h id) as [x|] eqn:E; [|apply Hi]. cbn [h_devs].
    apply slot_some in E. destruct (Z.to_nat id) as [|k] eqn:Ek.
    - apply set_nth_same. pose proof (inv_len _ Hi). unfold dev_len in *. lia.
    - rewrite set_nth_other by lia. apply Hi. }
  destruct Hi as [H1 H2 H3 H4 H5 H6].
  split; rewrite ?Hl; try assumption; intros p; rewrite Hp;
    destruct (Z.leb_spec 3 id), (Z.eqb_spec (h_ports h p) id); cbn [andb]; auto.
  - specialize (H3 p). lia.
  - rewrite <- H5. lia.
  - rewrite <- H6. lia.
Qed.

(* io_read and io_write of the handler have one shape: [f] the device's method, [none] the null
   device's answer *)
Definition io_slot {R} (f : D -> D * R) (none : R) h (a : Z) : option (handler D * R) :=
  match get_dev_id h a with
  | None => Some (h, none)
  | Some id =>
    match slot h id with
    | None => None
    | Some None => Some (h, none)
    | Some (Some d) =>
      let (d', r) := f d in Some (mk_handler (set_nth (Z.to_nat id) (Some d') (h_devs h)) (h_ports h), r)
    end
  end.

(* under the invariant the slot exists: no panic *)
Lemma io_slot_spec {R} (f : D -> D * R) none h a : h_inv h ->
  io_slot f none h a =
  Some (match (if is_io a then nth_error (h_devs h) (Z.to_nat (h_ports h a)) else None) with
        | Some (Some d) =>
          let (d', r) := f d in
          (mk_handler (set_nth (Z.to_nat (h_ports h a)) (Some d') (h_devs h)) (h_ports h), r)
        | _ => (h, none)
        end).
Proof.
  intros Hi. unfold io_slot, get_dev_id. destruct (is_io a); [|reflexivity].
  pose proof (inv_range _ Hi a) as Hr. destruct (slot_in_range h _ Hr) as [x Hx]. rewrite Hx.
  rewrite slot_as_nth in Hx by lia. rewrite Hx. destruct x as [d|]; [destruct (f d)|]; reflexivity.
Qed.

Lemma io_slot_kept {R} (f : D -> D * R) none h a : h_inv h ->
  exists h' r, io_slot f none h a = Some (h', r) /\ kept h h'.
Proof.
  intros Hi. rewrite (io_slot_spec f none h a Hi).
  destruct (if is_io a then _ else _) as [[d|]|] eqn:E; [destruct (f d) as [d' r]| |];
    eexists _, _; (split; [reflexivity|]); try apply (kept_refl _ Hi).
  apply set_nth_kept; [exact Hi|]. intros Ek. rewrite Ek, (inv_null _ Hi) in E.
  destruct (is_io a); discriminate.
Qed.

Lemma io_read_slot (ops : dev_ops D) h a eff :
  io_read ops h a eff = io_slot (fun d => d_read ops d a eff) None h a.
Proof. reflexivity. Qed.
Lemma io_write_slot (ops : dev_ops D) h a data :
  io_write ops h a data = io_slot (fun d => d_write ops d a data) false h a.
Proof. reflexivity. Qed.

Lemma map_kept (f : option D -> option D) h : h_inv h -> f None = None ->
  kept h (mk_handler (map f (h_devs h)) (h_ports h)).
Proof.
  intros Hi Hf. apply kept_intro; [exact Hi | apply map_length |].
  rewrite <- Hf. exact (map_nth_error f 0%nat (h_devs h) (inv_null _ Hi)).
Qed.

Lemma io_reset_kept ops h : h_inv h -> kept h (io_reset ops h).
Proof. intros Hi. apply (map_kept _ h Hi). reflexivity. Qed.

Lemma poll_devs_map ops : forall (l : list (option D)) best,
  fst (poll_devs ops l best) = map (fun x => match x with Some d => Some (fst (d_poll ops d)) | None => None end) l.
Proof.
  induction l as [|x r IH]; intros best; [reflexivity|]. cbn [poll_devs map]. destruct x as [d|].
  - destruct (d_poll ops d) as [d' i]. specialize (IH (match i with Some x => better best x | None => best end)).
    destruct (poll_devs ops r _) as [r' bb]. cbn [fst] in *. rewrite IH. reflexivity.
  - specialize (IH best). destruct (poll_devs ops r best) as [r' bb]. cbn [fst] in *. rewrite IH. reflexivity.
Qed.

Lemma poll_interrupt_kept ops h : h_inv h -> kept h (fst (poll_interrupt ops h)).
Proof.
  intros Hi. unfold poll_interrupt. pose proof (poll_devs_map ops (h_devs h) None) as E.
  destruct (poll_devs ops (h_devs h) None) as [l bb]. cbn [fst] in *. rewrite E.
  apply (map_kept _ h Hi). reflexivity.
Qed.
End Handler.

(* the bus against the port table; six of the ten operations leave the table alone *)
Section Refinement.
Context {D : Type}.
Implicit Types h : handler D.
Implicit Types b : bus D.

Lemma bus_read_kept ops b a eff : h_inv (b_h b) ->
  exists b' v, bus_read ops b a eff = Some (b', v) /\ b_imap b' = b_imap b /\ kept (b_h b) (b_h b').
Proof.
  intros Hi. pose proof (kept_refl _ Hi) as K0. unfold bus_read.
  destruct (IO_START <=? a); [|eauto 6]. destruct (imap_get (b_imap b) a); [eexists _, _; eauto|].
  rewrite io_read_slot. destruct (io_slot_kept (fun d => d_read ops d a eff) None _ a Hi) as (h' & r & -> & K).
  destruct r; eexists _, _; eauto.
Qed.

Lemma bus_write_kept ops b a data : h_inv (b_h b) ->
  exists b' v, bus_write ops b a data = Some (b', v) /\ b_imap b' = b_imap b /\ kept (b_h b) (b_h b').
Proof.
  intros Hi. pose proof (kept_refl _ Hi) as K0. unfold bus_write.
  destruct (IO_START <=? a); [|eexists _, _; eauto]. destruct (imap_get (b_imap b) a); [eexists _, _; eauto|].
  rewrite io_write_slot. destruct (io_slot_kept (fun d => d_write ops d a data) false _ a Hi) as (h' & r & -> & K).
  destruct r; eexists _, _; eauto.
Qed.

Lemma imap_get_remove (m : imap) a q :
  imap_get (imap_remove m a) q = if q =? a then None else imap_get m q.
Proof.
  induction m as [|[k r] m IH]; cbn [imap_remove imap_get]; [destruct (q =? a); reflexivity|].
  destruct (Z.eqb_spec k a) as [->|N].
  - rewrite IH, (Z.eqb_sym a q). destruct (q =? a); reflexivity.
  - cbn [imap_get]. rewrite IH. destruct (Z.eqb_spec k q) as [<-|]; [|reflexivity].
    rewrite (proj2 (Z.eqb_neq k a) N). reflexivity.
Qed.

Definition owner_of (id : Z) : owner :=
  if id =? 0 then Nobody else if id =? 1 then Keyboard else if id =? 2 then Display else Added id.

Record refines b (t : ptable ireg) : Prop := mk_refines {
  ref_reg : forall a, imap_get (b_imap b) a = pt_reg t a;
  ref_owner : forall p, owner_of (h_ports (b_h b) p) = pt_owner t p;
  ref_next : pt_next t = dev_len (b_h b)
}.

(* the registers mapped on a fresh machine: PSR at xFFFC, MCR at xFFFE *)
Definition regs0 : Z -> option ireg :=
  fun a => if a =? 65532 then Some RegPSR else if a =? 65534 then Some RegMCR else None.

Lemma new_bus_refines m0 : refines (new_bus D m0) (pt_init regs0).
Proof.
  split.
  - intros a. unfold new_bus, regs0. cbn [b_imap default_imap imap_get].
    change sim.PSR_ADDR with 65532. change sim.MCR_ADDR with 65534.
    rewrite (Z.eqb_sym 65532 a), (Z.eqb_sym 65534 a). reflexivity.
  - intros p. unfold new_bus. cbn [b_h]. rewrite new_handler_ports. unfold pt_init. cbn [pt_owner].
    destruct (Z.eqb_spec p 65030), (Z.eqb_spec p 65028), (Z.eqb_spec p 65026), (Z.eqb_spec p 65024);
      try reflexivity; lia.
  - reflexivity.
Qed.

Inductive sres := SAdd (r : option Z) | SMmap (e : option map_err) | SMunmap (ok : bool) | SQuiet.
Definition pt_step (t : ptable ireg) (o : bop D) : ptable ireg * sres :=
  match o with
  | BAdd _ addrs => let (t', r) := pt_add t addrs in (t', SAdd r)
  | BRemove id => (pt_remove t id, SQuiet)
  | BMmap a r => let (t', e) := pt_mmap t a r in (t', SMmap e)
  | BMunmap a => let (t', ok) := pt_munmap t a in (t', SMunmap ok)
  | _ => (t, SQuiet)
  end.
Fixpoint pt_run (t : ptable ireg) (l : list (bop D)) : ptable ireg * list sres :=
  match l with
  | [] => (t, [])
  | o :: r => let (t1, x) := pt_step t o in let (t2, xs) := pt_run t1 r in (t2, x :: xs)
  end.
Definition abstract (r : bres) : sres :=
  match r with
  | RAdd x => SAdd x
  | RMmap None => SMmap None
  | RMmap (Some NotInIORange) => SMmap (Some ErrNotIO)
  | RMmap (Some AddrAlreadyMapped) => SMmap (Some ErrMapped)
  | RMunmap ok => SMunmap ok
  | _ => SQuiet
  end.

Lemma owner_of_nobody v : nobody (owner_of v) = (v =? 0).
Proof. unfold owner_of. destruct (v =? 0); [reflexivity|]. destruct (v =? 1); [reflexivity|]. destruct (v =? 2); reflexivity. Qed.

Lemma owner_of_added id : 3 <= id -> owner_of id = Added id.
Proof.
  intros H. unfold owner_of.
  destruct (Z.eqb_spec id 0), (Z.eqb_spec id 1), (Z.eqb_spec id 2); try reflexivity; lia.
Qed.

Lemma owner_remove v id : 3 <= id ->
  match owner_of v with Added i => if i =? id then Nobody else Added i | o => o end =
  if v =? id then Nobody else owner_of v.
Proof.
  intros H. unfold owner_of.
  destruct (Z.eqb_spec v 0), (Z.eqb_spec v 1), (Z.eqb_spec v 2), (Z.eqb_spec v id); try reflexivity; lia.
Qed.

Lemma port_free_spec b t p : refines b t -> port_free (b_h b) p = io_addr p && nobody (pt_owner t p).
Proof.
  intros Hr. rewrite <- (ref_owner _ _ Hr), owner_of_nobody. change (io_addr p) with (is_io p).
  unfold port_free, get_dev_id. destruct (is_io p); reflexivity.
Qed.

Lemma can_add_spec b t addrs : refines b t ->
  (dev_len (b_h b) <=? 65535) && forallb (port_free (b_h b)) addrs = pt_can_add t addrs.
Proof.
  intros Hr. unfold pt_can_add. rewrite (ref_next _ _ Hr). f_equal.
  apply forallb_ext. intros p. apply port_free_spec, Hr.
Qed.

(* add_device against the table's own test *)
Lemma add_device_refines b t d addrs : h_inv (b_h b) -> refines b t ->
  if pt_can_add t addrs
  then exists h', add_device (b_h b) d addrs = (h', Some (pt_next t)) /\ added (b_h b) d addrs h'
  else add_device (b_h b) d addrs = (b_h b, None).
Proof.
  intros Hi Hr. rewrite <- (can_add_spec b t addrs Hr), (ref_next _ _ Hr). apply add_device_cases, Hi.
Qed.

Record step_ok (x : bus D * bres) (y : ptable ireg * sres) : Prop := mk_step_ok {
  so_inv : h_inv (b_h (fst x));
  so_ref : refines (fst x) (fst y);
  so_res : abstract (snd x) = snd y;
  so_live : snd x <> RPanic
}.
Record run_ok (x : bus D * list bres) (y : ptable ireg * list sres) : Prop := mk_run_ok {
  ro_inv : h_inv (b_h (fst x));
  ro_ref : refines (fst x) (fst y);
  ro_res : map abstract (snd x) = snd y;
  ro_live : ~ In RPanic (snd x)
}.

(* same register map, handler [kept]: the table is left alone *)
Lemma quiet_ok b b' t r :
  refines b t -> b_imap b' = b_imap b -> kept (b_h b) (b_h b') -> r <> RPanic ->
  step_ok (b', r) (t, abstract r).
Proof.
  intros [H1 H2 H3] Hm [Hi Hp Hl] Hn. split; [exact Hi | | reflexivity | exact Hn].
  split; cbn [fst]; [rewrite Hm | intros p; rewrite Hp | rewrite Hl]; auto.
Qed.

Lemma bus_eta b : mk_bus (b_imap b) (b_regs b) (b_h b) (b_mem b) = b.
Proof. destruct b. reflexivity. Qed.

Lemma bstep_refines ops b t o : h_inv (b_h b) -> refines b t -> step_ok (bstep ops b o) (pt_step t o).
Proof.
  intros Hi Hr. pose proof (kept_refl _ Hi) as K0.
  destruct o as [d addrs|id|d|d|a r|a|a eff|a data| |]; cbn [bstep pt_step].
  - unfold pt_add. pose proof (add_device_refines b t d addrs Hi Hr) as Ha. destruct (pt_can_add t addrs).
    + destruct Ha as (h' & -> & [Hi' Hd Hq]). split; [exact Hi' | | reflexivity | discriminate].
      rewrite (ref_next _ _ Hr). split; cbn [fst pt_reg pt_owner pt_next with_h b_imap b_h].
      * apply Hr.
      * intros p. rewrite Hq. destruct (mem_z p addrs); [|apply Hr].
        apply owner_of_added. pose proof (inv_len _ Hi). lia.
      * rewrite (dev_len_snoc _ _ _ Hd). lia.
    + rewrite Ha. apply (quiet_ok b); [exact Hr | reflexivity | exact K0 | discriminate].
  - pose proof (remove_device_ports (b_h b) id Hi) as Hp. unfold pt_remove.
    destruct (Z.leb_spec 3 id) as [H3|H3].
    + split; [apply remove_device_inv, Hi | | reflexivity | discriminate].
      split; cbn [fst pt_reg pt_owner pt_next with_h b_imap b_h].
      * apply Hr.
      * intros p. rewrite Hp, <- (ref_owner _ _ Hr p), (owner_remove _ id H3).
        destruct (h_ports (b_h b) p =? id); reflexivity.
      * rewrite (ref_next _ _ Hr), remove_device_len. reflexivity.
    + apply (quiet_ok b); [exact Hr | reflexivity | | discriminate].
      split; [apply remove_device_inv, Hi | exact Hp | apply remove_device_len].
  - destruct (set_slot_kept (b_h b) KB_DEV d Hi) as (h' & E & K); [unfold KB_DEV, sim_device.KB_DEV; lia|].
    unfold set_keyboard. rewrite E. apply (quiet_ok b); [exact Hr | reflexivity | exact K | discriminate].
  - destruct (set_slot_kept (b_h b) DS_DEV d Hi) as (h' & E & K); [unfold DS_DEV, sim_device.DS_DEV; lia|].
    unfold set_display. rewrite E. apply (quiet_ok b); [exact Hr | reflexivity | exact K | discriminate].
  - unfold mmap_internal, pt_mmap. rewrite IO_START_val, <- (ref_reg _ _ Hr a).
    destruct (a <? 65024); [|destruct (imap_get (b_imap b) a) eqn:Eg];
      try (apply (quiet_ok b); [exact Hr | reflexivity | exact K0 | discriminate]).
    split; [exact Hi | | reflexivity | discriminate].
    split; cbn [fst with_imap b_imap b_h pt_reg pt_owner pt_next]; [|apply Hr|apply Hr].
    intros q. cbn [imap_get]. rewrite (Z.eqb_sym a q). destruct (q =? a); [reflexivity|apply Hr].
  - unfold munmap_internal, pt_munmap. rewrite <- (ref_reg _ _ Hr a).
    destruct (imap_get (b_imap b) a) eqn:Eg;
      [|apply (quiet_ok b); [exact Hr | reflexivity | exact K0 | discriminate]].
    split; [exact Hi | | reflexivity | discriminate].
    split; cbn [fst with_imap b_imap b_h pt_reg pt_owner pt_next]; [|apply Hr|apply Hr].
    intros q. rewrite imap_get_remove. destruct (q =? a); [reflexivity|apply Hr].
  - destruct (bus_read_kept ops b a eff Hi) as (b' & v & -> & Em & K).
    apply (quiet_ok b); [exact Hr | exact Em | exact K | discriminate].
  - destruct (bus_write_kept ops b a data Hi) as (b' & v & -> & Em & K).
    apply (quiet_ok b); [exact Hr | exact Em | exact K | discriminate].
  - apply (quiet_ok b); [exact Hr | reflexivity | exact (io_reset_kept ops _ Hi) | discriminate].
  - pose proof (poll_interrupt_kept ops _ Hi) as K. destruct (poll_interrupt ops (b_h b)) as [h' i].
    apply (quiet_ok b); [exact Hr | reflexivity | exact K | discriminate].
Qed.

Lemma brun_refines ops : forall l b t, h_inv (b_h b) -> refines b t -> run_ok (brun ops b l) (pt_run t l).
Proof.
  induction l as [|o r IH]; intros b t Hi Hr.
  - split; [exact Hi | exact Hr | reflexivity | intros []].
  - cbn [brun pt_run].
    destruct (bstep_refines ops b t o Hi Hr) as [Hi1 Hr1 Ha Hp].
    destruct (bstep ops b o) as [b1 x]. destruct (pt_step t o) as [t1 y]. cbn [fst snd] in *.
    destruct (IH b1 t1 Hi1 Hr1) as [Hi2 Hr2 Ha2 Hp2].
    destruct (brun ops b1 r) as [b2 xs]. destruct (pt_run t1 r) as [t2 ys]. cbn [fst snd map] in *.
    split; cbn [fst snd map]; [exact Hi2 | exact Hr2 | congruence |].
    intros [H|H]; [apply Hp; auto|apply Hp2, H].
Qed.
End Refinement.

(* for any state with the invariant that refines a table, hence ([reach_ok]) every reached machine *)
Section Histories.
Context {D : Type}.
Implicit Types h : handler D.
Implicit Types b : bus D.

Definition slot_dev b (id : Z) : option D :=
  match nth_error (h_devs (b_h b)) (Z.to_nat id) with Some (Some d) => Some d | _ => None end.
Definition put_dev b (id : Z) (d : D) (mem : Z -> Z) : bus D :=
  mk_bus (b_imap b) (b_regs b)
         (mk_handler (set_nth (Z.to_nat id) (Some d) (h_devs (b_h b))) (h_ports (b_h b))) mem.

Definition read_via (ops : dev_ops D) b (tg : target ireg) (a : Z) (eff : bool) : bus D * Z :=
  match tg with
  | ToReg r =>
    let v := ireg_read r (b_regs b) in
    (mk_bus (b_imap b) (b_regs b) (b_h b) (upd (b_mem b) a v), v)
  | ToSlot id =>
    match slot_dev b id with
    | Some d =>
      let (d', r) := d_read ops d a eff in
      match r with
      | Some v => (put_dev b id d' (upd (b_mem b) a v), v)
      | None => (put_dev b id d' (b_mem b), b_mem b a)
      end
    | None => (b, b_mem b a)
    end
  | ToNothing | ToMemory => (b, b_mem b a)
  end.

(* the memory word changes only if the write was taken *)
Definition write_via (ops : dev_ops D) b (tg : target ireg) (a data : Z) : bus D * bool :=
  match tg with
  | ToReg r =>
    (mk_bus (b_imap b) (ireg_write r (b_regs b) data) (b_h b) (upd (b_mem b) a data), true)
  | ToSlot id =>
    match slot_dev b id with
    | Some d =>
      let (d', taken) := d_write ops d a data in
      if taken then (put_dev b id d' (upd (b_mem b) a data), true)
      else (put_dev b id d' (b_mem b), false)
    | None => (b, false)
    end
  | ToNothing => (b, false)
  | ToMemory => (mk_bus (b_imap b) (b_regs b) (b_h b) (upd (b_mem b) a data), true)
  end.

Lemma pt_target_refines b t a : refines b t -> a <= 65535 ->
  pt_target t a =
  if IO_START <=? a then
    match imap_get (b_imap b) a with
    | Some r => ToReg r
    | None => if h_ports (b_h b) a =? 0 then ToNothing else ToSlot (h_ports (b_h b) a)
    end
  else ToMemory.
Proof.
  intros Hr Ha. unfold pt_target, io_addr. rewrite IO_START_val, (proj2 (Z.leb_le a 65535)), andb_true_r by lia.
  destruct (65024 <=? a); [|reflexivity]. rewrite <- (ref_reg _ _ Hr).
  destruct (imap_get (b_imap b) a); [reflexivity|]. rewrite <- (ref_owner _ _ Hr). unfold owner_of.
  destruct (h_ports (b_h b) a =? 0); [reflexivity|].
  destruct (Z.eqb_spec (h_ports (b_h b) a) 1) as [->|]; [reflexivity|].
  destruct (Z.eqb_spec (h_ports (b_h b) a) 2) as [->|]; reflexivity.
Qed.

Lemma is_io_from a : a <= 65535 -> is_io a = (IO_START <=? a).
Proof. intros H. unfold is_io. rewrite (proj2 (Z.leb_le a 65535)) by lia. apply andb_true_r. Qed.

Lemma bus_read_dispatch ops b t a eff :
  h_inv (b_h b) -> refines b t -> a <= 65535 ->
  bus_read ops b a eff = Some (read_via ops b (pt_target t a) a eff).
Proof.
  intros Hi Hr Ha. rewrite (pt_target_refines b t a Hr Ha). unfold bus_read.
  destruct (IO_START <=? a) eqn:Hio; [|reflexivity]. destruct (imap_get (b_imap b) a); [reflexivity|].
  rewrite io_read_slot, (io_slot_spec _ _ _ _ Hi), (is_io_from a Ha), Hio.
  destruct (Z.eqb_spec (h_ports (b_h b) a) 0) as [->|].
  - change (Z.to_nat 0) with O. rewrite (inv_null _ Hi). cbn [read_via]. rewrite bus_eta. reflexivity.
  - cbn [read_via]. unfold slot_dev.
    destruct (nth_error (h_devs (b_h b)) (Z.to_nat (h_ports (b_h b) a))) as [[d|]|];
      [destruct (d_read ops d a eff) as [d' [w|]]; reflexivity | |]; rewrite bus_eta; reflexivity.
Qed.

Lemma bus_write_dispatch ops b t a data :
  h_inv (b_h b) -> refines b t -> a <= 65535 ->
  bus_write ops b a data = Some (write_via ops b (pt_target t a) a data).
Proof.
  intros Hi Hr Ha. rewrite (pt_target_refines b t a Hr Ha). unfold bus_write.
  destruct (IO_START <=? a) eqn:Hio; [|reflexivity]. destruct (imap_get (b_imap b) a); [reflexivity|].
  rewrite io_write_slot, (io_slot_spec _ _ _ _ Hi), (is_io_from a Ha), Hio.
  destruct (Z.eqb_spec (h_ports (b_h b) a) 0) as [->|].
  - change (Z.to_nat 0) with O. rewrite (inv_null _ Hi). cbn [write_via]. rewrite bus_eta. reflexivity.
  - cbn [write_via]. unfold slot_dev.
    destruct (nth_error (h_devs (b_h b)) (Z.to_nat (h_ports (b_h b) a))) as [[d|]|];
      [destruct (d_write ops d a data) as [d' [|]]; reflexivity | |]; rewrite bus_eta; reflexivity.
Qed.

Definition reach (ops : dev_ops D) (m0 : Z -> Z) (l : list (bop D)) : bus D := fst (brun ops (new_bus D m0) l).
Definition results (ops : dev_ops D) (m0 : Z -> Z) (l : list (bop D)) : list bres := snd (brun ops (new_bus D m0) l).
Definition table (l : list (bop D)) : ptable ireg := fst (pt_run (pt_init regs0) l).

Lemma reach_ok ops m0 l : run_ok (brun ops (new_bus D m0) l) (pt_run (pt_init regs0) l).
Proof. apply brun_refines; [apply (new_handler_inv (D := D))|apply new_bus_refines]. Qed.

Lemma pt_can_add_iff (t : ptable ireg) addrs :
  pt_can_add t addrs = true <->
  (pt_next t <= 65535 /\ forall p, In p addrs -> io_addr p = true /\ pt_owner t p = Nobody).
Proof.
  unfold pt_can_add. rewrite andb_true_iff, Z.leb_le, forallb_forall.
  split; intros [H1 H2]; (split; [exact H1|]); intros p Hp; specialize (H2 p Hp).
  - apply andb_true_iff in H2. destruct H2 as [Ha Hb]. split; [exact Ha|].
    destruct (pt_owner t p); try discriminate; reflexivity.
  - destruct H2 as [Ha Hb]. rewrite Ha, Hb. reflexivity.
Qed.

Lemma add_device_iff b t d addrs : h_inv (b_h b) -> refines b t ->
  (snd (add_device (b_h b) d addrs) <> None <->
   (pt_next t <= 65535 /\ forall p, In p addrs -> io_addr p = true /\ pt_owner t p = Nobody)).
Proof.
  intros Hi Hr. rewrite <- pt_can_add_iff. pose proof (add_device_refines b t d addrs Hi Hr) as Ha.
  destruct (pt_can_add t addrs); [destruct Ha as (h' & -> & _) | rewrite Ha]; cbn [snd].
  - split; [reflexivity|discriminate].
  - split; [intros H; exfalso; apply H; reflexivity|discriminate].
Qed.

Lemma add_device_effect b t d addrs h' id : h_inv (b_h b) -> refines b t ->
  add_device (b_h b) d addrs = (h', Some id) ->
  id = pt_next t /\ h_devs h' = h_devs (b_h b) ++ [d] /\
  forall p, h_ports h' p = if mem_z p addrs then id else h_ports (b_h b) p.
Proof.
  intros Hi Hr H. pose proof (add_device_refines b t d addrs Hi Hr) as Ha.
  destruct (pt_can_add t addrs); [destruct Ha as (h2 & E & A) | rewrite Ha in H; discriminate].
  rewrite E in H. injection H as <- <-. rewrite (ref_next _ _ Hr).
  split; [reflexivity|]. split; [apply A | apply A].
Qed.

Lemma add_iff ops m0 l d addrs :
  snd (add_device (b_h (reach ops m0 l)) d addrs) <> None <->
  (pt_next (table l) <= 65535 /\ forall p, In p addrs -> io_addr p = true /\ pt_owner (table l) p = Nobody).
Proof. destruct (reach_ok ops m0 l) as [Hi Hr _ _]. exact (add_device_iff _ _ d addrs Hi Hr). Qed.

Fixpoint added_ids (rs : list bres) : list Z :=
  match rs with
  | [] => []
  | RAdd (Some id) :: r => id :: added_ids r
  | _ :: r => added_ids r
  end.

Lemma pt_step_next (t : ptable ireg) (o : bop D) :
  pt_next t <= pt_next (fst (pt_step t o)) /\
  forall id, snd (pt_step t o) = SAdd (Some id) -> id = pt_next t /\ pt_next (fst (pt_step t o)) = id + 1.
Proof.
  destruct o as [d addrs|id'|d|d|a r|a|a eff|a data| |]; cbn [pt_step]; try (split; [cbn; lia | discriminate]).
  - unfold pt_add. destruct (pt_can_add t addrs); cbn; (split; [lia|]); intros id E; inversion E. auto.
  - unfold pt_remove. destruct (3 <=? id'); (split; [cbn; lia | discriminate]).
  - unfold pt_mmap. destruct (a <? 65024); [|destruct (pt_reg t a)]; (split; [cbn; lia | discriminate]).
  - unfold pt_munmap. destruct (pt_reg t a); (split; [cbn; lia | discriminate]).
Qed.

(* the results of a history give out the ids that the table's counter passes *)
Lemma ids_fresh_from : forall (l : list (bop D)) t rs, map abstract rs = snd (pt_run t l) ->
  pt_next t <= pt_next (fst (pt_run t l)) /\
  Forall (fun id => pt_next t <= id < pt_next (fst (pt_run t l))) (added_ids rs) /\
  StronglySorted Z.lt (added_ids rs).
Proof.
  induction l as [|o r IH]; intros t rs E.
  - destruct rs; [|discriminate]. cbn. split; [lia|]. split; constructor.
  - cbn [pt_run] in *. destruct (pt_step_next t o) as [Hle Hadd].
    destruct (pt_step t o) as [t1 y]. specialize (IH t1). destruct (pt_run t1 r) as [t2 ys].
    cbn [fst snd] in *. destruct rs as [|x xs]; [discriminate|]. injection E as Ex Exs.
    destruct (IH xs Exs) as (H3 & H4 & H5).
    assert (Hw : Forall (fun id => pt_next t <= id < pt_next t2) (added_ids xs))
      by (eapply Forall_impl; [|exact H4]; cbn beta; intros; lia).
    destruct x as [[id|]| | | | | | |]; cbn [added_ids]; try (split; [lia | split; assumption]).
    destruct (Hadd id (eq_sym Ex)) as [-> Hn1]. split; [lia|]. split; constructor; try assumption; [lia|].
    eapply Forall_impl; [|exact H4]. cbn beta. intros; lia.
Qed.
End Histories.
