(* OsPutsp.v — TRAP_PUTSP of src/os.asm: packed strings (low byte, then high byte of each word, up to the first zero
   byte).  The eight shift rounds that extract the high byte take a number of instructions that depends on the bits
   of the word, so the continuations are not told the instant; the display is assumed free throughout. *)
From Coq Require Import ZArith List Bool Lia FMapPositive.
From Gen Require Import Constants OsImage.
From Model Require Import Tree Bits Word Instr Sim Load.
From Proofs Require Import TextFacts SimHoare PsrBits SimAccess SimStep OsProofs.
Import ListNotations.
Open Scope Z_scope.

(* one round of PUTSP_GET_HIGH_8: (R0, R2) := (2*R0 + msb R2, 2*R2) *)
Definition shl1 (hv : Z * Z) : Z * Z :=
  let '(h, v) := hv in
  (if v <? 32768 then wrap16 (h + h) else wrap16 (wrap16 (h + h) + 1), wrap16 (v + v)).
Lemma iter_succ_r {A} (f : A -> A) k : forall x, Nat.iter (S k) f x = Nat.iter k f (f x).
Proof. induction k as [|k IH]; intros x; [reflexivity|]. change (Nat.iter (S (S k)) f x) with (f (Nat.iter (S k) f x)). rewrite IH. reflexivity. Qed.

(* a round doubles 65536 * R0 + R2 while R0 does not overflow *)
Lemma shl1_double h v : 0 <= h < 32768 -> 0 <= v < 65536 ->
  65536 * fst (shl1 (h, v)) + snd (shl1 (h, v)) = 2 * (65536 * h + v) /\
  0 <= fst (shl1 (h, v)) /\ 0 <= snd (shl1 (h, v)) < 65536.
Proof.
  intros Hh Hv. unfold shl1, wrap16. cbn [fst snd].
  destruct (v <? 32768) eqn:E; [apply Z.ltb_lt in E | apply Z.ltb_ge in E];
    rewrite (Z.mod_small (h + h)) by lia.
  - rewrite (Z.mod_small (v + v)) by lia. lia.
  - rewrite (Z.mod_small (h + h + 1)) by lia.
    replace (v + v) with (v + v - 65536 + 1 * 65536) by lia. rewrite Z.mod_add, Z.mod_small by lia. lia.
Qed.
Lemma shl_iter_double k : forall h v,
  0 <= h -> 0 <= v < 65536 -> (65536 * h + v) * 2 ^ Z.of_nat k < 65536 * 65536 ->
  65536 * fst (Nat.iter k shl1 (h, v)) + snd (Nat.iter k shl1 (h, v)) = (65536 * h + v) * 2 ^ Z.of_nat k /\
  0 <= fst (Nat.iter k shl1 (h, v)) /\ 0 <= snd (Nat.iter k shl1 (h, v)) < 65536.
Proof.
  induction k as [|k IH]; intros h v Hh Hv Hb.
  - change (Nat.iter 0 shl1 (h, v)) with (h, v). cbn [fst snd Z.of_nat]. rewrite Z.pow_0_r. lia.
  - rewrite iter_succ_r. rewrite Nat2Z.inj_succ, Z.pow_succ_r in * by lia.
    assert (Hp : 0 < 2 ^ Z.of_nat k) by (apply Z.pow_pos_nonneg; lia).
    destruct (shl1_double h v) as (E & H1 & H2); [nia | exact Hv |].
    destruct (shl1 (h, v)) as [h1 v1]. cbn [fst snd] in *.
    destruct (IH h1 v1 H1 H2) as (E' & R); [rewrite E; lia|].
    rewrite E', E. split; [lia | exact R].
Qed.
Lemma shl8_high_eq v : 0 <= v < 65536 -> fst (Nat.iter 8 shl1 (0, v)) = v / 256.
Proof.
  intros H. destruct (shl_iter_double 8 0 v) as (E & H1 & H2); [lia | exact H | cbn; lia |].
  change (2 ^ Z.of_nat 8) with 256 in E. Z.div_mod_to_equations. lia.
Qed.
Lemma shl1_range hv : 0 <= fst (shl1 hv) < 65536 /\ 0 <= snd (shl1 hv) < 65536.
Proof. destruct hv as [h v]. unfold shl1. cbn [fst snd]. split; [destruct (v <? 32768)|]; apply wrap16_range. Qed.

(* PUTSP_GET_HIGH_8 (x0287 .. x028F): k rounds (the caller has eight; any bound under 32768 keeps BRnz right) *)
Lemma putsp_shift K sc x kd Post (k : nat) : forall t m a0 p a2 a3 r4 r5 r6 r7 P c F T q buf,
  psr_privileged P = true -> (k <= 8)%nat ->
  0 <= w_data a0 < 65536 -> 0 <= w_data a2 < 65536 -> w_data a3 = Z.of_nat k ->
  (forall t' a0' a2' a3' c', w_data a0' = fst (Nat.iter k shl1 (w_data a0, w_data a2)) ->
     aruns sc t' x kd (st K m [a0'; p; a2'; a3'; r4; r5; r6; r7] 656 (psr_set_cc P c') F T q buf) Post) ->
  aruns sc t x kd (st K m [a0; p; a2; a3; r4; r5; r6; r7] 647 (psr_set_cc P c) F T q buf) Post.
Proof.
  induction k as [|k IH]; intros t m a0 p a2 a3 r4 r5 r6 r7 P c F T q buf HP Hk H0 H2 H3 Hc.
  - (* x0287 ADD R3,R3,#0 ; x0288 BRnz -> x0290 *)
    os_exec HP. rewrite w_add_zero, H3.
    os_exec HP. change (negb (Z.land 6 (cc_norm (cc_of (Z.of_nat 0))) =? 0)) with true. cbv iota.
    apply Hc. reflexivity.
  - os_exec HP. rewrite w_add_zero, H3.
    os_exec HP. rewrite br_spec by lia.
    replace (Z.of_nat (S k) =? 0) with false by (symmetry; apply Z.eqb_neq; lia).
    replace (Z.of_nat (S k) <? 32768) with true by (symmetry; apply Z.ltb_lt; lia). cbv iota.
    (* x0289 ADD R0,R0,R0 ; x028A ADD R2,R2,#0 ; x028B BRzp *)
    os_exec HP. os_exec HP. rewrite w_add_zero.
    os_exec HP. rewrite br_spec by exact H2.
    assert (Hb3 : w_data (w_add a3 (new_init 65535)) = Z.of_nat k).
    { rewrite w_add_data by (cbn [w_data new_init]; lia). cbn [w_data new_init]. rewrite H3.
      change 65535 with (-1 mod 65536). rewrite wrap16_add by lia. lia. }
    assert (Hb2 : w_data (w_add a2 a2) = snd (shl1 (w_data a0, w_data a2))) by (rewrite w_add_data by assumption; reflexivity).
    destruct (shl1_range (w_data a0, w_data a2)) as [R1 R2].
    rewrite iter_succ_r in Hc.
    destruct (w_data a2 <? 32768) eqn:Ev.
    + (* msb clear: x028D ADD R2,R2,R2 ; x028E ADD R3,R3,#-1 ; x028F BR *)
      replace (negb (Z.land 3 (if w_data a2 =? 0 then 2 else 1) =? 0)) with true by (destruct (w_data a2 =? 0); reflexivity).
      cbv iota.
      os_exec HP. os_exec HP. os_exec HP.
      rewrite br_always. cbv iota.
      assert (Hb0 : w_data (w_add a0 a0) = fst (shl1 (w_data a0, w_data a2)))
        by (rewrite w_add_data by assumption; unfold shl1; rewrite Ev; reflexivity).
      apply IH; try assumption; rewrite ?Hb0, ?Hb2; try assumption; try lia.
    + (* msb set: x028C ADD R0,R0,#1 first *)
      replace (w_data a2 =? 0) with false by (symmetry; apply Z.eqb_neq; apply Z.ltb_ge in Ev; lia). cbv iota.
      os_exec HP. os_exec HP.
      os_exec HP. os_exec HP.
      rewrite br_always. cbv iota.
      assert (Hb0 : w_data (w_add (w_add a0 a0) (new_init 1)) = fst (shl1 (w_data a0, w_data a2))).
      { rewrite w_add_data; [ | rewrite w_add_data by assumption; apply wrap16_range | cbn; lia].
        rewrite w_add_data by assumption. unfold shl1. rewrite Ev. reflexivity. }
      apply IH; try assumption; rewrite ?Hb0, ?Hb2; try assumption; try lia.
Qed.

Definition ds_always_free (sc : sched) : Prop := forall t, ds_locked_at sc t = false.
Lemma ds_always_from sc t n : ds_always_free sc -> ds_free_from sc t n.
Proof. intros H i _. apply H. Qed.
Lemma w_and_255 l : w_data (w_and l (new_init 255)) = w_data l mod 256.
Proof. unfold w_and. cbn [w_data new_init]. change 255 with (Z.ones 8). rewrite Z.land_ones by lia. reflexivity. Qed.

(* x027F .. x0291, a word whose low byte is non-zero *)
Lemma putsp_word K sc kd Post t m a0 p a2 a3 r4 r5 r7 P c F T q buf x v :
  psr_privileged P = true -> 0 <= f_fno F -> ds_always_free sc -> 1027 <= x <= 12288 ->
  0 <= w_data p < 65024 -> (w_data p < 1024 \/ x <= w_data p) -> w_data (mget m (w_data p)) = v -> 0 <= v < 65536 -> v mod 256 <> 0 ->
  (forall t' a0' a2' a3', w_data a0' = v / 256 ->
     aruns sc t' x kd (st K m [a0'; p; a2'; a3'; r4; r5; new_init x; r7] 657 (psr_set_cc P (cc_of (v / 256))) F T q (buf ++ [v mod 256])) Post) ->
  aruns sc t x kd (st K m [a0; p; a2; a3; r4; r5; new_init x; r7] 639 (psr_set_cc P c) F T q buf) Post.
Proof.
  intros HP Hfno Hfree Hx Hp Hlive Hv Hv16 Hlo Hk.
  assert (Hlo' : 0 < v mod 256 < 256) by (pose proof (Z.mod_pos_bound v 256 ltac:(lia)); lia).
  assert (Hlow : w_data (w_and (mget m (w_data p)) (new_init 255)) = v mod 256)
    by (rewrite w_and_255, Hv; reflexivity).
  (* x027F LDR R2,R1,#0 ; x0280 LD R0,MASK ; x0281 AND R0,R2,R0 ; x0282 BRz *)
  os_exec_mem HP; rewrite Z.add_0_r, wrap16_small by lia; [lia|].
  os_exec HP. os_exec HP. os_exec HP.
  rewrite Hlow, br_spec by lia.
  replace (v mod 256 =? 0) with false by (symmetry; apply Z.eqb_neq; lia).
  replace (v mod 256 <? 32768) with true by (symmetry; apply Z.ltb_lt; lia). cbv iota.
  apply putc_free with (sp := x); [apply at_trap_sup; [exact HP | reflexivity | exact Hfno] | exact Hx | apply ds_always_from; exact Hfree | ].
  intros t1 _. change (wrap16 (643 + 1)) with 644. rewrite Hlow, Z.mod_mod by lia.
  (* x0284 AND R0,R0,#0 ; x0285 AND R3,R3,#0 ; x0286 ADD R3,R3,#8 ; the eight rounds ; x0290 ADD R0,R0,#0 *)
  os_exec HP. os_exec HP. os_exec HP.
  apply (putsp_shift K sc x kd Post 8); try assumption; rewrite ?w_and_zero, ?Hv; try lia.
  { rewrite w_add_data; rewrite ?w_and_zero; cbn [w_data new_init]; try lia. reflexivity. }
  intros t2 b0 b2 b3 c2 Hb0. rewrite shl8_high_eq in Hb0 by exact Hv16.
  os_exec HP. rewrite w_add_zero, Hb0. apply Hk. exact Hb0.
Qed.

Fixpoint pstr_at (m : mem) (a : Z) (ws : list Z) (z : Z) : Prop :=
  match ws with
  | [] => w_data (mget m a) = z
  | w :: r => w_data (mget m a) = w /\ pstr_at m (a + 1) r z
  end.
(* full words: both bytes non-zero; terminator: low byte zero, or high byte zero (odd length) *)
Definition full_ok (ws : list Z) : Prop := Forall (fun w => 0 <= w < 65536 /\ w mod 256 <> 0 /\ w / 256 <> 0) ws.
Definition term_ok (z : Z) : Prop := 0 <= z < 65536 /\ (z mod 256 = 0 \/ z / 256 = 0).
Definition packed_out (ws : list Z) (z : Z) : list Z :=
  flat_map (fun w => [w mod 256; w / 256]) ws ++ (if z mod 256 =? 0 then [] else [z mod 256]).

Lemma pstr_at_mset m a v ws z : forall p, 0 <= a -> 0 <= p -> (a < p \/ p + Z.of_nat (length ws) < a) ->
  pstr_at m p ws z -> pstr_at (mset m a v) p ws z.
Proof.
  induction ws as [|c r IH]; intros p Ha Hp Hd Hs; cbn [pstr_at length] in *.
  - rewrite mget_mset_other by lia. exact Hs.
  - destruct Hs as [H1 H2]. split; [rewrite mget_mset_other by lia; exact H1 | apply IH; [lia | lia | lia | exact H2]].
Qed.

Lemma high_lt_256 v : 0 <= v < 65536 -> 0 <= v / 256 < 256.
Proof. intros H. split; [apply Z.div_pos; lia | apply Z.div_lt_upper_bound; lia]. Qed.

(* PUTSP_LOOP (x027F .. x0294) *)
Lemma putsp_loop K sc kd Post ws : forall t m a0 p a2 a3 r4 r5 r7 P c F T q buf x z,
  psr_privileged P = true -> 0 <= f_fno F -> ds_always_free sc -> 1027 <= x <= 12288 ->
  full_ok ws -> term_ok z -> pstr_at m (w_data p) ws z ->
  0 <= w_data p -> w_data p + Z.of_nat (length ws) < 65024 ->
  (w_data p + Z.of_nat (length ws) < 1024 \/ x <= w_data p) ->
  (forall t' a0' p' a2' a3' c',
     aruns sc t' x kd (st K m [a0'; p'; a2'; a3'; r4; r5; new_init x; r7] 661 (psr_set_cc P c') F T q (buf ++ packed_out ws z)) Post) ->
  aruns sc t x kd (st K m [a0; p; a2; a3; r4; r5; new_init x; r7] 639 (psr_set_cc P c) F T q buf) Post.
Proof.
  induction ws as [|w ws IH]; intros t m a0 p a2 a3 r4 r5 r7 P c F T q buf x z HP Hfno Hfree Hx Hfull Hterm Hstr Hp0 Hp1 Hdis Hk;
    cbn [pstr_at length] in *.
  - destruct Hterm as [Hz16 Hz]. unfold packed_out in Hk. cbn [flat_map app] in Hk.
    destruct (z mod 256 =? 0) eqn:Ez.
    + apply Z.eqb_eq in Ez.
      os_exec_mem HP; rewrite Z.add_0_r, wrap16_small by lia; [lia|].
      os_exec HP. os_exec HP. os_exec HP.
      replace (w_data (w_and (mget m (w_data p)) (new_init 255))) with 0
        by (rewrite w_and_255, Hstr; symmetry; exact Ez).
      change (negb (Z.land 2 (cc_norm (cc_of 0)) =? 0)) with true. cbv iota.
      rewrite <- (app_nil_r buf). apply Hk.
    + (* odd length *)
      apply Z.eqb_neq in Ez. assert (Hhi : z / 256 = 0) by (destruct Hz; [contradiction | assumption]).
      apply putsp_word with (v := z); try assumption; [lia | lia | ].
      intros t1 b0 b2 b3 Hb0. rewrite Hhi.
      os_exec HP. change (negb (Z.land 2 (cc_norm (cc_of 0)) =? 0)) with true. cbv iota.
      apply Hk.
  - destruct Hstr as [Hw Hstr].
    assert (Hw3 : 0 <= w < 65536 /\ w mod 256 <> 0 /\ w / 256 <> 0) by (inversion Hfull; assumption).
    assert (Hfull' : full_ok ws) by (inversion Hfull; assumption).
    destruct Hw3 as (Hw16 & Hwlo & Hwhi). pose proof (high_lt_256 w Hw16) as Hh.
    apply putsp_word with (v := w); try assumption; [lia | lia | ].
    intros t1 b0 b2 b3 Hb0.
    (* x0291 BRz (not taken) ; x0292 PUTC *)
    os_exec HP. rewrite br_spec by lia.
    replace (w / 256 =? 0) with false by (symmetry; apply Z.eqb_neq; lia).
    replace (w / 256 <? 32768) with true by (symmetry; apply Z.ltb_lt; lia). cbv iota.
    apply putc_free with (sp := x); [apply at_trap_sup; [exact HP | reflexivity | exact Hfno] | exact Hx | apply ds_always_from; exact Hfree | ].
    intros t2 _. change (wrap16 (658 + 1)) with 659.
    rewrite Hb0, (Z.mod_small (w / 256) 256), <- app_assoc by lia.
    (* x0293 ADD R1,R1,#1 ; x0294 BR PUTSP_LOOP *)
    os_exec HP. os_exec HP. rewrite br_always. cbv iota.
    assert (Hpd : w_data (w_add p (new_init 1)) = w_data p + 1).
    { rewrite w_add_data by (cbn [w_data new_init]; lia). apply wrap16_small. cbn [w_data new_init]. lia. }
    apply IH with (z := z); try assumption; rewrite ?Hpd; try lia; [exact Hstr|].
    intros t3 a0' p' a2' a3' c'.
    unfold packed_out in *. cbn [flat_map] in Hk. rewrite <- !app_assoc in *. cbn [app] in *.
    apply Hk.
Qed.

(* TRAP_PUTSP: push R0 .. R3 ; R1 := R0 ; the loop ; pop R3 .. R0 *)
Lemma putsp_call K sc t kd ws z m r0 r1 r2 r3 r4 r5 r6 r7 pc psr F T q buf sp Post :
  at_trap K m psr r6 F pc 61476 sp -> 1033 <= sp <= 12288 ->
  full_ok ws -> term_ok z -> pstr_at m (w_data r0) ws z ->
  0 <= w_data r0 -> w_data r0 + Z.of_nat (length ws) < 65024 ->
  (w_data r0 + Z.of_nat (length ws) < 1024 \/ sp <= w_data r0) ->
  ds_always_free sc ->
  (forall t', aruns sc t' sp kd (st K m [r0; r1; r2; r3; r4; r5; r6; r7] (wrap16 (pc + 1)) psr F T q (buf ++ packed_out ws z)) Post) ->
  aruns sc t sp kd (st K m [r0; r1; r2; r3; r4; r5; r6; r7] pc psr F T q buf) Post.
Proof.
  intros Htrap Hstk Hfull Hterm Hstr Ha0 Ha1 Hdis Hfree Hk.
  eapply a_trap_frame with (R := fun _ => True) (v := 36) (entry := 630) (rti := 669);
    [exact Htrap | lia | reflexivity | reflexivity | reflexivity | reflexivity | | intros t' _; apply Hk].
  intros P F1 HP Hfno1 Hcont.
  os_push HP. os_push HP. os_push HP. os_push HP.
  (* x027E ADD R1,R0,#0 *)
  os_exec HP. rewrite w_add_zero.
  apply (putsp_loop K sc kd Post ws) with (z := z); try assumption; try lia.
  { repeat (apply pstr_at_mset; [lia | lia | lia | ]). exact Hstr. }
  intros t6 a0' p' a2' a3' c'.
  os_pop HP. os_pop HP. os_pop HP. os_pop HP.
  apply Hcont. exact Logic.I.
Qed.
