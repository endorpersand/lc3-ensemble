(* ObjPipelineProofs.v — C19: [pipe_ok] is what link and load, as model/ObjPipeline.v models them
   (outcome only: completes or panics), need of an object so as not to panic; assembled and linked
   objects have it; and what a reader has to show to deliver it, with the tail both readers share.
   [blocks_ok] here is neither spec/ObjImage.v's nor model/Link.v's. *)
From Coq Require Import ZArith List Bool Lia Permutation.
From Model Require Import Tree Text Obj SourceInfo ObjBin ObjPipeline.
From Proofs Require Import ListFacts SourceInfoProofs ObjBytesProofs ObjMaps.
Import ListNotations.
Open Scope Z_scope.

Definition block_ok (b : Z * list (option Z)) : bool :=
  (0 <=? fst b) && (fst b <=? 65535) && (len (snd b) <=? 65535).
Definition blocks_ok (bl : list (Z * list (option Z))) : bool :=
  strictly_sorted (map fst bl) && forallb block_ok bl.
Definition debug_ok (d : debug_symbols) : bool :=
  forallb (fun p => fst p + len (snd p) <=? ISIZE_MAX) (ds_lines d) && (byte_len (ds_src d) <=? ISIZE_MAX).
Definition pipe_ok (o : objfile) : bool :=
  blocks_ok (o_blocks o) &&
  match o_sym o with
  | Some st => check_relocations (o_blocks o) (st_rel st)
               && match st_debug st with Some d => debug_ok d | None => true end
  | None => true
  end.

Lemma obj_inv_pipe_ok o : obj_inv o = true -> pipe_ok o = true.
Proof.
  intro H. destruct (obj_inv_spec o H) as (Hbl & Hss & Hsym).
  unfold pipe_ok, blocks_ok. rewrite Hss. cbn [andb].
  assert (E : forallb block_ok (o_blocks o) = true).
  { revert Hbl. apply forallb_impl. intros b Hb.
    destruct (block_inv_spec b Hb) as ([Ha1 Ha2] & Hl & _). unfold block_ok. lia. }
  rewrite E. cbn [andb].
  destruct (o_sym o) as [st|]; [|reflexivity].
  pose proof (Hsym st eq_refl) as S. rewrite (si_chk _ _ S). cbn [andb].
  destruct (st_debug st) as [d|] eqn:Ed; [|reflexivity].
  pose proof (si_dbg _ _ S d Ed) as D. unfold debug_ok.
  apply andb_true_iff; split; [|pose proof (df_len d D); lia].
  generalize (df_runs d D). apply forallb_impl. intros p Hp.
  pose proof (rf_fit p (run_inv_spec p Hp)). lia.
Qed.

Lemma merge_blocks_spec {V} (P : Z * V -> Prop) (b : list (Z * V)) : forall a m,
  merge_blocks a b = Some m ->
  strictly_sorted (map fst a) = true -> Forall P a -> Forall P b ->
  strictly_sorted (map fst m) = true /\ Forall P m /\ (forall p, In p a -> In p m) /\ (forall p, In p b -> In p m).
Proof.
  induction b as [|[k v] b IH]; intros a m H Hs Ha Hb.
  - cbn in H. inversion H; subst. repeat split; try assumption; [intros p Hp; exact Hp|intros p []].
  - cbn [merge_blocks] in H. destruct (bt_mem k a) eqn:E; [discriminate|].
    apply bt_mem_false in E. inversion Hb as [|? ? Hk Hb']; subst.
    pose proof (bt_insert_perm k v a E) as Pm.
    destruct (IH _ _ H (bt_insert_ssorted k v a Hs) (bt_insert_forall P k v a Hk Ha) Hb') as (S1 & S2 & S3 & S4).
    repeat split; try assumption.
    + intros p Hp. apply S3, (Permutation_in _ (Permutation_sym Pm)). right. exact Hp.
    + intros p [Hp|Hp]; [subst; apply S3, (Permutation_in _ (Permutation_sym Pm)); left; reflexivity|apply S4; exact Hp].
Qed.

Lemma adjacent_overlap_cons2 {V} s1 (b1 : list V) s2 b2 r :
  adjacent_overlap ((s1, b1) :: (s2, b2) :: r)
  = if (USIZE_MAX <? s1 + len b1) || (USIZE_MAX <? s2 + len b2) then None
    else if (s1 <? s2 + len b2) && (s2 <? s1 + len b1) then Some true
    else adjacent_overlap ((s2, b2) :: r).
Proof. reflexivity. Qed.
Lemma adjacent_overlap_spec {V} (m : list (Z * list V)) :
  Forall (fun b => fst b + len (snd b) <= USIZE_MAX) m -> strictly_sorted (map fst m) = true ->
  exists b, adjacent_overlap m = Some b /\ (b = false -> adj_disjoint m).
Proof.
  induction m as [|[s1 b1] m IH]; [exists false; split; [reflexivity|intros; exact Logic.I]|].
  destruct m as [|[s2 b2] r]; [exists false; split; [reflexivity|intros; exact Logic.I]|].
  intros H Hs. inversion H as [|? ? H1 H']; subst. inversion H' as [|? ? H2 _]; subst. cbn [fst snd map] in *.
  rewrite strictly_sorted_cons2 in Hs. apply andb_true_iff in Hs. destruct Hs as [Hlt Hs].
  rewrite adjacent_overlap_cons2.
  replace (USIZE_MAX <? s1 + len b1) with false by lia. replace (USIZE_MAX <? s2 + len b2) with false by lia. cbn [orb].
  destruct ((s1 <? s2 + len b2) && (s2 <? s1 + len b1)) eqn:E; [exists true; split; [reflexivity|discriminate]|].
  destruct (IH H' Hs) as (b & Eb & Hb). exists b. split; [exact Eb|]. intro Hf. split; [|exact (Hb Hf)].
  pose proof (len_nonneg b2). lia.
Qed.

Lemma reloc_ok_merged (m : list (Z * list (option Z))) src addr :
  strictly_sorted (map fst m) = true -> adj_disjoint m -> (forall p, In p src -> In p m) ->
  reloc_ok src addr = true -> reloc_ok m addr = true.
Proof.
  intros Hs Hd Hsub H. unfold reloc_ok in *.
  destruct (block_le addr src) as [[s v]|] eqn:E; [|discriminate].
  apply block_le_in in E. destruct E as [Hin Hle]. cbn [fst] in Hle.
  rewrite (block_le_found addr m s v Hs Hd (Hsub _ Hin)) by lia. exact H.
Qed.

Lemma merged_rel_keys (b : list (Z * str)) : forall a p, In p (merged_rel a b) -> In p a \/ In p b.
Proof.
  unfold merged_rel. induction b as [|[k v] b IH]; intros a p H; [left; exact H|].
  cbn [fold_left fst snd] in H. destruct (IH _ _ H) as [H'|H'].
  - apply hm_insert_keys in H'. destruct H' as [->|H']; [right; left; reflexivity|left; exact H'].
  - right. right. exact H'.
Qed.

Lemma debug_link_ok (da db : option debug_symbols) :
  match da with Some d => debug_ok d | None => true end = true -> match db with Some d => debug_ok d | None => true end = true ->
  match da, db with Some ad, Some bd => debug_link_panics ad bd | _, _ => false end = false.
Proof.
  destruct da as [ad|]; [|reflexivity]. destruct db as [bd|]; [|reflexivity]. intros Ha Hb.
  unfold debug_link_panics. destruct (existsb _ (ds_lines bd)) eqn:E; [|reflexivity].
  apply existsb_exists in E. destruct E as [p [Hp E]]. apply Z.ltb_lt in E.
  unfold debug_ok in *. btrue.
  match goal with Hl : forallb _ (ds_lines bd) = true |- _ => rewrite forallb_forall in Hl; specialize (Hl p Hp) end.
  pose proof (count_lines_bound (ds_src ad)). pose proof (len_nonneg (snd p)).
  unfold USIZE_MAX, ISIZE_MAX in *. lia.
Qed.

Theorem link_total a b : pipe_ok a = true -> pipe_ok b = true -> link_outcome a b = Completes.
Proof.
  unfold pipe_ok, blocks_ok. intros Ha Hb.
  apply andb_true_iff in Ha. destruct Ha as [Ha Hsa]. apply andb_true_iff in Ha. destruct Ha as [Hssa Hfa].
  apply andb_true_iff in Hb. destruct Hb as [Hb Hsb]. apply andb_true_iff in Hb. destruct Hb as [Hssb Hfb].
  unfold link_outcome.
  destruct (merge_blocks (o_blocks a) (o_blocks b)) as [m|] eqn:Em; [|reflexivity].
  destruct (merge_blocks_spec (fun p => block_ok p = true) (o_blocks b) (o_blocks a) m Em Hssa) as (Sm & Fm & Ina & Inb);
    [apply Forall_forall; apply forallb_forall; exact Hfa|apply Forall_forall; apply forallb_forall; exact Hfb|].
  destruct (adjacent_overlap_spec m) as (ov & -> & Hd); [|exact Sm|].
  { eapply Forall_impl; [|exact Fm]. intros p Hp. unfold block_ok in Hp. unfold USIZE_MAX. lia. }
  destruct ov; [reflexivity|]. specialize (Hd eq_refl).
  destruct (o_sym a) as [sa|]; [|reflexivity]. destruct (o_sym b) as [sb|]; [|reflexivity].
  apply andb_true_iff in Hsa. destruct Hsa as [Hra Hda]. apply andb_true_iff in Hsb. destruct Hsb as [Hrb Hdb].
  rewrite (debug_link_ok _ _ Hda Hdb).
  destruct (label_conflict (st_labels sa) (st_labels sb)); [reflexivity|].
  match goal with |- (if ?c then _ else _) = _ => replace c with true; [reflexivity|] end.
  symmetry. apply forallb_forall. intros p Hp. apply orb_true_iff. right.
  apply merged_rel_keys in Hp. unfold check_relocations in *. destruct Hp as [Hp|Hp].
  - rewrite forallb_forall in Hra. specialize (Hra p Hp). exact (reloc_ok_merged m (o_blocks a) (fst p) Sm Hd Ina Hra).
  - rewrite forallb_forall in Hrb. specialize (Hrb p Hp). exact (reloc_ok_merged m (o_blocks b) (fst p) Sm Hd Inb Hrb).
Qed.

Lemma runs_bound {A} (l : list (option A)) : Forall (fun r => 1 <= snd r <= len l) (runs l).
Proof.
  induction l as [|x l IH]; [constructor|]. cbn [runs]. rewrite len_cons.
  assert (IH' : Forall (fun r : bool * Z => 1 <= snd r <= 1 + len l) (runs l))
    by (apply Forall_forall; intros r Hr; rewrite Forall_forall in IH; specialize (IH r Hr); cbv beta in IH; lia).
  pose proof (len_nonneg l).
  destruct (runs l) as [|[k n] rest].
  { apply Forall_cons; [cbn [snd]; lia|apply Forall_nil]. }
  inversion IH as [|? ? Hn Hrest]; subst. inversion IH' as [|? ? _ Hrest']; subst. cbn [snd] in Hn.
  destruct (Bool.eqb k (is_some x)).
  - apply Forall_cons; [cbn [snd]; lia|exact Hrest'].
  - apply Forall_cons; [cbn [snd]; lia|]. apply Forall_cons; [cbn [snd]; lia|exact Hrest'].
Qed.
Lemma chunk_ok start init k : 0 <= start < 65536 -> 1 <= k <= 65535 -> chunk_panics start init k = false.
Proof.
  intros Hs Hk. unfold chunk_panics. destruct init; [|reflexivity]. cbn [negb].
  rewrite (Z.mod_small k) by lia.
  destruct (start <=? (start + k) mod 65536) eqn:E.
  - apply Z.leb_le in E. apply negb_false_iff. apply Z.eqb_eq. Z.div_mod_to_equations. lia.
  - apply Z.leb_gt in E.
    replace (k <? (65536 - start) mod 65536) with false by (symmetry; apply Z.ltb_ge; Z.div_mod_to_equations; lia).
    replace (65536 - start =? (65536 - start) mod 65536) with true by (symmetry; apply Z.eqb_eq; Z.div_mod_to_equations; lia).
    replace ((start + k) mod 65536 =? k - (65536 - start) mod 65536) with true by (symmetry; apply Z.eqb_eq; Z.div_mod_to_equations; lia).
    reflexivity.
Qed.
Lemma copy_block_ok rs : forall start, 0 <= start < 65536 -> Forall (fun r : bool * Z => 1 <= snd r <= 65535) rs ->
  copy_block_panics start rs = false.
Proof.
  induction rs as [|[init k] rs IH]; intros start Hs Hf; [reflexivity|].
  inversion Hf as [|? ? Hk Hf']; subst. cbn [snd] in Hk. cbn [copy_block_panics].
  rewrite chunk_ok by assumption. cbn [orb]. apply IH; [|exact Hf'].
  apply Z.mod_pos_bound. lia.
Qed.
Theorem load_total o : pipe_ok o = true -> load_outcome o = Completes.
Proof.
  unfold pipe_ok, blocks_ok. intro H. apply andb_true_iff in H. destruct H as [H _].
  apply andb_true_iff in H. destruct H as [_ Hf].
  unfold load_outcome. destruct (has_external o); [reflexivity|].
  destruct (existsb _ (o_blocks o)) eqn:E; [|reflexivity]. exfalso.
  apply existsb_exists in E. destruct E as [b [Hb E]]. rewrite forallb_forall in Hf. specialize (Hf b Hb).
  unfold block_ok in Hf. rewrite copy_block_ok in E; [discriminate|lia|].
  apply Forall_forall. intros r Hr. pose proof (runs_bound (snd b)) as Hrb. rewrite Forall_forall in Hrb.
  specialize (Hrb r Hr). cbv beta in Hrb. lia.
Qed.

Definition is_byte (b : Z) : Prop := 0 <= b < 256.

(* the source text of an object is a Rust String: at most isize::MAX bytes *)
Definition src_fits (o : objfile) : Prop :=
  match o_sym o with
  | Some st => match st_debug st with Some d => byte_len (ds_src d) <= ISIZE_MAX | None => True end
  | None => True
  end.

Definition sym_checked (o : objfile) : Prop :=
  forall st, o_sym o = Some st ->
    check_relocations (o_blocks o) (st_rel st) = true /\ forall d, st_debug st = Some d -> lines_fit (ds_lines d) = true.

Lemma pipe_ok_intro o : blocks_ok (o_blocks o) = true -> sym_checked o -> src_fits o -> pipe_ok o = true.
Proof.
  intros Hb Hc Hs. unfold pipe_ok, src_fits, sym_checked in *. rewrite Hb. cbn [andb].
  destruct (o_sym o) as [st|]; [|reflexivity]. destruct (Hc st eq_refl) as [Hr Hd]. rewrite Hr. cbn [andb].
  destruct (st_debug st) as [d|]; [|reflexivity]. specialize (Hd d eq_refl). unfold lines_fit in Hd.
  unfold debug_ok. rewrite Hd. apply Z.leb_le. exact Hs.
Qed.

Lemma blocks_ok_insert k v m : 0 <= k <= 65535 -> len v <= 65535 -> blocks_ok m = true -> blocks_ok (bt_insert k v m) = true.
Proof.
  unfold blocks_ok. intros Hk Hv H. apply andb_true_iff in H. destruct H as [H1 H2].
  apply andb_true_iff. split; [apply bt_insert_ssorted; exact H1|].
  apply forallb_forall. apply Forall_forall. apply bt_insert_forall; [unfold block_ok; cbn [fst snd]; lia|].
  apply Forall_forall. apply forallb_forall. exact H2.
Qed.

Lemma finish_obj_post blocks labels rel dbg : (forall d, dbg = Some d -> lines_fit (ds_lines d) = true) ->
  rd_post (fun o => o_blocks o = blocks /\ sym_checked o) (finish_obj blocks labels rel dbg).
Proof.
  intro Hd. unfold finish_obj. destruct (check_relocations blocks rel) eqn:Er; [|exact Logic.I].
  split; [reflexivity|]. intros st E. cbn [o_sym o_blocks] in *.
  destruct (negb _ || _); [|discriminate]. inversion E; subst. split; [exact Er|exact Hd].
Qed.
Lemma read_tail_post {X} (mk : X -> rd linemap) blocks labels rel (dbg : option (X * str)) :
  (forall x, rd_post (fun lm => lines_fit lm = true) (mk x)) ->
  rd_post (fun o => o_blocks o = blocks /\ sym_checked o)
    (rd_bind (match dbg with
              | Some (x, src) => rd_bind (mk x) (fun lm' => ROk (Some (mkDebug lm' src)))
              | None => ROk None
              end) (fun d => finish_obj blocks labels rel d)).
Proof.
  intro Hmk. destruct dbg as [[x src]|]; cbn [rd_bind].
  - specialize (Hmk x). destruct (mk x) as [lm| |]; cbn [rd_bind rd_post] in *; [|exact Logic.I|exact Hmk].
    apply finish_obj_post. intros d E. inversion E; subst. exact Hmk.
  - apply finish_obj_post. intros d E. discriminate.
Qed.

Lemma lsm_from_blocks_post bl : rd_post (fun bl' => lines_fit bl' = true) (lsm_from_blocks bl).
Proof. rewrite lsm_from_blocks_eq. destruct (lines_fit bl) eqn:E; [|exact Logic.I]. destruct (_ && _); [exact E|exact Logic.I]. Qed.
