(* OperandTextProofs.v — C05 end to end: a statement text whose last operand is a numeral parses to the
   statement with the numeral's value exactly when the value fits the field; otherwise to an error
   located at the numeral. *)
From Coq Require Import ZArith List Bool Lia String.
From Model Require Import Tree Text Bits Offset Instr AsmAst Lexer Parser Print.
From Spec Require Import Numerals.
From Proofs Require Import TextFacts LexerProofs LexStepProofs LexNumProofs OffsetProofs PiecesProofs ParserProofs PrintParseProofs LayoutProofs.
Import ListNotations.
Open Scope Z_scope.

Definition field_prefix (f : field) : list piece :=
  match f with
  | Imm5 => [Wkw "ADD" KADD; Sp; Wreg 1; Cm; Sp; Wreg 2; Cm; Sp]
  | Offset6 => [Wkw "LDR" KLDR; Sp; Wreg 3; Cm; Sp; Wreg 4; Cm; Sp]
  | PCOffset9 => [Wkw "LD" KLD; Sp; Wreg 5; Cm; Sp]
  | PCOffset11 => [Wkw "JSR" KJSR; Sp]
  | TrapVect8 => [Wkw "TRAP" KTRAP; Sp]
  | Orig => [Wdir "orig"; Sp]
  | Blkw => [Wdir "blkw"; Sp]
  | Fill => [Wdir "fill"; Sp]
  end.
Definition field_nucleus (f : field) (v : Z) : nucleus :=
  match f with
  | Imm5 => NInstr (AADD 1 2 (Imm v))
  | Offset6 => NInstr (ALDR 3 4 v)
  | PCOffset9 => NInstr (ALD 5 (POff v))
  | PCOffset11 => NInstr (AJSR (POff v))
  | TrapVect8 => NInstr (ATRAP v)
  | Orig => NDir (DOrig v)
  | Blkw => NDir (DBlkw v)
  | Fill => NDir (DFill (POff (v mod 65536)))
  end.
Definition operand_text (f : field) (x : str) : str := text_of (field_prefix f) ++ x.

Lemma prefix_ok f x t : word_ok x t -> pieces_ok (field_prefix f ++ [W x t]).
Proof.
  intros Hw. destruct f; cbn [field_prefix app Wkw Wreg Wdir pieces_ok delim_next];
    word_pieces; first [exact Hw | apply word_ok_reg; reflexivity].
Qed.

Lemma text_prefix f x t : text_of (field_prefix f ++ [W x t]) = operand_text f x.
Proof. unfold operand_text. rewrite text_of_app. cbn [text_of flat_map piece_text]. rewrite app_nil_r. reflexivity. Qed.

Definition operand_outcome (f : field) (x : str) (v : Z) (r : pres (list stmt)) : Prop :=
  if fits f v
  then r = POk [mkStmt [] (field_nucleus f v) 0 (byte_len (operand_text f x))]
  else exists k, r = PErr k (byte_len (text_of (field_prefix f)), byte_len (operand_text f x)).

Lemma one_statement nuc (prev : span) ok n lsp st f : starts_nucleus nuc -> (List.length nuc < f)%nat ->
  st = fst (cursor nuc prev) -> op_result ok (n, ([], lsp)) lsp (p_nucleus None (nuc, prev)) ->
  op_result ok [mkStmt [] n st (snd lsp)] lsp (p_stmts f (nuc, prev)).
Proof.
  intros Hs Hf -> H. destruct f as [|f]; [lia|]. cbn [p_stmts fst].
  pose proof (starts_nucleus_not_nl nuc [] Hs) as Hn. rewrite app_nil_r in Hn. rewrite Hn.
  unfold p_stmt. cbn [fst snd]. rewrite skip_labels_stop by exact Hs. cbn [fst snd].
  unfold op_result in *. destruct ok; [rewrite H|destruct H as [k ->]; exists k; reflexivity].
  cbn [pbind p_end fst snd skip_nl all_nl forallb]. rewrite p_stmts_all_nl by reflexivity. reflexivity.
Qed.

Ltac run_regs :=
  repeat first
    [ rewrite p_reg_comma_tok by reflexivity
    | rewrite p_reg_tok by reflexivity
    | (rewrite pbind_ok; cbn beta iota) ].

Theorem operand_text_parse f x t v : word_ok x t -> num_tok t v ->
  operand_outcome f x v (parse_ast (operand_text f x)).
Proof.
  intros Hw Ht. unfold operand_outcome. rewrite <- (text_prefix f x t).
  rewrite parse_pieces by (apply prefix_ok; exact Hw).
  (* of positions the outcome only says where the numeral, the last token, stands *)
  rewrite toks_of_app, text_of_app, byte_len_app. cbn [toks_of text_of flat_map piece_text]. rewrite app_nil_r, Z.add_0_l.
  generalize (byte_len (text_of (field_prefix f))) as P. intros P.
  assert (Hnc : negb (is_comment t) = true) by (destruct Ht as [[-> _]|[-> _]]; reflexivity).
  (* keyword and registers compute; the operand theorem of the field decides *)
  destruct f; cbn [field_prefix app toks_of Wkw Wreg Wdir]; unfold parse_tokens; cbn [filter fst is_comment negb];
    rewrite Hnc;
    (apply (one_statement _ (0, 0) (fits _ v) (field_nucleus _ v) (P, P + byte_len x));
      [exact Logic.I|cbn [List.length]; lia|reflexivity|]);
    cbn [p_nucleus fst snd field_nucleus].
  - apply (op_result_map _ NInstr). cbn [p_operands]. run_regs. apply (op_result_map _ (AADD 1 2)), operand_imm5, Ht.
  - apply (op_result_map _ NInstr). cbn [p_operands]. run_regs. apply (op_result_map _ (ALDR 3 4)), operand_offset6, Ht.
  - apply (op_result_map _ NInstr). cbn [p_operands]. run_regs. apply (op_result_map _ (ALD 5)), operand_pcoffset9, Ht.
  - apply (op_result_map _ NInstr). cbn [p_operands]. apply (op_result_map _ AJSR), operand_pcoffset11, Ht.
  - apply (op_result_map _ NInstr). cbn [p_operands]. apply (op_result_map _ ATRAP), operand_trapvect8, Ht.
  - apply (op_result_map _ NDir), (operand_orig (zs "orig")); [reflexivity|exact Ht].
  - apply (op_result_map _ NDir), (operand_blkw (zs "blkw")); [reflexivity|exact Ht].
  - destruct (operand_fill (zs "fill") (0, 0 + byte_len (46 :: zs "fill")) t v (P, P + byte_len x) [] (0, 0 + byte_len (46 :: zs "fill")) eq_refl Ht) as [Hf H].
    rewrite Hf. apply (op_result_map true NDir). exact H.
Qed.
