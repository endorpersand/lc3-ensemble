(* SimStrict.v — C14: strict mode only adds uninitialised-value errors.  [Rel m1 m2 s]: m1 from s fails with a
   strict error, or m2 from [unstrict s] (the strict flag cleared) ends in the [unstrict] of the same state with
   the same result; from the primitives through bind to the whole step. *)
From Coq Require Import ZArith List Bool.
From Model Require Import Word Sim.
From Proofs Require Import SimHoare.
Import ListNotations.
Open Scope Z_scope.

Definition unstrict_flags (f : flags) : flags := mkFlags false (fl_real f) (fl_debug_frames f) (fl_ignore_priv f).
Definition unstrict (s : sim) : sim :=
  mkSim (s_mem s) (s_regs s) (s_pc s) (s_psr s) (s_saved_sp s) (s_frame_no s) (s_frames s) (s_sr_defns s)
        (s_alloca s) (s_instrs s) (s_prefetch s) (s_obs s) (s_mcr s) (unstrict_flags (s_flags s)) (s_ireg s) (s_devs s).

Lemma unstrict_map_flags s : unstrict s = map_flags unstrict_flags s. Proof. reflexivity. Qed.

Definition strict_brk (b : brk) : bool := match b with BErr e => is_strict_err e | _ => false end.

(* two computations though both are the same program: below a [get] the second one's continuation has received
   [unstrict s], so its contexts have c_strict = false *)
Definition Rel {A} (m1 m2 : M A) (s : sim) : Prop :=
  match m1 s with
  | (s1, inl a) => m2 (unstrict s) = (unstrict s1, inl a)
  | (s1, inr b) => strict_brk b = true \/ m2 (unstrict s) = (unstrict s1, inr b)
  end.

Lemma rel_ret {A} (a : A) s : Rel (ret a) (ret a) s. Proof. reflexivity. Qed.
Lemma rel_fail {A} b s : Rel (@fail A b) (@fail A b) s. Proof. right. reflexivity. Qed.
Lemma rel_err {A} e s : Rel (@err A e) (@err A e) s. Proof. right. reflexivity. Qed.
Lemma rel_strict_err {A} e (m2 : M A) s : is_strict_err e = true -> Rel (@err A e) m2 s.
Proof. intros H. left. exact H. Qed.

Lemma rel_bind {A B} (m1 m2 : M A) (k1 k2 : A -> M B) s :
  Rel m1 m2 s -> (forall a s1, Rel (k1 a) (k2 a) s1) -> Rel (bind m1 k1) (bind m2 k2) s.
Proof.
  unfold Rel, bind. intros Hm Hk. destruct (m1 s) as [s1 [a|b]].
  - rewrite Hm. exact (Hk a s1).
  - destruct Hm as [Hm|Hm]; [left; exact Hm|]. right. rewrite Hm. reflexivity.
Qed.
Lemma rel_get {B} (k1 k2 : sim -> M B) s : Rel (k1 s) (k2 (unstrict s)) s -> Rel (bind get k1) (bind get k2) s.
Proof. unfold Rel, bind, get. auto. Qed.
Lemma rel_modify2 f1 f2 s : unstrict (f1 s) = f2 (unstrict s) -> Rel (modify f1) (modify f2) s.
Proof. unfold Rel, modify. intros H. rewrite H. reflexivity. Qed.
Lemma rel_modify f s : unstrict (f s) = f (unstrict s) -> Rel (modify f) (modify f) s.
Proof. apply rel_modify2. Qed.

Definition ctx_lax (c : ctx) : ctx := mkCtx (c_priv c) false (c_io c) (c_track c).

(* the second run's context: [default_ctx (unstrict s)] is [ctx_lax (default_ctx s)] by conversion.  No access looks
   at the flags; a read does not look at c_strict either, a store does through [may_store] *)
Lemma rel_read e a c s : Rel (read_mem e a c) (read_mem e a (ctx_lax c)) s.
Proof.
  unfold Rel. rewrite unstrict_map_flags, read_mem_map_flags. change (read_mem e a (ctx_lax c) s) with (read_mem e a c s).
  destruct (read_mem e a c s) as [s1 [w|b]]; [reflexivity|right; reflexivity].
Qed.

Lemma rel_write e a w c s : Rel (write_mem e a w c) (write_mem e a w (ctx_lax c)) s.
Proof.
  unfold Rel. rewrite unstrict_map_flags, write_mem_map_flags, !write_mem_eq.
  unfold may_store, mark_write. cbn [ctx_lax c_priv c_strict c_track negb orb].
  destruct (negb (c_priv c) && negb (in_user a)); [right; reflexivity|].
  (* the strict run stores the word exactly when it is initialised, the other one always *)
  destruct (negb (c_strict c) || is_init w).
  - destruct (IO_START <=? a); [destruct (io_write e a (w_data w) s) as [s1 [|]]|]; reflexivity.
  - destruct (IO_START <=? a); left; reflexivity.
Qed.

Lemma rel_get_if_init w st e s : is_strict_err e = true ->
  Rel (of_opt (get_if_init w st) e) (of_opt (get_if_init w false) e) s.
Proof.
  intros H. unfold get_if_init. destruct st; cbn [negb orb]; [|apply rel_ret].
  destruct (is_init w); [apply rel_ret | apply rel_strict_err; exact H].
Qed.
Lemma rel_set_if_init w st e s : is_strict_err e = true ->
  Rel (of_opt (set_if_init w st) e) (of_opt (set_if_init w false) e) s.
Proof.
  intros H. unfold set_if_init. destruct st; cbn [negb orb]; [|apply rel_ret].
  destruct (is_init w); [apply rel_ret | apply rel_strict_err; exact H].
Qed.

(* [rstep]: under [get] the continuations receive s and [unstrict s]; what they branch on reads fields [unstrict]
   leaves alone, so [change] makes the two conditions equal before the case split *)
Create HintDb rel discriminated.
#[export] Hint Extern 0 (Rel (ret _) _ _) => apply rel_ret : rel.
#[export] Hint Extern 0 (Rel (err _) _ _) => apply rel_err : rel.
#[export] Hint Extern 0 (Rel (fail _) _ _) => apply rel_fail : rel.
#[export] Hint Extern 0 (Rel (modify _) _ _) => apply rel_modify; reflexivity : rel.
#[export] Hint Extern 0 (Rel (read_mem _ _ _) _ _) => apply rel_read : rel.
#[export] Hint Extern 0 (Rel (write_mem _ _ _ _) _ _) => apply rel_write : rel.
#[export] Hint Extern 0 (Rel (of_opt (get_if_init _ _) _) _ _) => apply rel_get_if_init; reflexivity : rel.
#[export] Hint Extern 0 (Rel (of_opt (set_if_init _ _) _) _ _) => apply rel_set_if_init; reflexivity : rel.
Ltac rstep :=
  lazymatch goal with
  | |- Rel (bind get _) _ _ => apply rel_get; cbv beta zeta
  | |- Rel (bind _ _) _ _ => apply rel_bind; [ | intros ? ? ]
  | |- Rel (match ?x with _ => _ end) (match ?y with _ => _ end) _ => change y with x; destruct x
  | |- Rel (let _ := _ in _) _ _ => cbv zeta
  | |- _ => solve [auto 1 with rel nocore]
  end.

Lemma rel_set_pc w b s : Rel (set_pc w b) (set_pc w b) s.
Proof.
  unfold Rel. rewrite (set_pc_eq w b s), (set_pc_eq w b (unstrict s)). change (strict (unstrict s)) with false. cbn [negb orb andb].
  destruct (negb (strict s) || is_init w); [|left; reflexivity].
  destruct (strict s && b && negb (is_init (mget (s_mem s) (w_data w)))); [left; reflexivity|reflexivity].
Qed.
#[export] Hint Extern 0 (Rel (set_pc _ _) _ _) => apply rel_set_pc : rel.

Lemma rel_push_frame a b f s : Rel (push_frame a b f) (push_frame a b f) s.
Proof. unfold Rel. rewrite !push_frame_run. reflexivity. Qed.
#[export] Hint Extern 0 (Rel (push_frame _ _ _) _ _) => apply rel_push_frame : rel.

Lemma default_ctx_unstrict s :
  c_priv (default_ctx (unstrict s)) = c_priv (default_ctx s) /\ c_strict (default_ctx (unstrict s)) = false
  /\ c_io (default_ctx (unstrict s)) = c_io (default_ctx s) /\ c_track (default_ctx (unstrict s)) = c_track (default_ctx s).
Proof. repeat split. Qed.

Lemma rel_handle_interrupt e vect prio s : Rel (handle_interrupt e vect prio) (handle_interrupt e vect prio) s.
Proof. unfold handle_interrupt. cbv delta [call_interrupt swap_sp offset_pc]. repeat rstep. Qed.
#[export] Hint Extern 0 (Rel (handle_interrupt _ _ _) _ _) => apply rel_handle_interrupt : rel.

Lemma rel_exec e i s : Rel (exec e i) (exec e i) s.
Proof.
  unfold exec. cbv delta [call_subroutine set_reg_if_init set_cc swap_sp pop_frame offset_pc]. repeat rstep.
Qed.

#[export] Hint Extern 0 (Rel (exec _ _) _ _) => apply rel_exec : rel.
Lemma rel_decode_m w s : Rel (decode_m w) (decode_m w) s.
Proof. unfold decode_m. rstep; rstep. Qed.
#[export] Hint Extern 0 (Rel (decode_m _) _ _) => apply rel_decode_m : rel.

Lemma rel_step_inner e s : Rel (step_inner e) (step_inner e) s.
Proof. unfold step_inner. cbv delta [offset_pc]. repeat rstep. Qed.

(* the redirected outcomes are never strict errors, so the non-strict run takes the same branch *)
Lemma redirect_strict b : strict_brk b = true -> redirect (inr b) = None.
Proof. destruct b as [ |x| ]; try discriminate. destruct x; try discriminate; reflexivity. Qed.

Lemma rel_step e s : Rel (step e) (step e) s.
Proof.
  unfold Rel. rewrite (step_eq e s), (step_eq e (unstrict s)).
  pose proof (rel_step_inner e s) as R. unfold Rel in R.
  destruct (step_inner e s) as [s1 [u|b]].
  - rewrite R. change (fl_real (s_flags (unstrict s1))) with (fl_real (s_flags s1)).
    destruct (fl_real (s_flags s1)); reflexivity.
  - destruct R as [R|R].
    + rewrite (redirect_strict b R). destruct (fl_real (s_flags s1)); left; exact R.
    + rewrite R. change (fl_real (s_flags (unstrict s1))) with (fl_real (s_flags s1)).
      destruct (if fl_real (s_flags s1) then redirect (inr b) else None) as [v|].
      * exact (rel_handle_interrupt e v None s1).
      * right. reflexivity.
Qed.

Definition strict_res {A} (r : A + brk) : bool := match r with inr b => strict_brk b | inl _ => false end.
Lemma rel_same {A} (m1 m2 : M A) s : Rel m1 m2 s -> strict_res (snd (m1 s)) = false ->
  m2 (unstrict s) = (unstrict (fst (m1 s)), snd (m1 s)).
Proof.
  unfold Rel. destruct (m1 s) as [s1 [a|b]]; cbn [fst snd strict_res]; [auto|]. intros [H|H] E; [congruence|exact H].
Qed.
