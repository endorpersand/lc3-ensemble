(* AsmQueries.v — C23: the label queries of the symbol table against the positional bindings. *)
From Coq Require Import ZArith List Bool Lia Permutation.
From Model Require Import Tree Text Bits Instr Offset AsmAst Obj SourceInfo Assembler.
From Spec Require Import LayoutSpec WfSpec.
From Proofs Require Import AsmBase AsmPass1 AsmThms.
Import ListNotations.
Open Scope Z_scope.

(* the label occurrences that bind a name: on statements inside a block, and operands of .external *)
Definition occ_of (cs : pos * stmt) : list label :=
  (match fst cs with Some _ => s_labels (snd cs) | None => [] end)
  ++ match s_nucleus (snd cs) with NDir (DExternal l) => [l] | _ => [] end.
Definition occurrences (p : list stmt) : list label := flat_map occ_of (placed p).

Lemma lookup_case n1 n2 bs : upper n1 = upper n2 -> lookup n1 bs = lookup n2 bs.
Proof. unfold lookup. intros ->. reflexivity. Qed.

Theorem lookup_spec src p sym : typed p = true -> pass1 p src = AOk sym ->
  forall name, lookup_label sym name = option_map b_addr (spec_label p name).
Proof.
  intros T E name. unfold lookup_label, lookup_label_map. rewrite (labels_spec src p sym T E name).
  destruct (spec_label p name); reflexivity.
Qed.

Lemma binding_occurrence p b : In b (bindings p) ->
  exists l, In l (occurrences p) /\ b_name b = upper (l_name l) /\ b_src b = l_start l.
Proof.
  unfold bindings, occurrences. intros H. apply in_flat_map in H. destruct H as [[c s] [Hc Hb]].
  unfold binds_of in Hb. cbn [fst snd] in Hb. apply in_app_or in Hb. destruct Hb as [Hb|Hb].
  - destruct c as [[o a]|]; [|contradiction]. apply in_map_iff in Hb. destruct Hb as [l [<- Hl]].
    exists l. split; [|split; reflexivity]. apply in_flat_map. exists (Some (o, a), s). split; [exact Hc|].
    unfold occ_of. cbn [fst snd]. apply in_or_app. left. exact Hl.
  - destruct (s_nucleus s) as [i|[a0|o0|n|t| |l]] eqn:EN; try contradiction. destruct Hb as [<-|[]].
    exists l. split; [|split; reflexivity]. apply in_flat_map. exists (c, s). split; [exact Hc|].
    unfold occ_of. cbn [fst snd]. rewrite EN. apply in_or_app. right. left. reflexivity.
Qed.

Theorem source_spec src p sym : typed p = true -> pass1 p src = AOk sym ->
  forall name,
    get_label_source sym name = option_map (fun b => (b_src b, b_src b + byte_len name)) (spec_label p name)
    /\ (forall b, spec_label p name = Some b ->
          exists l, In l (occurrences p) /\ upper (l_name l) = upper name /\ get_label_source sym name = Some (label_span l)).
Proof.
  intros T E name. unfold get_label_source. rewrite (labels_spec src p sym T E name). split.
  - destruct (spec_label p name); reflexivity.
  - intros b EB. rewrite EB. cbn [option_map sym_of sd_src_start].
    unfold spec_label, lookup in EB. apply find_named_some in EB. destruct EB as [Hb Hn].
    destruct (binding_occurrence p b Hb) as [l [Hl [N1 N2]]]. exists l. split; [exact Hl|]. split; [congruence|].
    unfold label_span. rewrite N2. do 2 f_equal.
    rewrite <- (byte_len_upper name), <- Hn, N1, byte_len_upper. reflexivity.
Qed.

Theorem listing_spec src p sym : typed p = true -> pass1 p src = AOk sym ->
  NoDup (map (fun x => fst (fst x)) (label_iter sym)) /\
  forall k a e, In (k, a, e) (label_iter sym) <->
                exists b, find (named k) (bindings p) = Some b /\ a = b_addr b /\ e = b_ext b.
Proof.
  intros T E. destruct (pass1_rep src p sym T E) as [ND R]. unfold label_iter. split.
  - rewrite map_map. cbn [fst]. exact ND.
  - intros k a e. split.
    + intros H. apply in_map_iff in H. destruct H as [[k' d] [Hx Hd]]. cbn [fst snd] in Hx. injection Hx as -> <- <-.
      pose proof (in_lookup k _ d ND Hd : assoc k _ = Some d) as A. rewrite R in A.
      destruct (find (named k) (bindings p)) as [b|]; [|discriminate]. cbn in A. injection A as <-. exists b. repeat split.
    + intros [b [F [-> ->]]]. pose proof (R k) as A. rewrite F in A. cbn in A. apply (lookup_in k) in A.
      apply in_map_iff. exists (k, sym_of b). split; [reflexivity|exact A].
Qed.

(* for any iteration order of the hash map *)
Theorem rev_spec src p sym : typed p = true -> pass1 p src = AOk sym ->
  forall L' rel dbg a, Permutation L' (st_labels sym) ->
    (forall n, rev_lookup_label (mkSymtab L' rel dbg) a = Some n ->
       exists b, find (named n) (bindings p) = Some b /\ b_addr b = a)
    /\ ((exists name b, spec_label p name = Some b /\ b_addr b = a) -> rev_lookup_label (mkSymtab L' rel dbg) a <> None).
Proof.
  intros T E L' rel dbg a P. destruct (pass1_rep src p sym T E) as [ND R]. unfold rev_lookup_label. cbn [st_labels]. split.
  - intros n H. destruct (find (fun kv => sd_addr (snd kv) =? a) L') as [[k d]|] eqn:F; [|discriminate]. cbn in H. injection H as ->.
    apply find_some in F. destruct F as [F1 F2]. cbn in F2. apply Z.eqb_eq in F2.
    apply (Permutation_in _ P) in F1. pose proof (in_lookup n _ d ND F1 : assoc n _ = Some d) as A. rewrite R in A.
    destruct (find (named n) (bindings p)) as [b|]; [|discriminate]. cbn in A. injection A as <-. exists b. split; [reflexivity|exact F2].
  - intros [name [b [EB Ea]]] H. destruct (find (fun kv => sd_addr (snd kv) =? a) L') eqn:F; [discriminate|].
    pose proof (R (upper name)) as A. unfold spec_label, lookup in EB. rewrite EB in A. cbn in A. apply lookup_in in A.
    apply (Permutation_in _ (Permutation_sym P)) in A. pose proof (find_none _ _ F _ A) as X. cbn in X. apply Z.eqb_neq in X. congruence.
Qed.
