(* SimStrictRun.v — C14 over runs: a run of a strict machine in which no step reports a strict error is, step
   for step, the run of the same machine with strict mode off. *)
From Coq Require Import List Bool Arith.
From Model Require Import Sim.
From Proofs Require Import SimNoPanic SimStrict.
Import ListNotations.
Open Scope Z_scope.

Definition strict_out (o : outcome) : bool := match o with OErr x => is_strict_err x | _ => false end.

Lemma strict_step_same e s : strict_out (snd (step_in e s)) = false ->
  step_in e (unstrict s) = (unstrict (fst (step_in e s)), snd (step_in e s)).
Proof.
  unfold step_in. pose proof (rel_same _ _ _ (rel_step e (upd_obs s []))) as R.
  change (unstrict (upd_obs s [])) with (upd_obs (unstrict s) []) in R.
  destruct (step e (upd_obs s [])) as [s1 r]. cbn [fst snd] in *. intros H. rewrite R; [reflexivity|].
  destruct r as [u|[ |x| ]]; try reflexivity. exact H.
Qed.

Theorem strict_run_simulation es : forall s,
  existsb strict_out (snd (run_n es s)) = false ->
  run_n es (unstrict s) = (unstrict (fst (run_n es s)), snd (run_n es s)).
Proof.
  induction es as [|e es IH]; intros s H; [reflexivity|].
  cbn [run_n] in *. pose proof (strict_step_same e s) as E.
  destruct (step_in e s) as [s1 o].
  specialize (IH s1). destruct (run_n es s1) as [s2 os]. cbn [fst snd existsb] in *.
  apply orb_false_iff in H as [Ho Hos]. rewrite (E Ho), (IH Hos). reflexivity.
Qed.

Theorem strict_run_prefix es1 es2 s :
  existsb strict_out (snd (run_n es1 s)) = false ->
  fst (run_n (es1 ++ es2) (unstrict s)) = fst (run_n es2 (unstrict (fst (run_n es1 s)))) /\
  firstn (length es1) (snd (run_n (es1 ++ es2) (unstrict s))) = snd (run_n es1 s).
Proof.
  intros H. rewrite run_n_app, (strict_run_simulation es1 s H), <- (run_n_length es1 s).
  destruct (run_n es2 (unstrict (fst (run_n es1 s)))) as [s2 o2]. cbn [fst snd]. split; [reflexivity|].
  rewrite firstn_app, Nat.sub_diag, firstn_all. cbn [firstn]. apply app_nil_r.
Qed.
