(* LayoutProofs.v — C03: the parser returns exactly the statements written, whatever the layout.
   A layout (a "rendering" in props/C03.v) is a list of pieces with the reading of its tokens as
   written statements ([wstmt]).  The parser runs on such tokens with arbitrary spans: a nucleus, a
   statement, a program; [parse_layout] composes this with the lexing of the pieces. *)
From Coq Require Import ZArith List Bool Lia.
From Model Require Import Text Instr AsmAst Lexer Parser Print.
From Spec Require Import Numerals.
From Proofs Require Import ListFacts LexerProofs LexNumProofs OffsetProofs PiecesProofs ParserProofs PrintParseProofs.
Import ListNotations.
Open Scope Z_scope.

Definition br_cc (k : kw) : option Z :=
  match k with
  | KBR => Some 7 | KBRP => Some 1 | KBRZ => Some 2 | KBRZP => Some 3 | KBRN => Some 4
  | KBRNP => Some 5 | KBRNZ => Some 6 | KBRNZP => Some 7 | _ => None
  end.
Definition instr_kw_ok (i : asm_instr) (k : kw) : bool :=
  match i, k with
  | AADD _ _ _, KADD | AAND _ _ _, KAND | AJMP _, KJMP | AJSR _, KJSR | AJSRR _, KJSRR | ALD _ _, KLD
  | ALDI _ _, KLDI | ALDR _ _ _, KLDR | ALEA _ _, KLEA | ANOT _ _, KNOT | ARET, KRET | ARTI, KRTI
  | AST _ _, KST | ASTI _ _, KSTI | ASTR _ _ _, KSTR | ATRAP _, KTRAP | ANOP _, KNOP
  | AGETC, KGETC | AOUT, KOUT | APUTC, KPUTC | APUTS, KPUTS | AIN, KIN | APUTSP, KPUTSP | AHALT, KHALT => true
  | ABR cc _, k => match br_cc k with Some c => c =? cc | None => false end
  | _, _ => false
  end.

(* [nt]: the numeric token written (either signedness); [bare]: NOP written without operand *)
Definition pc_tok (o : pcoff) (nt : token) : token :=
  match o with POff _ => nt | PLab l => TIdent (ILabel (l_name l)) end.
Definition instr_ops (i : asm_instr) (nt : token) (bare : bool) : list token :=
  match i with
  | AADD dr sr o | AAND dr sr o =>
      [TReg dr; TComma; TReg sr; TComma; match o with Imm _ => nt | RegOp r => TReg r end]
  | ABR _ o | AJSR o => [pc_tok o nt]
  | AJMP r | AJSRR r => [TReg r]
  | ALD r o | ALDI r o | ALEA r o | AST r o | ASTI r o => [TReg r; TComma; pc_tok o nt]
  | ALDR a b _ | ASTR a b _ => [TReg a; TComma; TReg b; TComma; nt]
  | ANOT a b => [TReg a; TComma; TReg b]
  | ATRAP _ => [nt]
  | ANOP o => if bare then [] else [pc_tok o nt]
  | _ => []
  end.
Definition instr_num (i : asm_instr) : option Z :=
  match i with
  | AADD _ _ (Imm v) | AAND _ _ (Imm v) => Some v
  | ABR _ (POff v) | AJSR (POff v) | ALD _ (POff v) | ALDI _ (POff v) | ALEA _ (POff v)
  | AST _ (POff v) | ASTI _ (POff v) | ANOP (POff v) => Some v
  | ALDR _ _ v | ASTR _ _ v | ATRAP v => Some v
  | _ => None
  end.
Definition bare_ok (i : asm_instr) (bare : bool) : Prop :=
  bare = true -> i = ANOP (POff 0).

(* `Label::new(ident, span.start)`: a label operand sits where its token is *)
Definition reloc_pcoff (o : pcoff) (sp : span) : pcoff :=
  match o with POff v => POff v | PLab l => PLab (mkLabel (l_name l) (fst sp)) end.
Definition reloc_instr (i : asm_instr) (sp : span) : asm_instr :=
  match i with
  | ABR cc o => ABR cc (reloc_pcoff o sp) | AJSR o => AJSR (reloc_pcoff o sp)
  | ALD r o => ALD r (reloc_pcoff o sp) | ALDI r o => ALDI r (reloc_pcoff o sp) | ALEA r o => ALEA r (reloc_pcoff o sp)
  | AST r o => AST r (reloc_pcoff o sp) | ASTI r o => ASTI r (reloc_pcoff o sp) | ANOP o => ANOP (reloc_pcoff o sp)
  | _ => i
  end.

(* what may follow a NOP written without operand *)
Definition not_operand (rest : list tok) : Prop :=
  match rest with
  | (TUnsigned _, _) :: _ | (TSigned _, _) :: _ | (TIdent (ILabel _), _) :: _ => False
  | _ => True
  end.

Ltac dspans spans Hlen :=
  cbn [length] in Hlen;
  repeat (destruct spans as [|? spans]; [discriminate Hlen|]);
  destruct spans; [|discriminate Hlen]; clear Hlen.

Lemma p_ior_tok o nt sp ts prev : ior_okb o = true -> (forall v, o = Imm v -> num_tok nt v) ->
  p_ior 5 ((match o with Imm _ => nt | RegOp r => TReg r end, sp) :: ts, prev) = POk (o, (ts, sp)).
Proof.
  intros Hf Hnt. apply (reads_run _ _ _ _ _ _ _ (p_ior_reads 5 _ ltac:(lia))). unfold rd_ior.
  destruct o as [v|r]; cbn [ior_okb] in Hf.
  - rewrite (num_or_tok _ _ _ _ _ v (Hnt v eq_refl)), Hf. reflexivity.
  - rewrite reg_okb_ok in Hf. unfold num_or. cbn [num_value rd_reg option_map]. rewrite Hf. reflexivity.
Qed.
Lemma p_pcoff_tok n o nt sp ts prev : 1 <= n <= 16 -> pcoff_okb n o = true -> (forall v, o = POff v -> num_tok nt v) ->
  p_pcoff n ((pc_tok o nt, sp) :: ts, prev) = POk (reloc_pcoff o sp, (ts, sp)).
Proof.
  intros Hn Hf Hnt. apply (reads_run _ _ _ _ _ _ _ (p_pcoff_reads n _ Hn)). unfold rd_pc.
  destruct o as [v|l]; cbn [pcoff_okb pc_tok reloc_pcoff] in *; [|reflexivity].
  rewrite (num_or_tok _ _ _ _ _ v (Hnt v eq_refl)), Hf. reflexivity.
Qed.
Lemma p_off_tok fits conv t v sp ts prev : converts fits conv -> num_tok t v -> fits v = true ->
  p_off conv ((t, sp) :: ts, prev) = POk (v, (ts, sp)).
Proof.
  intros Hc Ht Hf. apply (reads_run _ _ _ _ _ _ _ (p_off_reads fits conv _ Hc)). unfold rd_num.
  rewrite (num_or_tok _ _ _ _ _ v Ht), Hf. reflexivity.
Qed.

(* in any context [nuc] parses to [n] and leaves the position behind its last token, of span [lsp] *)
Definition nucleus_reads (nuc : list tok) (n : nucleus) (lsp : span) : Prop :=
  starts_nucleus nuc /\
  forall rest prev last, not_operand rest ->
    p_nucleus last (nuc ++ rest, prev) = POk (n, (rest, lsp)).

Lemma nucleus_reads_instr i k nt bare ksp spans :
  instr_okb i = true -> instr_kw_ok i k = true -> bare_ok i bare ->
  (forall v, instr_num i = Some v -> bare = false -> num_tok nt v) ->
  length spans = length (instr_ops i nt bare) ->
  nucleus_reads ((TIdent (IKw k), ksp) :: combine (instr_ops i nt bare) spans)
                (NInstr (reloc_instr i (List.last spans ksp))) (List.last spans ksp).
Proof.
  intros Hok Hkw Hbare Hnt Hlen. split; [exact Logic.I|]. intros rest prev last Hrest. cbn [app].
  destruct i; destruct k; try discriminate Hkw; cbn [instr_okb] in Hok; split_andb;
    try (cbn [instr_kw_ok br_cc] in Hkw; apply Z.eqb_eq in Hkw; subst cc);
    (destruct bare; [specialize (Hbare eq_refl); try discriminate Hbare|]);
    cbn [instr_ops] in *; dspans spans Hlen;
    cbn [combine app List.last p_nucleus fst snd p_operands reloc_instr]; unfold p_br;
    repeat lazymatch goal with
    | |- context [pbind (POk _) _] => rewrite pbind_ok; cbn beta iota
    | |- context [p_reg_comma _] => rewrite p_reg_comma_tok by assumption
    | |- context [p_reg _] => rewrite p_reg_tok by assumption
    | |- context [p_ior 5 _] => rewrite (p_ior_tok _ nt) by (assumption || (intros ? ->; apply Hnt; reflexivity))
    | |- context [p_pcoff _ _] => rewrite (p_pcoff_tok _ _ nt) by (lia || assumption || (intros ? ->; apply Hnt; reflexivity))
    | |- context [p_off (conv_s _) _] => erewrite (p_off_tok (fits_s _)) by (eassumption || (apply conv_s_converts; lia) || (apply Hnt; reflexivity))
    | |- context [p_off (conv_u _) _] => erewrite (p_off_tok (fits_u _)) by (eassumption || (apply conv_u_converts; lia) || (apply Hnt; reflexivity))
    end; try reflexivity.
  - injection Hbare as ->.
    destruct rest as [|[t sp] rest']; [reflexivity|].
    destruct t; try reflexivity; try contradiction. destruct i; [reflexivity|contradiction].
  - destruct o as [v|l]; [|reflexivity]. destruct (Hnt v eq_refl eq_refl) as [[-> _]|[-> _]]; reflexivity.
Qed.

Definition dir_ops (d : directive) (nt : token) : list token :=
  match d with
  | DOrig _ | DBlkw _ => [nt]
  | DFill (POff _) => [nt]
  | DFill (PLab l) => [TIdent (ILabel (l_name l))]
  | DStringz s => [TString s]
  | DEnd => []
  | DExternal l => [TIdent (ILabel (l_name l))]
  end.
Definition dir_index (d : directive) : Z :=
  match d with DOrig _ => 0 | DFill _ => 1 | DBlkw _ => 2 | DStringz _ => 3 | DEnd => 4 | DExternal _ => 5 end.
(* .fill stores the written value modulo 2^16 *)
Definition dir_num_ok (d : directive) (nt : token) : Prop :=
  match d with
  | DOrig a => num_tok nt a
  | DBlkw n => num_tok nt n
  | DFill (POff v) => exists w, num_tok nt w /\ v = w mod 65536
  | _ => True
  end.
Definition reloc_dir (d : directive) (sp : span) : directive :=
  match d with
  | DFill o => DFill (reloc_pcoff o sp)
  | DExternal l => DExternal (mkLabel (l_name l) (fst sp))
  | _ => d
  end.
Definition reloc_nucleus (n : nucleus) (sp : span) : nucleus :=
  match n with NInstr i => NInstr (reloc_instr i sp) | NDir d => NDir (reloc_dir d sp) end.

Lemma shape_reloc n sp : shape_nucleus (reloc_nucleus n sp) = shape_nucleus n.
Proof. destruct n as [i|d]; [destruct i|destruct d]; try destruct o; reflexivity. Qed.

Lemma nucleus_reads_directive d name nt dsp spans :
  directive_okb d = true -> assoc_str (kw_upper name) dir_names = Some (dir_index d) -> dir_num_ok d nt ->
  length spans = length (dir_ops d nt) ->
  nucleus_reads ((TDirective name, dsp) :: combine (dir_ops d nt) spans)
                (NDir (reloc_dir d (List.last spans dsp))) (List.last spans dsp).
Proof.
  intros Hok Hidx Hnum Hlen. split; [exact Logic.I|]. intros rest prev last _. cbn [app].
  destruct d; try destruct o; cbn [directive_okb dir_ops dir_index dir_num_ok] in *; split_andb;
    dspans spans Hlen; cbn [combine app List.last p_nucleus fst snd reloc_dir reloc_pcoff];
    try (unfold p_directive; rewrite Hidx; reflexivity).
  - unfold p_directive. rewrite Hidx. erewrite (p_off_tok (fits_u 16)) by (eassumption || (apply conv_u_converts; lia)). reflexivity.
  - destruct Hnum as [w [Hw ->]].
    destruct (operand_fill name dsp nt w s rest dsp Hidx Hw) as [_ Hf]. cbn [stored] in Hf.
    (* [rewrite Hf] finds no match: implicit arguments ([ppos], [tok], [span]) differ from their unfoldings *)
    match type of Hf with _ = ?r =>
      match goal with |- context [p_directive ?a ?b ?c] => replace (p_directive a b c) with r by (symmetry; exact Hf) end
    end. reflexivity.
  - unfold p_directive. rewrite Hidx. cbn zeta. erewrite (p_off_tok (fits_u 16)) by (eassumption || (apply conv_u_converts; lia)). cbn [pbind].
    destruct (n =? 0); [discriminate|reflexivity].
Qed.

Definition nl_toks (sps : list span) : list tok := map (fun sp => (TNewLine, sp)) sps.

(* a label as written: its token, an optional colon, the line breaks before what follows *)
Record wlabel := mkWLabel { wl_name : str; wl_sp : span; wl_colon : option span; wl_nls : list span }.
Definition wlabel_toks (w : wlabel) : list tok :=
  (TIdent (ILabel (wl_name w)), wl_sp w)
    :: (match wl_colon w with Some c => [(TColon, c)] | None => [] end) ++ nl_toks (wl_nls w).
Definition wlabel_label (w : wlabel) : label := mkLabel (wl_name w) (fst (wl_sp w)).

Lemma all_nl_nl_toks sps ts : all_nl (nl_toks sps ++ ts) = all_nl ts.
Proof. induction sps as [|sp sps IH]; [reflexivity|]. cbn [nl_toks map app]. unfold all_nl in *. cbn [forallb fst is_newline andb]. exact IH. Qed.

Lemma starts_nucleus_not_nl nuc rest : starts_nucleus nuc -> all_nl (nuc ++ rest) = false.
Proof.
  destruct nuc as [|[t sp] nuc]; [contradiction|]. cbn [starts_nucleus app]. destruct t; try contradiction.
  - destruct i; [|contradiction]. intros _. apply all_nl_cons_false. reflexivity.
  - intros _. apply all_nl_cons_false. reflexivity.
Qed.

Lemma skip_labels_nls sps : forall ts prev last, all_nl ts = false ->
  exists prev', skip_labels (nl_toks sps ++ ts) prev last = skip_labels ts prev' last.
Proof.
  induction sps as [|sp sps IH]; intros ts prev last Hts; [exists prev; reflexivity|].
  cbn [nl_toks map app]. fold (nl_toks sps).
  destruct (IH ts sp last Hts) as [prev' H]. exists prev'. rewrite <- H.
  unfold skip_labels at 1; fold skip_labels.
  destruct (all_nl (_ :: _)) eqn:E; [|reflexivity].
  change (all_nl (nl_toks (sp :: sps) ++ ts) = true) in E. rewrite all_nl_nl_toks in E. congruence.
Qed.

Lemma skip_labels_wlabels ws : forall nuc rest prev last, starts_nucleus nuc ->
  exists last' prev',
    skip_labels (flat_map wlabel_toks ws ++ nuc ++ rest) prev last =
      (map wlabel_label ws, last', (nuc ++ rest, prev')).
Proof.
  induction ws as [|w ws IH]; intros nuc rest prev last Hs.
  - cbn [flat_map app map]. exists last, prev. apply skip_labels_stop.
    destruct nuc as [|[t sp] nuc]; [contradiction|]. exact Hs.
  - cbn [flat_map map]. rewrite <- app_assoc. unfold wlabel_toks at 1. cbn [app].
    assert (Hnn : all_nl (flat_map wlabel_toks ws ++ nuc ++ rest) = false).
    { destruct ws as [|w2 ws2]; [cbn [flat_map app]; apply starts_nucleus_not_nl; exact Hs|]. reflexivity. }
    set (lsp := match wl_colon w with Some c => c | None => wl_sp w end).
    destruct (skip_labels_nls (wl_nls w) (flat_map wlabel_toks ws ++ nuc ++ rest) lsp (Some (wl_sp w)) Hnn) as [pv Hnl].
    destruct (IH nuc rest pv (Some (wl_sp w)) Hs) as [last' [prev' H]]. exists last', prev'.
    subst lsp. destruct (wl_colon w) as [c|]; cbn [app].
    + rewrite skip_labels_colon, Hnl, H. reflexivity.
    + rewrite skip_labels_label, Hnl, H; [reflexivity|].
      (* what follows is no colon *)
      destruct (wl_nls w) as [|sp sps]; cbn [nl_toks map app]; [|exact Logic.I].
      destruct ws as [|w2 ws2]; cbn [flat_map app]; [|exact Logic.I].
      destruct nuc as [|[t sp] nuc]; [contradiction|]. cbn [starts_nucleus app] in Hs |- *. destruct t; try contradiction; exact Logic.I.
Qed.

(* a statement as written: [ws_nuc] the nucleus tokens, [ws_post] the line breaks that end it; [ws_n],
   [ws_start], [ws_lsp] (span of the last nucleus token) are data that [wstmt_ok] ties to [ws_nuc] *)
Record wstmt := mkWStmt {
  ws_labels : list wlabel; ws_nuc : list tok; ws_n : nucleus; ws_start : Z; ws_lsp : span; ws_post : list span }.
Definition wstmt_toks (w : wstmt) : list tok :=
  flat_map wlabel_toks (ws_labels w) ++ ws_nuc w ++ nl_toks (ws_post w).
Definition wstmt_stmt (w : wstmt) : stmt :=
  mkStmt (map wlabel_label (ws_labels w)) (ws_n w) (ws_start w) (snd (ws_lsp w)).
Definition wstmt_ok (w : wstmt) : Prop :=
  nucleus_reads (ws_nuc w) (ws_n w) (ws_lsp w) /\
  match ws_nuc w with (_, sp) :: _ => ws_start w = fst sp | [] => False end.

Lemma not_operand_nl sps ts : not_operand (nl_toks sps ++ ts) \/ sps = [].
Proof. destruct sps; [right; reflexivity|left; exact Logic.I]. Qed.

Definition starts_stmt (ts : list tok) : Prop :=
  match ts with
  | (TIdent _, _) :: _ | (TDirective _, _) :: _ => True
  | _ => False
  end.
Lemma starts_stmt_not_nl ts : starts_stmt ts -> all_nl ts = false.
Proof.
  destruct ts as [|[t sp] ts]; [contradiction|]. cbn [starts_stmt]. destruct t; try contradiction; intros _;
    apply all_nl_cons_false; reflexivity.
Qed.

Lemma skip_nl_nls sps : forall ts prev, starts_stmt ts -> exists prev', skip_nl (nl_toks sps ++ ts) prev = (ts, prev').
Proof.
  induction sps as [|sp sps IH]; intros ts prev Hts.
  - exists prev. destruct ts as [|[t s] ts]; [contradiction|]. destruct t; try contradiction; reflexivity.
  - cbn [nl_toks map app]. fold (nl_toks sps). destruct (IH ts sp Hts) as [prev' H]. exists prev'.
    unfold skip_nl at 1; fold skip_nl.
    destruct (all_nl (_ :: _)) eqn:E; [|exact H].
    change (all_nl (nl_toks (sp :: sps) ++ ts) = true) in E. rewrite all_nl_nl_toks, (starts_stmt_not_nl ts Hts) in E. discriminate E.
Qed.

Lemma p_stmt_front w ts prev : wstmt_ok w -> not_operand (nl_toks (ws_post w) ++ ts) ->
  p_stmt (wstmt_toks w ++ ts, prev) =
    (let* p3 := p_end (nl_toks (ws_post w) ++ ts, ws_lsp w) in POk (wstmt_stmt w, skip_nl (fst p3) (snd p3))).
Proof.
  intros [[Hst Hread] Hstart] Hno. unfold p_stmt, wstmt_toks. cbn [fst snd]. rewrite <- !app_assoc.
  destruct (skip_labels_wlabels (ws_labels w) (ws_nuc w) (nl_toks (ws_post w) ++ ts) prev None Hst) as [last' [prev' Hsk]].
  rewrite Hsk. cbn [fst snd]. rewrite Hread by exact Hno. cbn [pbind fst snd].
  replace (fst (cursor (ws_nuc w ++ nl_toks (ws_post w) ++ ts) prev')) with (ws_start w); [reflexivity|].
  destruct (ws_nuc w) as [|[t s] nuc]; [contradiction|]. exact Hstart.
Qed.

Lemma all_nl_toks sps : all_nl (nl_toks sps) = true.
Proof. rewrite <- (app_nil_r (nl_toks sps)), all_nl_nl_toks. reflexivity. Qed.

Lemma p_stmt_mid w ts prev : wstmt_ok w -> ws_post w <> [] -> starts_stmt ts ->
  exists prev', p_stmt (wstmt_toks w ++ ts, prev) = POk (wstmt_stmt w, (ts, prev')).
Proof.
  intros Hw Hpost Hts.
  rewrite p_stmt_front by (exact Hw || (destruct (ws_post w); [congruence|exact Logic.I])).
  destruct (ws_post w) as [|sp sps]; [congruence|]. cbn [nl_toks map app p_end fst snd pbind]. fold (nl_toks sps).
  destruct (skip_nl_nls sps ts sp Hts) as [prev' Hs]. rewrite Hs. exists prev'. reflexivity.
Qed.

Lemma p_stmt_last w prev : wstmt_ok w ->
  exists p', p_stmt (wstmt_toks w, prev) = POk (wstmt_stmt w, p') /\ all_nl (fst p') = true.
Proof.
  intros Hw. replace (wstmt_toks w, prev) with (wstmt_toks w ++ [], prev) by (rewrite app_nil_r; reflexivity).
  rewrite p_stmt_front by (exact Hw || (rewrite app_nil_r; destruct (ws_post w); exact Logic.I)).
  rewrite app_nil_r. destruct (ws_post w) as [|sp sps]; cbn [nl_toks map p_end fst snd pbind].
  - eexists. split; reflexivity.
  - fold (nl_toks sps). rewrite skip_nl_all by apply all_nl_toks. eexists. split; [reflexivity|apply all_nl_toks].
Qed.

(* every statement but the last ends with a line break *)
Fixpoint prog_toks (ws : list wstmt) : list tok :=
  match ws with [] => [] | w :: r => wstmt_toks w ++ prog_toks r end.
Fixpoint prog_ok (ws : list wstmt) : Prop :=
  match ws with
  | [] => True
  | [w] => wstmt_ok w
  | w :: r => wstmt_ok w /\ ws_post w <> [] /\ prog_ok r
  end.

Lemma wstmt_toks_starts w rest : wstmt_ok w -> starts_stmt (wstmt_toks w ++ rest).
Proof.
  intros [[Hst _] _]. unfold wstmt_toks. destruct (ws_labels w) as [|l ls]; cbn [flat_map app].
  - destruct (ws_nuc w) as [|[t sp] nuc]; [contradiction|]. cbn [starts_nucleus app starts_stmt] in *.
    destruct t; try contradiction; exact Logic.I.
  - exact Logic.I.
Qed.

Lemma wstmt_toks_not_nl w rest : wstmt_ok w -> all_nl (wstmt_toks w ++ rest) = false.
Proof. intros H. apply starts_stmt_not_nl, wstmt_toks_starts, H. Qed.

Lemma wstmt_toks_len w : wstmt_ok w -> (1 <= length (wstmt_toks w))%nat.
Proof.
  intros [[Hst _] _]. unfold wstmt_toks. rewrite !app_length.
  destruct (ws_nuc w) as [|t nuc]; [contradiction|]. cbn [length]. lia.
Qed.

Theorem p_stmts_program : forall ws f prev, prog_ok ws -> (length (prog_toks ws) < f)%nat ->
  p_stmts f (prog_toks ws, prev) = POk (map wstmt_stmt ws).
Proof.
  induction ws as [|w r IH]; intros f prev Hok Hf.
  - cbn [prog_toks map]. apply p_stmts_all_nl. reflexivity.
  - destruct f as [|f]; [lia|]. cbn [p_stmts fst prog_toks].
    destruct r as [|w2 r2].
    + cbn [prog_toks prog_ok] in *. rewrite app_nil_r in *.
      pose proof (wstmt_toks_not_nl w [] Hok) as Hn. rewrite app_nil_r in Hn. rewrite Hn.
      destruct (p_stmt_last w prev Hok) as [p' [H1 H2]]. rewrite H1. cbn [pbind].
      rewrite p_stmts_all_nl by exact H2. reflexivity.
    + cbn [prog_ok] in Hok. destruct Hok as [Hw [Hpost Hr]].
      rewrite wstmt_toks_not_nl by exact Hw.
      assert (Hs2 : starts_stmt (prog_toks (w2 :: r2))).
      { cbn [prog_toks]. apply wstmt_toks_starts. destruct r2; [exact Hr|apply Hr]. }
      destruct (p_stmt_mid w (prog_toks (w2 :: r2)) prev Hw Hpost Hs2) as [prev' H1]. rewrite H1. cbn [pbind].
      rewrite IH; [reflexivity|exact Hr|].
      cbn [prog_toks] in Hf. rewrite app_length in Hf. pose proof (wstmt_toks_len w Hw). cbn [prog_toks]. lia.
Qed.

Lemma p_stmts_lead f sps ts prev : all_nl ts = false ->
  exists prev', p_stmts (S f) (nl_toks sps ++ ts, prev) = p_stmts (S f) (ts, prev').
Proof.
  intros Hts. destruct (skip_labels_nls sps ts prev None Hts) as [prev' H]. exists prev'.
  cbn [p_stmts fst]. rewrite all_nl_nl_toks, Hts. unfold p_stmt. cbn [fst snd]. rewrite H. reflexivity.
Qed.

Lemma prog_toks_not_nl w r : prog_ok (w :: r) -> all_nl (prog_toks (w :: r)) = false.
Proof. intros Hok. cbn [prog_toks]. apply wstmt_toks_not_nl. destruct r; [exact Hok|apply Hok]. Qed.

Lemma parse_pieces ps : pieces_ok ps -> parse_ast (text_of ps) = parse_tokens (toks_of 0 ps).
Proof. intros Hps. unfold parse_ast, parse_ast_with. fold (lex (text_of ps)). rewrite lex_pieces by exact Hps. reflexivity. Qed.

Theorem parse_layout ps lead ws : pieces_ok ps ->
  filter (fun t : tok => negb (is_comment (fst t))) (toks_of 0 ps) = nl_toks lead ++ prog_toks ws ->
  prog_ok ws ->
  parse_ast (text_of ps) = POk (map wstmt_stmt ws).
Proof.
  intros Hps Htoks Hok. rewrite parse_pieces by exact Hps. unfold parse_tokens.
  match goal with |- context [filter ?f (toks_of 0 ps)] =>
    replace (filter f (toks_of 0 ps)) with (nl_toks lead ++ prog_toks ws) by (symmetry; exact Htoks) end.
  destruct ws as [|w r].
  - cbn [prog_toks map]. rewrite app_nil_r. apply p_stmts_all_nl, all_nl_toks.
  - destruct (p_stmts_lead (length (nl_toks lead ++ prog_toks (w :: r))) lead (prog_toks (w :: r)) (0, 0)) as [prev' H].
    { apply prog_toks_not_nl, Hok. }
    etransitivity; [exact H|]. apply p_stmts_program; [exact Hok|]. rewrite app_length. lia.
Qed.

Theorem parse_layout_shape ps1 lead1 ws1 ps2 lead2 ws2 :
  pieces_ok ps1 -> filter (fun t : tok => negb (is_comment (fst t))) (toks_of 0 ps1) = nl_toks lead1 ++ prog_toks ws1 -> prog_ok ws1 ->
  pieces_ok ps2 -> filter (fun t : tok => negb (is_comment (fst t))) (toks_of 0 ps2) = nl_toks lead2 ++ prog_toks ws2 -> prog_ok ws2 ->
  map (fun w => shape_stmt (wstmt_stmt w)) ws1 = map (fun w => shape_stmt (wstmt_stmt w)) ws2 ->
  exists l1 l2, parse_ast (text_of ps1) = POk l1 /\ parse_ast (text_of ps2) = POk l2 /\ map shape_stmt l1 = map shape_stmt l2.
Proof.
  intros A1 A2 A3 B1 B2 B3 Hs. exists (map wstmt_stmt ws1), (map wstmt_stmt ws2).
  split; [apply (parse_layout ps1 lead1); assumption|]. split; [apply (parse_layout ps2 lead2); assumption|].
  rewrite !map_map. exact Hs.
Qed.

Definition last_span (ts : list tok) : span := List.last (map snd ts) (0, 0).

Lemma toks_split ts t0 ops : map fst ts = t0 :: ops ->
  exists ksp spans, ts = (t0, ksp) :: combine ops spans /\ length spans = length ops /\ last_span ts = List.last spans ksp.
Proof.
  intros Hts. destruct ts as [|[t ksp] r]; [discriminate Hts|]. cbn [map fst] in Hts. injection Hts as -> Hr.
  exists ksp, (map snd r). rewrite <- Hr, combine_fst_snd, !map_length. repeat split.
  unfold last_span. cbn [map snd]. apply last_cons.
Qed.

Lemma tokens_read_instr i k nt ts :
  instr_okb i = true -> instr_kw_ok i k = true -> (forall v, instr_num i = Some v -> num_tok nt v) ->
  map fst ts = TIdent (IKw k) :: instr_ops i nt false ->
  nucleus_reads ts (NInstr (reloc_instr i (last_span ts))) (last_span ts).
Proof.
  intros Hok Hkw Hnt Hts. destruct (toks_split ts _ _ Hts) as (ksp & spans & -> & Hlen & ->).
  apply nucleus_reads_instr; try assumption.
  - intros H. discriminate H.
  - intros v Hv _. apply Hnt. exact Hv.
Qed.

Lemma tokens_read_directive d name nt ts :
  directive_okb d = true -> assoc_str (kw_upper name) dir_names = Some (dir_index d) -> dir_num_ok d nt ->
  map fst ts = TDirective name :: dir_ops d nt ->
  nucleus_reads ts (NDir (reloc_dir d (last_span ts))) (last_span ts).
Proof.
  intros Hok Hidx Hnum Hts. destruct (toks_split ts _ _ Hts) as (ksp & spans & -> & Hlen & ->).
  apply nucleus_reads_directive; assumption.
Qed.
