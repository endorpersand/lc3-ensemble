(* DisasmOrigin.v — C07 at EVERY origin.  A word disassembles to `.fill w` or to the instruction it
   decodes to: a label-free statement of the parser's image with the word as its encoding (C06).  The
   wrapped text is a layout of three statements, and a label-free statement assembles to its word at
   every origin (AsmOrigin.single_statement). *)
From Coq Require Import ZArith List Bool Lia String.
From Model Require Import Bits Text Instr AsmAst Obj Lexer Parser Print Assembler Disasm.
From Spec Require Import Numerals LayoutSpec.
From Proofs Require Import TextFacts LexerProofs LexNumProofs PiecesProofs PrintParseProofs LayoutProofs PrintLayoutProofs
  OffsetProofs InstrProofs AsmOrigin.
Import ListNotations.
Open Scope Z_scope.

Lemma word_ok_hex4 o : 0 <= o < 65536 -> word_ok (120 :: hex4 o) (TUnsigned o) /\ byte_len (hex4 o) = 4.
Proof.
  intros Ho.
  assert (Hc : hex4 o = map (digit_char true) [o / 4096 mod 16; o / 256 mod 16; o / 16 mod 16; o mod 16]) by reflexivity.
  assert (Hr : Forall (fun d => 0 <= d < 16) [o / 4096 mod 16; o / 256 mod 16; o / 16 mod 16; o mod 16])
    by (repeat constructor; apply Z.mod_pos_bound; lia).
  assert (Hh : Forall hex_digit (hex4 o)).
  { rewrite Hc. apply Forall_map. eapply Forall_impl; [|exact Hr]. intros d Hd. apply digit_char_value. exact Hd. }
  assert (Hv : value_of 16 (hex4 o) = o).
  { rewrite Hc. unfold value_of. rewrite numeral_value_chars by exact Hr. unfold evalD. cbn [fold_left].
    Z.div_mod_to_equations. lia. }
  split.
  - rewrite <- Hv at 2. apply (word_ok_unsigned (NHex 120)); [reflexivity|reflexivity|discriminate|exact Hh|cbn [nt_radix]; lia].
  - apply (hex_digits_bytes _ Hh).
Qed.

(* below x0200 nothing is disassembled as an instruction *)
Lemma encode_br0 off : encode (SBR 0 off) < 512.
Proof.
  change (encode (SBR 0 off)) with (Z.lor 0 (Z.lor 0 (Z.lor (Z.shiftl (Z.land (to_u16 off) (Z.ones 9)) 0) 0))).
  rewrite !Z.lor_0_l, Z.lor_0_r, Z.shiftl_0_r, Z.land_ones by lia. apply Z.mod_pos_bound. reflexivity.
Qed.

Lemma to_asm_spec i :
  label_free (NInstr (to_asm i)) = true /\ expand [] 0 (to_asm i) = i /\
  (valid i = true -> 512 <= encode i -> instr_okb (to_asm i) = true).
Proof.
  destruct i as [cc off|dr sr1 o|dr off|sr off|o|dr sr1 o|dr br off|sr br off| |dr sr|dr off|sr off|br|dr off|v];
    try destruct o; cbn [to_asm valid valid_ior];
    try (destruct (br =? 7) eqn:E; [apply Z.eqb_eq in E; subst br|]);
    repeat (destruct (v =? _) eqn:E; [apply Z.eqb_eq in E; subst v; repeat split|clear E]);
    (split; [reflexivity|]); (split; [reflexivity|]); cbn [instr_okb ior_okb pcoff_okb]; intros Hv He;
    (* [valid] is [instr_okb] spelled with [rng] and [reg_ok]: convertible, the hypothesis is the goal *)
    try exact Hv; try reflexivity.
  (* BR: cc <> 0 *)
  unfold rng in Hv. assert (cc <> 0) by (intros ->; pose proof (encode_br0 off); lia).
  unfold fits_s. change (2 ^ (9 - 1)) with 256. lia.
Qed.

Definition disasm_nucleus (w : Z) (n : nucleus) : Prop :=
  nucleus_okb n = true /\ (forall v, n <> NDir (DStringz v)) /\ label_free n = true /\ word_of n = w.

Lemma disassemble_cases w : 0 <= w < 65536 -> exists n, disassemble w = mkStmt [] n 0 0 /\ disasm_nucleus w n.
Proof.
  intros Hw.
  assert (Hfill : exists n, mkStmt [] (NDir (DFill (POff w))) 0 0 = mkStmt [] n 0 0 /\ disasm_nucleus w n).
  { eexists. split; [reflexivity|]. split; [cbn [nucleus_okb directive_okb]; unfold fits_u; change (2 ^ 16) with 65536; lia|].
    split; [discriminate|]. split; reflexivity. }
  unfold disassemble, try_disassemble. destruct (w <? 512) eqn:E; [exact Hfill|].
  destruct (decode w) as [i| | |] eqn:D; try exact Hfill.
  destruct (proj1 (decode_iff w i Hw) D) as [He Hv]. destruct (to_asm_spec i) as (Hlf & Hex & Hok).
  exists (NInstr (to_asm i)). split; [reflexivity|].
  split; [apply Hok; [exact Hv|lia]|]. split; [discriminate|]. split; [exact Hlf|].
  cbn [word_of]. rewrite Hex. exact He.
Qed.

Lemma reloc_label_free n sp : label_free n = true -> reloc_nucleus n sp = n.
Proof.
  destruct n as [i|d]; [destruct i|destruct d]; try destruct o; intros H; try reflexivity; discriminate H.
Qed.

Theorem parse_at_origin o w : 0 <= o < 65536 -> 0 <= w < 65536 ->
  exists n c d e f,
    parse_ast (wrap_text o (disasm_text w))
    = POk [mkStmt [] (NDir (DOrig o)) 0 11; mkStmt [] n c d; mkStmt [] (NDir DEnd) e f]
    /\ label_free n = true /\ word_of n = w.
Proof.
  intros Ho Hw. destruct (disassemble_cases w Hw) as (n & Hs & Hok & Hstr & Hlf & Hwo).
  destruct (word_ok_hex4 o Ho) as [Hx Hb].
  set (hdr := [Wdir "orig"; Sp; W (120 :: hex4 o) (TUnsigned o); Nl false]).
  set (ftr := [Nl false; Wdir "end"]).
  assert (Hsp : stmt_pieces (disassemble w) = nucleus_pieces n) by (rewrite Hs; reflexivity).
  assert (Et : wrap_text o (disasm_text w) = text_of (hdr ++ nucleus_pieces n ++ ftr)).
  { unfold wrap_text, disasm_text. rewrite print_stmt_pieces, Hsp, !text_of_app. reflexivity. }
  (* ".orig xOOOO" and its line break are 12 bytes, the nucleus L, then a line break and ".end" *)
  set (L := byte_len (text_of (nucleus_pieces n))).
  set (w1 := mkWStmt [] [(TDirective (zs "orig"), (0, 5)); (TUnsigned o, (6, 11))] (NDir (DOrig o)) 0 (6, 11) [(11, 12)]).
  set (w2 := printed_wstmt [] n 12 [(12 + L, 12 + L + 1)]).
  set (w3 := mkWStmt [] [(TDirective (zs "end"), (12 + L + 1, 12 + L + 1 + 4))] (NDir DEnd) (12 + L + 1)
                     (12 + L + 1, 12 + L + 1 + 4) []).
  assert (Hp : parse_ast (text_of (hdr ++ nucleus_pieces n ++ ftr)) = POk (map wstmt_stmt [w1; w2; w3])).
  { apply (parse_layout _ []).
    - cbn [hdr app pieces_ok]. split; [apply word_ok_directive; reflexivity|]. split; [exact Logic.I|].
      split; [exact Hx|]. split; [exact Logic.I|].
      apply pieces_ok_app; [|cbn [ftr pieces_ok]; split; [apply word_ok_directive; reflexivity|split; exact Logic.I]
                            |exact Logic.I].
      rewrite <- Hsp. apply stmt_pieces_ok; rewrite Hs.
      + unfold in_parser_image. cbn [s_labels s_nucleus forallb andb]. exact Hok.
      + unfold printable_strings. cbn [s_nucleus]. destruct n as [i|[]]; try reflexivity. elim (Hstr s). reflexivity.
    - rewrite filter_toks.
      2:{ rewrite !forallb_app, <- Hsp, stmt_pieces_no_comment. reflexivity. }
      assert (Hh : byte_len (text_of hdr) = 12).
      { cbn [hdr text_of flat_map piece_text Wdir nl_text]. rewrite !byte_len_app. cbn [byte_len]. rewrite Hb. reflexivity. }
      rewrite !toks_of_app, Hh. cbn [hdr ftr toks_of Wdir nl_text app byte_len]. rewrite Hb.
      cbn [prog_toks]. unfold wstmt_toks.
      subst w1 w2 w3. cbn [printed_wstmt ws_labels ws_nuc ws_post flat_map nl_toks map app]. rewrite <- !app_assoc. reflexivity.
    - cbn [prog_ok]. split; [|split; [discriminate|split; [|split; [discriminate|]]]].
      + split; [|reflexivity].
        apply (tokens_read_directive (DOrig o) (zs "orig") (TUnsigned o)); try reflexivity.
        * cbn [directive_okb]. unfold fits_u. change (2 ^ 16) with 65536. lia.
        * left. split; [reflexivity|lia].
      + apply printed_wstmt_ok. exact Hok.
      + split; [|reflexivity].
        (* .end: the numeric token is not looked at *)
        apply (tokens_read_directive DEnd (zs "end") TComma); reflexivity || exact Logic.I. }
  rewrite Et, Hp. subst w1 w2 w3. unfold wstmt_stmt, printed_wstmt. cbn [map ws_labels ws_n ws_start ws_lsp snd].
  rewrite (reloc_label_free n _ Hlf).
  eexists _, _, _, _, _. split; [reflexivity|]. split; [exact Hlf|exact Hwo].
Qed.

(* 65023: the word must lie below the I/O page *)
Theorem roundtrip_every_origin o w : 0 <= o <= 65023 -> 0 <= w < 65536 ->
  exists p obj, parse_ast (wrap_text o (disasm_text w)) = POk p /\ assemble false None p = AOk obj
                /\ o_blocks obj = [(o, [Some w])] /\ o_sym obj = None.
Proof.
  intros Ho Hw. destruct (parse_at_origin o w ltac:(lia) Hw) as [n [c [d [e [f [P [LF WO]]]]]]].
  eexists. eexists. split; [exact P|]. rewrite (single_statement o n 0 11 c d e f Ho LF). rewrite WO.
  split; [reflexivity|]. split; reflexivity.
Qed.
