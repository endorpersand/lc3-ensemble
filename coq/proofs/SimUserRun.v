(* SimUserRun.v — C09 over steps and runs.  [UP s0 s] is [U s0 s] up to the devices: the machine polls them at every
   boundary, which is its own doing and not the program's ([PolledFrom]).  A step is a [step_inner]: what [step] redirects
   into the OS under real traps is not covered. *)
From Coq Require Import ZArith List Bool Lia FMapPositive.
From Gen Require Import Constants.
From Model Require Import Tree Bits Word Instr Sim.
From Proofs Require Import SimHoare SimUser IrqProofs.
Import ListNotations.
Open Scope Z_scope.

Definition UP (s0 s : sim) : Prop := U (upd_devs s0 (s_devs s)) s.

Lemma UP_intro s0 d s : U (upd_devs s0 d) s -> UP s0 s.
Proof.
  intros (P & F & I & M & D & SS & MC & IR). unfold UP, U. cbn [upd_devs s_flags s_mem s_devs s_saved_sp s_mcr s_ireg] in *.
  repeat split; try assumption; try apply P.
Qed.
Lemma UP_of_U s0 s : U s0 s -> UP s0 s.
Proof. exact (UP_intro s0 (s_devs s0) s). Qed.

Lemma UP_after_poll e s0 s : UP s0 s -> UP s0 (after_poll e s).
Proof.
  intros (P & F & I & M & D & SS & MC & IR). unfold UP, U, after_poll in *.
  cbn [upd_devs upd_prefetch s_psr s_flags s_mem s_devs s_saved_sp s_mcr s_ireg] in *.
  repeat split; try assumption; try apply P.
Qed.

(* however the step ends (completed, or any error) *)
Lemma step_confined e s0 s :
  UP s0 s -> (forall v p, ~ takes_irq e s v p) ->
  (forall i, decode (w_data (mget (s_mem s) (s_pc s))) = DOk i -> forall d, inv (U (upd_devs s0 d)) (exec e i)) ->
  UP s0 (fst (step_inner e s)) /\ s_devs (fst (step_inner e s)) = polled_devs e (s_devs s) (e_draws e).
Proof.
  intros H NT X. rewrite (gate_not_taken e s NT).
  pose proof (UP_after_poll e s0 s H) as H1.
  assert (K : UP s0 (fst (fetch_exec e (after_poll e s))) /\
              s_devs (fst (fetch_exec e (after_poll e s))) = polled_devs e (s_devs s) (e_draws e)).
  { pose proof (fetch_exec_confined e (upd_devs s0 (s_devs (after_poll e s))) (after_poll e s) H1 (fun i D => X i D _)) as H2.
    split; [exact (UP_intro _ _ _ H2)|]. destruct H2 as (_ & _ & _ & _ & D & _). exact D. }
  destruct (pending e s) as [[v p|]|]; [exact K| |exact K].
  cbn [fst]. split; [exact H1|reflexivity].
Qed.

(* the latest poll is appended at the far end, while a run adds its first step at the near end *)
Inductive PolledFrom : list dev -> list dev -> Prop :=
| pf_refl d : PolledFrom d d
| pf_step e d d' : PolledFrom d d' -> PolledFrom d (polled_devs e d' (e_draws e)).
Lemma pf_first e d d' : PolledFrom (polled_devs e d (e_draws e)) d' -> PolledFrom d d'.
Proof.
  remember (polled_devs e d (e_draws e)) as d1 eqn:E.
  induction 1 as [d1|e' d1 d' _ IH]; [subst; apply pf_step, pf_refl|apply pf_step, IH, E].
Qed.

Inductive UserRun : sim -> sim -> Prop :=
| ur_refl s : UserRun s s
| ur_next e s t :
    (forall v p, ~ takes_irq e s v p) ->
    (forall i, decode (w_data (mget (s_mem s) (s_pc s))) = DOk i -> is_trap i = false) ->
    UserRun (fst (step_inner e (upd_obs s []))) t -> UserRun s t.

Inductive RunOf (ok : sim_instr -> Prop) : sim -> sim -> Prop :=
| ro_refl s : RunOf ok s s
| ro_next e s t :
    (forall v p, ~ takes_irq e s v p) ->
    (forall i, decode (w_data (mget (s_mem s) (s_pc s))) = DOk i -> ok i) ->
    RunOf ok (fst (step_inner e (upd_obs s []))) t -> RunOf ok s t.

(* for every device list d: [UP] re-bases the devices of s0 at each boundary, to a list not known in advance *)
Theorem run_confined (ok : sim_instr -> Prop) s0 :
  (forall i, ok i -> forall e d, inv (U (upd_devs s0 d)) (exec e i)) ->
  forall s t, RunOf ok s t -> UP s0 s -> UP s0 t /\ PolledFrom (s_devs s) (s_devs t).
Proof.
  intros X s t R. induction R as [s|e s t NT OK _ IH]; intros H; [split; [exact H|apply pf_refl]|].
  destruct (step_confined e s0 (upd_obs s []) H NT (fun i D d => X i (OK i D) e d)) as [H1 D1].
  destruct (IH H1) as [H2 P2]. split; [exact H2|]. rewrite D1 in P2. exact (pf_first e _ _ P2).
Qed.

Lemma UserRun_of s t : UserRun s t -> RunOf (fun i => is_trap i = false) s t.
Proof. induction 1 as [s|e s t NT NTR _ IH]; [apply ro_refl|exact (ro_next _ e s t NT NTR IH)]. Qed.

(* non-vacuity: `ADD R0,R0,#1` (x1021), then `STI R0,#1` (xB001) through a pointer to x0200 (OS space) is denied *)
Definition ex_user_state : sim :=
  mkSim (mset (mset (mset (mset (mkMem (PositiveMap.empty word) (new_init 0)) 12288 (new_init 4129)) 12289 (new_init 45057))
                    12291 (new_init 512)) 512 (new_init 777))
        (repeat (new_init 0) 8) 12288 32770 (new_init 12288) 0 None [] [] 0 false [] true
        (mkFlags false false false false) [] [].
Definition ex_free : env := mkEnv false false [].
Example ex_user_run :
  UP ex_user_state ex_user_state /\
  exists t, UserRun ex_user_state t /\ UP ex_user_state t /\
    s_instrs t = 1 /\ rget (s_regs t) 0 = new_init 1 /\
    snd (step_inner ex_free (upd_obs (fst (step_inner ex_free (upd_obs ex_user_state []))) [])) = inr (BErr AccessViolation) /\
    mget (s_mem t) 512 = new_init 777.
Proof.
  assert (U0 : UP ex_user_state ex_user_state).
  { apply UP_of_U. apply U_refl; [cbn [ex_user_state s_psr]; lia|reflexivity]. }
  split; [exact U0|].
  assert (R : UserRun ex_user_state
                (fst (step_inner ex_free (upd_obs (fst (step_inner ex_free (upd_obs ex_user_state []))) [])))).
  { eapply ur_next with (e := ex_free).
    - intros v p [H _]. vm_compute in H. discriminate H.
    - intros i D. vm_compute in D. inversion D. reflexivity.
    - eapply ur_next with (e := ex_free).
      + intros v p [H _]. vm_compute in H. discriminate H.
      + intros i D. vm_compute in D. inversion D. reflexivity.
      + apply ur_refl. }
  eexists. split; [exact R|]. split; [exact (proj1 (run_confined _ _ (fun i N e d => inv_U_exec e i _ N) _ _ (UserRun_of _ _ R) U0))|].
  vm_compute. repeat split; reflexivity.
Qed.
