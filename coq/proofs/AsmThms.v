(* AsmThms.v — the assembler theorems (C01, C02; [pass1_ok], [labels_spec] for C23, [wf_cells_nodup] for C24) from the two pass invariants. *)
From Coq Require Import ZArith List Bool Lia Permutation.
From Gen Require Import Constants.
From Model Require Import Tree Text Bits Instr Offset AsmAst Obj SourceInfo Assembler.
From Spec Require Import LayoutSpec WfSpec.
From Proofs Require Import ListFacts OffsetProofs AsmBase AsmPass1 AsmBlocks AsmPass2.
Import ListNotations.
Open Scope Z_scope.

Lemma wf_of_invariants p L st : P1ok p L -> I2 (bindings p) p st -> wf p = true.
Proof.
  intros OK HI. pose proof (P1ok_closed p L OK) as CL. destruct OK as [_ R C VL VU VN VIO].
  pose proof (i2_flags _ _ _ HI) as FL. pose proof (proj2 (proj2 (i2_blocks _ _ _ HI))) as NV.
  unfold wf, v_unclosed. rewrite CL, VL, VU, VN, VIO. cbn [inside negb andb].
  assert (D : v_dup p = false) by (rewrite v_dup_dupb; apply dupb_false_consistent; exact C). rewrite D.
  unfold v_overlap. rewrite NV.
  rewrite v_undet_stmt_f, v_not_found_f, v_external_f, !v_offset_f.
  (* each of the five conditions is a disjunct of f_any *)
  assert (G : forall f, (forall x, f x = true -> f_any (bindings p) x = true) -> existsb f (placed p) = false)
    by (intros f H; exact (existsb_le f _ _ H FL)).
  rewrite (G f_undet), (G (f_nf _)), (G (f_ext _)), (G (f_off 9 _)), (G (f_off 11 _))
    by (intros x H; unfold f_any; rewrite H, ?orb_true_r; reflexivity).
  reflexivity.
Qed.

Lemma wf_no_violation p k : wf p = true -> violated p k = false.
Proof.
  unfold wf. intros H. repeat (apply andb_prop in H; destruct H as [H ?]).
  repeat match goal with H : negb _ = true |- _ => apply negb_true_iff in H end.
  destruct k as [| | | | | | | | |[n|n]| |]; cbn [violated]; try assumption; try reflexivity.
  - (* wrapping is reaching further *)
    match goal with H : v_reach asm.IO_START p = false |- _ => revert H end.
    unfold v_reach. apply existsb_le. intros [[[o a]|] s]; cbn [fst snd]; [|discriminate].
    unfold asm.IO_START. intros X. apply andb_prop in X. destruct X as [X1 X2]. rewrite X1. cbn [andb]. lia.
  - (* only widths 9 and 11 exist *)
    destruct (Z.eq_dec n 9) as [->|N9]; [assumption|]. destruct (Z.eq_dec n 11) as [->|N11]; [assumption|].
    unfold v_offset. match goal with |- ?e = false => destruct e eqn:E end; [|reflexivity]. exfalso.
    apply existsb_exists in E. destruct E as [[[[o a]|] s] [_ E]]; cbn [fst snd] in E; [|discriminate].
    destruct (operand_of s) as [[n' l]|] eqn:EO; [|discriminate].
    destruct (operand_width s n' l EO) as [E0|[E0|E0]]; subst n'.
    + discriminate E.
    + assert (X : (9 =? n) = false) by (apply Z.eqb_neq; lia). rewrite X, andb_false_r in E. discriminate E.
    + assert (X : (11 =? n) = false) by (apply Z.eqb_neq; lia). rewrite X, andb_false_r in E. discriminate E.
Qed.

Lemma map_cells_nodup m : map_inv m -> NoDup (map fst (mcells m)).
Proof.
  intros [S [OK DJ]]. induction m as [|[k b] m IH]; [constructor|].
  unfold mcells. cbn [flat_map snd]. fold (mcells m). rewrite map_app. apply ksorted_inv in S. destruct S as [S F].
  apply NoDup_app_disjoint; [apply cells_from_nodup | |].
  { apply IH; [exact S | intros; apply (OK k0 b0); right; assumption | intros; apply (DJ k0 b0 k' b'); try (right; assumption); assumption]. }
  intros x H1 H2. apply in_map_iff in H1, H2. destruct H1 as [[x1 w1] [E1 H1]]. destruct H2 as [[x2 w2] [E2 H2]]. cbn in E1, E2. subst x1 x2.
  apply cells_from_keys in H1.
  apply in_flat_map in H2. destruct H2 as [[k' b'] [Hb' H2]]. cbn [snd] in H2. apply cells_from_keys in H2.
  destruct (OK k b (or_introl eq_refl)) as [Ek _]. destruct (OK k' b' (or_intror Hb')) as [Ek' _].
  specialize (F _ Hb'). cbn in F.
  assert (D : ranges_overlap (rng b) (rng b') = false) by (apply (DJ k b k' b'); [left; reflexivity | right; exact Hb' | lia]).
  apply ranges_overlap_false in D. unfold rng in D. cbn [fst snd] in D. lia.
Qed.

Lemma addr_iter_cells o m :
  o_blocks o = map (fun kb : Z * oblock => (fst kb, ob_words (snd kb))) m -> map_inv m -> addr_iter o = mcells m.
Proof.
  intros EB [_ [OK _]]. unfold addr_iter. rewrite EB. clear EB. induction m as [|[k b] m IH]; [reflexivity|]. unfold mcells. cbn [map flat_map fst snd]. fold (mcells m).
  rewrite IH by (intros; apply (OK k0 b0); right; assumption). f_equal.
  destruct (OK k b (or_introl eq_refl)) as [-> [_ [B0 B1]]]. unfold ocells.
  rewrite enum_from_cells. unfold asm.IO_START in B1.
  assert (G : forall l, (forall x w, In (x, w) l -> 0 <= x < 65536) -> map (fun iw : Z * option Z => (wrap16 (fst iw), snd iw)) l = l).
  { induction l as [|[x w] l IHl]; intros H; [reflexivity|]. cbn [map fst snd]. rewrite IHl by (intros; apply (H x0 w0); right; assumption).
    rewrite wrap16_small by (apply (H x w); left; reflexivity). reflexivity. }
  apply G. intros x w H. apply cells_from_keys in H. lia.
Qed.

Lemma spec_cells_perm p L st : P1ok p L -> I2 (bindings p) p st ->
  NoDup (map fst (mcells (p2_map st))) /\ Permutation (mcells (p2_map st)) (spec_cells p).
Proof.
  intros OK HI. split; [apply map_cells_nodup; exact (proj1 (i2_blocks _ _ _ HI))|].
  pose proof (i2_cur _ _ _ HI) as CU. pose proof (i2_cells _ _ _ HI) as CE. rewrite (P1ok_closed _ _ OK) in CU.
  destruct (p2_cur st) as [[lc blk]|]; [contradiction|]. cbn [open_cells] in CE. rewrite app_nil_r in CE. exact CE.
Qed.

Lemma assemble_spec debug src p : typed p = true ->
  post (assemble debug src p)
    (fun o => wf p = true /\ NoDup (map fst (addr_iter o)) /\ Permutation (addr_iter o) (spec_cells p))
    (fun k _ => violated p k = true) (src <> None).
Proof.
  intros T. unfold assemble. apply (post_bind _ _ (fun sym => P1ok p (st_labels sym))); [exact (pass1_spec src p T)|].
  intros [L rel dbg] OK. cbn [st_labels] in OK. generalize (pass2_spec p L rel dbg debug T OK).
  apply post_mono; [|auto|intros []].
  intros o [st [HI EB]]. split; [exact (wf_of_invariants p L st OK HI)|].
  rewrite (addr_iter_cells o _ EB (proj1 (i2_blocks _ _ _ HI))). exact (spec_cells_perm p L st OK HI).
Qed.

Lemma assemble_wf debug src p : typed p = true -> wf p = true -> assemble debug src p <> APanic ->
  exists o, assemble debug src p = AOk o /\ NoDup (map fst (addr_iter o)) /\ Permutation (addr_iter o) (spec_cells p).
Proof.
  intros T W NP. pose proof (assemble_spec debug src p T) as S.
  destruct (assemble debug src p) as [o|k sp|]; cbn [post] in S; [|rewrite (wf_no_violation p k W) in S; discriminate|contradiction].
  exists o. split; [reflexivity | exact (proj2 S)].
Qed.

Theorem accepts_iff debug src p : typed p = true -> assemble debug src p <> APanic ->
  ((exists o, assemble debug src p = AOk o) <-> wf p = true).
Proof.
  intros T NP. pose proof (assemble_spec debug src p T) as S. split.
  - intros [o E]. rewrite E in S. exact (proj1 S).
  - intros W. destruct (assemble_wf debug src p T W NP) as [o [E _]]. exists o. exact E.
Qed.
Theorem error_names_violation debug src p k sp : typed p = true -> assemble debug src p = AErr k sp -> violated p k = true.
Proof. intros T E. pose proof (assemble_spec debug src p T) as S. rewrite E in S. exact S. Qed.
Theorem total_plain p : typed p = true -> assemble false None p <> APanic.
Proof. intros T E. pose proof (assemble_spec false None p T) as S. rewrite E in S. exact (S eq_refl). Qed.

(* C01's notion, read through `ObjectFile::addr_iter`; not Spec.ObjImage.image *)
Definition image (o : objfile) (a : Z) : option (option Z) := cell_at a (addr_iter o).

Theorem image_spec debug src p : wf p = true -> typed p = true -> assemble debug src p <> APanic ->
  exists o, assemble debug src p = AOk o /\ forall a, image o a = spec_image p a.
Proof.
  intros W T NP. destruct (assemble_wf debug src p T W NP) as [o [E [ND P]]].
  exists o. split; [exact E|]. intros a. apply cell_at_perm; assumption.
Qed.

Theorem pass1_ok src p sym : typed p = true -> pass1 p src = AOk sym -> P1ok p (st_labels sym).
Proof. intros T E. pose proof (pass1_spec src p T) as S. rewrite E in S. exact S. Qed.

Lemma pass1_rep src p sym : typed p = true -> pass1 p src = AOk sym -> labels_rep (st_labels sym) (bindings p).
Proof. intros T E. exact (i1_rep _ _ (pass1_ok src p sym T E)). Qed.
Theorem labels_spec src p sym : typed p = true -> pass1 p src = AOk sym ->
  forall name, assoc (upper name) (st_labels sym) = option_map sym_of (spec_label p name).
Proof. intros T E name. apply rep_lookup. exact (pass1_rep src p sym T E). Qed.

Theorem offset_spec p c s n l : wf p = true -> In (c, s) (placed p) -> operand_of s = Some (n, l) -> 0 < n ->
  exists o a b f, c = Some (o, a) /\ spec_label p (l_name l) = Some b /\ b_ext b = false /\
    field_value n (b_addr b) a = Some f /\ - 2 ^ (n - 1) <= f < 2 ^ (n - 1) /\ (a + 1 + f) mod 65536 = b_addr b mod 65536.
Proof.
  intros W Hin EO Hn.
  assert (Hw : n = 9 \/ n = 11) by (destruct (operand_width s n l EO) as [E0|[E0|E0]]; [lia|auto|auto]).
  (* the statement at (c, s) raises none of the four conditions on operands *)
  pose proof (existsb_false_in _ _ _ (wf_no_violation p UndetAddrStmt W) Hin) as K1.
  pose proof (existsb_false_in _ _ _ (wf_no_violation p CouldNotFindLabel W) Hin) as K2.
  pose proof (existsb_false_in _ _ _ (wf_no_violation p OffsetExternal W) Hin) as K3.
  pose proof (existsb_false_in _ _ _ (wf_no_violation p (OffsetNewErr (CannotFitSigned n)) W) Hin) as K4.
  cbn [fst snd] in K1, K2, K3, K4. rewrite EO in K2, K3, K4.
  assert (NA : needs_addr s = true).
  { unfold operand_of in EO. unfold needs_addr. destruct (s_nucleus s) as [i|[?|?|?|?| |?]]; try reflexivity; discriminate. }
  rewrite NA, andb_true_r in K1. destruct c as [[o a]|]; [|discriminate K1].
  unfold spec_label. destruct (lookup (l_name l) (bindings p)) as [b|] eqn:EL; [|discriminate K2].
  assert (Hp : (0 <? n) = true) by lia. rewrite Hp in K3, K4. cbn [andb] in K3. rewrite Z.eqb_refl, K3 in K4. cbn [andb negb] in K4.
  destruct (field_value n (b_addr b) a) as [f|] eqn:F; [|discriminate K4].
  destruct (field_value_sound n (b_addr b) a f Hw F) as [R1 R2].
  exists o, a, b, f. repeat split; try assumption; lia.
Qed.

(* runs the assembler: the cells of its object file are distinct *)
Theorem wf_cells_nodup p : typed p = true -> wf p = true -> NoDup (map fst (spec_cells p)).
Proof.
  intros T W. destruct (assemble_wf false None p T W (total_plain p T)) as [o [_ [ND P]]].
  exact (Permutation_NoDup (Permutation_map fst P) ND).
Qed.
