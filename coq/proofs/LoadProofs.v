(* LoadProofs.v — model/Load.v address by address: memory after a load is the object's image
   (spec/ObjImage.v: 16-bit addresses, wrapping) over what was there; a new or reset machine is that
   load of today's OS image over a blank machine; the loader panics only on a run of 2^16 initialised
   words.  At the end, for C31: the history of a stepped run is a function of the inputs so far. *)
From Coq Require Import ZArith List Bool Lia FMapPositive.
From Gen Require Import Constants OsImage.
From Model Require Import Bits Word Sim Load SimWire.
From Spec Require Import ObjImage.
From Proofs Require Import ListFacts SimHoare.
Import ListNotations.
Open Scope Z_scope.
(* lia reads boolean comparisons itself, but not with Z.of_nat or mod inside them *)
Ltac blia := btrue; Z.div_mod_to_equations; lia.

Definition apply_cell (old : word) (x : option (option Z)) : word :=
  match x with
  | Some (Some v) => new_init v
  | Some None => clear_init old
  | None => old
  end.

Lemma chunk_at_nil s a : chunk_at s [] a = None.
Proof. unfold chunk_at. cbn [length Z.of_nat]. destruct (_ <? 0) eqn:E; [blia|reflexivity]. Qed.

Lemma chunk_at_cons s x r a : 0 <= s < 65536 -> 0 <= a < 65536 ->
  chunk_at s (x :: r) a = if a =? s then Some x else chunk_at ((s + 1) mod 65536) r a.
Proof.
  intros Hs Ha. unfold chunk_at. cbn [length]. rewrite Nat2Z.inj_succ. pose proof (Nat2Z.is_nonneg (length r)) as Hn.
  destruct (Z.eqb_spec a s) as [->|Hne].
  - rewrite Z.sub_diag. destruct (0 mod 65536 <? Z.succ (Z.of_nat (length r))) eqn:E; [reflexivity|blia].
  - set (k := (a - s) mod 65536). assert (Hk : 1 <= k < 65536) by (unfold k; blia).
    replace ((a - (s + 1) mod 65536) mod 65536) with (k - 1) by (unfold k; blia).
    destruct (k - 1 <? Z.of_nat (length r)) eqn:E1; destruct (k <? Z.succ (Z.of_nat (length r))) eqn:E2; try blia; [|reflexivity].
    replace (Z.to_nat k) with (S (Z.to_nat (k - 1))) by lia. reflexivity.
Qed.

Lemma write_chunk_spec : forall c m start a,
  0 <= start < 65536 -> Z.of_nat (length c) <= 65536 -> 0 <= a < 65536 ->
  mget (write_chunk m start c) a = apply_cell (mget m a) (chunk_at start c a).
Proof.
  induction c as [|x r IH]; intros m start a Hs Hl Ha; [rewrite chunk_at_nil; reflexivity|].
  cbn [length] in Hl. rewrite Nat2Z.inj_succ in Hl.
  assert (Hs' : 0 <= (start + 1) mod 65536 < 65536) by blia.
  rewrite chunk_at_cons by assumption.
  destruct x as [v|]; cbn [write_chunk]; unfold wrap16; rewrite IH by (assumption || lia);
    (destruct (Z.eqb_spec a start) as [->|Hne]; [|rewrite mget_mset_other by lia; reflexivity]).
  (* the rest of the run, shorter than 2^16, does not come back to its first word *)
  all: replace (chunk_at ((start + 1) mod 65536) r start) with (@None (option Z))
    by (unfold chunk_at; destruct (_ <? _) eqn:E; [blia|reflexivity]).
  all: cbn [apply_cell]; rewrite mget_mset_same; reflexivity.
Qed.

Lemma write_chunk_app : forall c1 c2 m s, 0 <= s < 65536 ->
  write_chunk m s (c1 ++ c2) = write_chunk (write_chunk m s c1) (wrap16 (s + Z.of_nat (length c1))) c2.
Proof.
  induction c1 as [|x r IH]; intros c2 m s Hs.
  - cbn [app length write_chunk Z.of_nat]. rewrite Z.add_0_r. unfold wrap16.
    rewrite Z.mod_small by lia. reflexivity.
  - assert (Hs' : 0 <= (s + 1) mod 65536 < 65536) by blia.
    assert (E : ((s + 1) mod 65536 + Z.of_nat (length r)) mod 65536 = (s + Z.of_nat (length (x :: r))) mod 65536).
    { cbn [length]. rewrite Nat2Z.inj_succ. rewrite Zplus_mod_idemp_l. f_equal. lia. }
    destruct x as [v|]; cbn [app write_chunk]; unfold wrap16 in *; rewrite IH by assumption; rewrite E; reflexivity.
Qed.

Lemma chunk_concat : forall l, concat (chunk_by_some l) = l.
Proof.
  induction l as [|x r IH]; [reflexivity|].
  cbn [chunk_by_some]. destruct (chunk_by_some r) as [|[|y c] cs] eqn:E.
  - cbn [concat app] in *. rewrite <- IH. reflexivity.
  - cbn [concat app] in *. rewrite <- IH. reflexivity.
  - destruct (Bool.eqb _ _); cbn [concat app] in *; rewrite <- IH; reflexivity.
Qed.

Lemma copy_chunks_eq : forall cs m s, 0 <= s < 65536 ->
  Forall (fun c => Z.of_nat (length c) < 65536) cs ->
  copy_chunks m s cs = Some (write_chunk m s (concat cs)).
Proof.
  induction cs as [|c cs IH]; intros m s Hs Hall; [reflexivity|].
  inversion Hall as [|? ? Hc Hcs]; subst.
  cbn [copy_chunks concat]. destruct (65536 <=? Z.of_nat (length c)) eqn:E; [lia|].
  rewrite IH; [|unfold wrap16; blia|assumption].
  rewrite write_chunk_app by assumption. reflexivity.
Qed.

Lemma copy_obj_block_eq m s data : 0 <= s < 65536 -> Z.of_nat (length data) < 65536 ->
  copy_obj_block m s data = Some (write_chunk m s data).
Proof.
  intros Hs Hl. unfold copy_obj_block. rewrite copy_chunks_eq; [rewrite chunk_concat; reflexivity|assumption|].
  apply Forall_forall. intros c Hin. apply length_in_concat in Hin. rewrite chunk_concat in Hin. lia.
Qed.

Definition apply_blocks (bs : list block) (a : Z) (w : word) : word :=
  fold_left (fun w b => apply_cell w (chunk_at (fst b) (snd b) a)) bs w.

Lemma cover_count_nonneg bs a : 0 <= cover_count bs a.
Proof. induction bs as [|b r IH]; cbn [cover_count]; [lia|]. destruct (covers b a); lia. Qed.

Lemma chunk_at_covers b a : chunk_at (fst b) (snd b) a = None <-> covers b a = false.
Proof. unfold chunk_at, covers. destruct (_ <? _); split; intro H; try reflexivity; discriminate. Qed.

Lemma apply_blocks_uncovered : forall bs a w, cover_count bs a = 0 -> apply_blocks bs a w = w /\ image bs a = None.
Proof.
  induction bs as [|b r IH]; intros a w H; [split; reflexivity|].
  cbn [cover_count] in H. pose proof (cover_count_nonneg r a) as Hn.
  destruct (covers b a) eqn:E; [lia|].
  apply chunk_at_covers in E. unfold apply_blocks. cbn [fold_left image]. rewrite E. cbn [apply_cell].
  apply IH. lia.
Qed.

Lemma apply_blocks_image : forall bs a w, cover_count bs a <= 1 ->
  apply_blocks bs a w = apply_cell w (image bs a).
Proof.
  induction bs as [|b r IH]; intros a w H; [reflexivity|].
  cbn [cover_count] in H. pose proof (cover_count_nonneg r a) as Hn.
  unfold apply_blocks. cbn [fold_left image].
  destruct (covers b a) eqn:E.
  - assert (H0 : cover_count r a = 0) by lia.
    destruct (chunk_at (fst b) (snd b) a) as [x|] eqn:Ec.
    + destruct (apply_blocks_uncovered r a (apply_cell w (Some x)) H0) as [Hr _]. exact Hr.
    + apply chunk_at_covers in Ec. congruence.
  - apply chunk_at_covers in E. rewrite E. cbn [apply_cell]. apply IH. lia.
Qed.

(* Blocks laid out one after the other inside a window [lo, hi) of at most 2^16 integers (the last may
   run past xFFFF): reduction mod 2^16 is injective on the window, so no address is covered twice. *)
Fixpoint chainb (lo hi : Z) (bs : list block) : bool :=
  match bs with
  | [] => lo <=? hi
  | b :: r => (lo <=? fst b) && chainb (fst b + Z.of_nat (length (snd b))) hi r
  end.

Lemma chainb_le : forall bs lo hi, chainb lo hi bs = true -> lo <= hi.
Proof.
  induction bs as [|b r IH]; intros lo hi H; cbn [chainb] in H; [lia|].
  apply andb_true_iff in H. destruct H as [H1 H2]. apply IH in H2. lia.
Qed.

(* [w + (a - w) mod 65536] is the representative of address [a] in the window starting at [w] *)
Lemma covers_window w b a : w <= fst b -> fst b + Z.of_nat (length (snd b)) <= w + 65536 ->
  covers b a = true <-> fst b <= w + (a - w) mod 65536 < fst b + Z.of_nat (length (snd b)).
Proof.
  intros H1 H2. unfold covers. rewrite Z.ltb_lt.
  pose proof (Z.div_mod (a - fst b) 65536 ltac:(lia)). pose proof (Z.mod_pos_bound (a - fst b) 65536 ltac:(lia)).
  pose proof (Z.div_mod (a - w) 65536 ltac:(lia)). pose proof (Z.mod_pos_bound (a - w) 65536 ltac:(lia)). lia.
Qed.

Lemma chain_count w a : forall lo hi bs, chainb lo hi bs = true -> w <= lo -> hi <= w + 65536 ->
  cover_count bs a <= 1 /\ (w + (a - w) mod 65536 < lo \/ hi <= w + (a - w) mod 65536 -> cover_count bs a = 0).
Proof.
  intros lo hi bs. revert lo. induction bs as [|b r IH]; intros lo H Hlo Hhi; cbn [chainb cover_count] in *; [lia|].
  apply andb_true_iff in H. destruct H as [H1 H2]. apply Z.leb_le in H1.
  pose proof (chainb_le _ _ _ H2) as Hle. pose proof (Nat2Z.is_nonneg (length (snd b))) as Hn.
  destruct (IH _ H2 ltac:(lia) Hhi) as [IH1 IH0].
  pose proof (covers_window w b a ltac:(lia) ltac:(lia)) as Hc.
  destruct (covers b a).
  - destruct Hc as [Hc _]. specialize (Hc eq_refl). rewrite IH0 by lia. lia.
  - split; [lia|]. intros Hout. rewrite IH0; [reflexivity|]. lia.
Qed.

Lemma chainb_disjoint w hi bs : chainb w hi bs = true -> hi <= w + 65536 -> disjoint_blocks bs.
Proof. intros H Hh a _. apply (chain_count w a w hi bs H); lia. Qed.

Definition write_blocks (m : mem) (bs : list block) : mem :=
  fold_left (fun m b => write_chunk m (fst b) (snd b)) bs m.
Definition alloca_blocks (bs : list block) : list (Z * Z) :=
  flat_map (fun b => alloca_of (fst b) (Z.of_nat (length (snd b)))) bs.

Lemma load_blocks_eq : forall bs m al, blocks_ok bs ->
  load_blocks m bs al = Some (write_blocks m bs, al ++ alloca_blocks bs).
Proof.
  induction bs as [|[s ws] r IH]; intros m al Hok.
  - cbn [load_blocks write_blocks alloca_blocks fold_left flat_map]. rewrite app_nil_r. reflexivity.
  - inversion Hok as [|? ? [Hs Hl] Hr]; subst. cbn [fst snd] in *.
    cbn [load_blocks]. rewrite copy_obj_block_eq by assumption.
    rewrite IH by assumption. unfold write_blocks, alloca_blocks. cbn [fold_left flat_map fst snd].
    rewrite app_assoc. reflexivity.
Qed.

Lemma write_blocks_spec : forall bs m a, blocks_ok bs -> 0 <= a < 65536 ->
  mget (write_blocks m bs) a = apply_blocks bs a (mget m a).
Proof.
  induction bs as [|[s ws] r IH]; intros m a Hok Ha; [reflexivity|].
  inversion Hok as [|? ? [Hs Hl] Hr]; subst. cbn [fst snd] in *.
  unfold write_blocks, apply_blocks. cbn [fold_left fst snd].
  fold (write_blocks (write_chunk m s ws) r). rewrite IH by assumption.
  rewrite write_chunk_spec by lia. reflexivity.
Qed.

Definition loaded (s : sim) (bs : list block) : sim :=
  upd_alloca (upd_mem s (write_blocks (s_mem s) bs)) (sort_alloca (alloca_blocks bs)).

Lemma load_obj_eq s bs : blocks_ok bs -> load_obj s bs false = LoadOk (loaded s bs).
Proof. intro Hok. unfold load_obj. rewrite load_blocks_eq by assumption. reflexivity. Qed.

Lemma fill_io_out : forall n m s a, 0 <= s -> 0 <= a -> a < s \/ s + Z.of_nat n <= a ->
  PositiveMap.find (mkey a) (fill_io m s n) = PositiveMap.find (mkey a) m.
Proof.
  induction n as [|n IH]; intros m s a Hs Ha H; [reflexivity|]. cbn [fill_io]. rewrite IH by lia.
  apply PositiveMap.gso. intro E. apply mkey_inj in E; lia.
Qed.
Lemma fill_io_in : forall n m s a, 0 <= s -> s <= a < s + Z.of_nat n ->
  PositiveMap.find (mkey a) (fill_io m s n) = Some (new_init 0).
Proof.
  induction n as [|n IH]; intros m s a Hs H; [lia|]. cbn [fill_io].
  destruct (Z.eq_dec a s) as [->|Hne]; [rewrite fill_io_out by lia; apply PositiveMap.gss|apply IH; lia].
Qed.

Definition blank_mem (fill : Z) : mem :=
  mkMem (fill_io (PositiveMap.empty word) IO_START (Z.to_nat (65536 - IO_START))) (new_uninit fill).

Lemma blank_mem_spec fill a : 0 <= a < 65536 ->
  mget (blank_mem fill) a = if IO_START <=? a then new_init 0 else new_uninit fill.
Proof.
  intro Ha. unfold mget, blank_mem, IO_START, sim.IO_START. cbn [m_over m_fill].
  destruct (Z.leb_spec 65024 a).
  - rewrite fill_io_in by lia. reflexivity.
  - rewrite fill_io_out, PositiveMap.gempty by lia. reflexivity.
Qed.

Definition blank_sim (fl : flags) (fill : Z) (mcr : bool) (ir : list (Z * ireg)) (devs : list dev) : sim :=
  mkSim (blank_mem fill) (repeat (new_uninit fill) 8) 12288 32770 (new_init 12288) 0
        (if fl_debug_frames fl then Some [] else None) [] [] 0 false [] mcr fl ir devs.

Definition block_okb (b : block) : bool :=
  (0 <=? fst b) && (fst b <? 65536) && (Z.of_nat (length (snd b)) <? 65536).
Lemma block_okb_ok bs : forallb block_okb bs = true -> blocks_ok bs.
Proof.
  intro H. apply Forall_forall. intros b Hin. rewrite forallb_forall in H. specialize (H b Hin).
  unfold block_okb in H. unfold block_ok. lia.
Qed.

Lemma os_blocks_ok : blocks_ok os_blocks.
Proof. apply block_okb_ok. vm_compute. reflexivity. Qed.

(* 65024 = xFE00 = IO_START *)
Lemma os_blocks_chain : chainb 0 65024 os_blocks = true.
Proof. vm_compute. reflexivity. Qed.

Lemma os_blocks_disjoint : disjoint_blocks os_blocks.
Proof. apply (chainb_disjoint 0 65024); [exact os_blocks_chain|lia]. Qed.

Lemma os_blocks_below_io a : 65024 <= a < 65536 -> image os_blocks a = None.
Proof.
  intro Ha. apply (apply_blocks_uncovered os_blocks a (new_init 0)).
  apply (chain_count 0 a 0 65024 os_blocks os_blocks_chain); [lia|lia|]. right. rewrite Z.mod_small; lia.
Qed.

Lemma new_sim_devs_eq fl fill mcr ir devs :
  new_sim_devs fl fill mcr ir devs = loaded (blank_sim fl fill mcr ir devs) os_blocks.
Proof. unfold new_sim_devs. rewrite load_obj_eq by apply os_blocks_ok. reflexivity. Qed.

Lemma new_sim_eq fl fill :
  new_sim fl fill = loaded (blank_sim fl fill false default_ireg [DNull; DNull; DNull]) os_blocks.
Proof. unfold new_sim. apply new_sim_devs_eq. Qed.

(* for any object in place of the OS image, so that nothing computes with it *)
Lemma loaded_blank_arch (os : list block) fl fill mcr ir devs mcr' ir' devs' :
  let r := loaded (blank_sim fl fill mcr ir devs) os in
  let n := loaded (blank_sim fl fill mcr' ir' devs') os in
  s_mem r = s_mem n /\ s_regs r = s_regs n /\ s_pc r = s_pc n /\ s_psr r = s_psr n /\
  s_saved_sp r = s_saved_sp n /\ s_frame_no r = s_frame_no n /\ s_frames r = s_frames n /\
  s_sr_defns r = s_sr_defns n /\ s_alloca r = s_alloca n /\ s_instrs r = s_instrs n /\
  s_prefetch r = s_prefetch n /\ s_obs r = s_obs n.
Proof. cbv zeta. repeat split; reflexivity. Qed.

Lemma new_sim_mem fl fill a : 0 <= a < 65536 ->
  mget (s_mem (new_sim fl fill)) a =
  match image os_blocks a with
  | Some (Some v) => new_init v
  | Some None => new_uninit fill
  | None => if 65024 <=? a then new_init 0 else new_uninit fill
  end.
Proof.
  intro Ha. rewrite new_sim_eq.
  change (s_mem (loaded (blank_sim fl fill false default_ireg [DNull; DNull; DNull]) os_blocks))
    with (write_blocks (blank_mem fill) os_blocks).
  rewrite write_blocks_spec by (try apply os_blocks_ok; assumption).
  rewrite apply_blocks_image by (apply os_blocks_disjoint; assumption).
  rewrite blank_mem_spec by assumption. unfold IO_START, sim.IO_START.
  destruct (image os_blocks a) as [[v|]|] eqn:E; cbn [apply_cell]; try reflexivity.
  (* a reserved word of the OS: below the I/O page, so the blank word is the uninitialised fill *)
  destruct (65024 <=? a) eqn:E2; [|reflexivity].
  rewrite os_blocks_below_io in E by lia. discriminate.
Qed.

Lemma new_sim_os_words fl fill a v : 0 <= a < 65536 -> image os_blocks a = Some (Some v) ->
  mget (s_mem (new_sim fl fill)) a = new_init v.
Proof. intros Ha H. rewrite new_sim_mem by assumption. rewrite H. reflexivity. Qed.

Lemma new_sim_io_page fl fill a : 65024 <= a < 65536 -> mget (s_mem (new_sim fl fill)) a = new_init 0.
Proof.
  intro Ha. rewrite new_sim_mem by lia. rewrite os_blocks_below_io by assumption.
  destruct (65024 <=? a) eqn:E; [reflexivity|lia].
Qed.

Lemma new_sim_elsewhere fl fill a : 0 <= a < 65024 -> image os_blocks a = None ->
  mget (s_mem (new_sim fl fill)) a = new_uninit fill.
Proof.
  intros Ha H. rewrite new_sim_mem by lia. rewrite H. destruct (65024 <=? a) eqn:E; [lia|reflexivity].
Qed.

Lemma new_sim_fields fl fill :
  s_pc (new_sim fl fill) = 12288 /\ s_psr (new_sim fl fill) = 32770 /\
  s_regs (new_sim fl fill) = repeat (new_uninit fill) 8 /\
  s_saved_sp (new_sim fl fill) = new_init 12288 /\ s_frame_no (new_sim fl fill) = 0 /\
  s_instrs (new_sim fl fill) = 0 /\ s_prefetch (new_sim fl fill) = false /\ s_obs (new_sim fl fill) = [] /\
  s_mcr (new_sim fl fill) = false /\ s_flags (new_sim fl fill) = fl.
Proof.
  rewrite new_sim_eq. repeat split; reflexivity.
Qed.

Lemma new_sim_regs fl fill r : 0 <= r < 8 -> rget (s_regs (new_sim fl fill)) r = new_uninit fill.
Proof.
  intro Hr. rewrite new_sim_eq. change (s_regs (loaded _ _)) with (repeat (new_uninit fill) 8). unfold rget.
  assert (Hc : r = 0 \/ r = 1 \/ r = 2 \/ r = 3 \/ r = 4 \/ r = 5 \/ r = 6 \/ r = 7) by lia.
  repeat (destruct Hc as [->|Hc]; [reflexivity|]). subst. reflexivity.
Qed.

Lemma reset_eq e s fill :
  reset e s fill = loaded (blank_sim (s_flags s) fill (s_mcr s) (s_ireg s) (reset_devs e (s_devs s) (e_draws e))) os_blocks.
Proof. unfold reset. apply new_sim_devs_eq. Qed.

Definition dev_reset_rel (e : env) (d d' : dev) : Prop :=
  match d with
  | DNull => d' = DNull
  | DKb q _ => d' = DKb (if e_kb_locked e then q else []) false
  | DDs b => d' = DDs (if e_ds_locked e then b else [])
  | DTimer t => exists x, d' = DTimer (mkTimer (t_enabled t) (t_lo t) (t_hi t) x (t_vect t) (t_prio t))
  | DScript l => d' = DScript l
  end.

Lemma reset_devs_rel e : forall ds draws, Forall2 (dev_reset_rel e) ds (reset_devs e ds draws).
Proof.
  induction ds as [|d r IH]; intro draws; [constructor|].
  destruct d as [|q ie|b|t|l]; cbn [reset_devs].
  - constructor; [reflexivity|apply IH].
  - constructor; [reflexivity|apply IH].
  - constructor; [reflexivity|apply IH].
  - destruct draws as [|x dr]; constructor; try apply IH.
    + exists (t_time t). destruct t; reflexivity.
    + exists x. reflexivity.
  - constructor; [reflexivity|apply IH].
Qed.

(* INITIALISED words: a reserved run of that size is cleared modulo 2^16, without panic *)
Definition big_init_chunk (c : list (option Z)) : Prop :=
  65536 <= Z.of_nat (length c) /\ exists v r, c = Some v :: r.

Lemma copy_chunks_none_iff : forall cs m s, copy_chunks m s cs = None <-> Exists big_init_chunk cs.
Proof.
  induction cs as [|c cs IH]; intros m s.
  - cbn [copy_chunks]. split; [discriminate|]. intro H. inversion H.
  - cbn [copy_chunks]. rewrite Exists_cons.
    destruct (65536 <=? Z.of_nat (length c)) eqn:E.
    + destruct c as [|[v|] c'].
      * rewrite IH. split; [intro H; right; exact H|]. intros [[_ (v & r & Hc)]|H]; [discriminate|exact H].
      * split; [|reflexivity]. intros _. left. split; [lia|]. exists v, c'. reflexivity.
      * rewrite IH. split; [intro H; right; exact H|]. intros [[_ (v & r & Hc)]|H]; [discriminate|exact H].
    + rewrite IH. split; [intro H; right; exact H|]. intros [[Hl _]|H]; [lia|exact H].
Qed.

Lemma load_blocks_none_iff : forall bs m al,
  load_blocks m bs al = None <-> Exists (fun b : block => Exists big_init_chunk (chunk_by_some (snd b))) bs.
Proof.
  induction bs as [|[s ws] r IH]; intros m al.
  - cbn [load_blocks]. split; [discriminate|]. intro H. inversion H.
  - cbn [load_blocks]. rewrite Exists_cons. cbn [snd].
    destruct (copy_obj_block m s ws) as [m'|] eqn:E.
    + rewrite IH. split; [intro H; right; exact H|]. intros [H|H]; [|exact H].
      apply (copy_chunks_none_iff (chunk_by_some ws) m s) in H. unfold copy_obj_block in E. congruence.
    + split; [|reflexivity]. intros _. left. apply (copy_chunks_none_iff (chunk_by_some ws) m s). exact E.
Qed.

Lemma load_obj_panic_iff s bs he :
  load_obj s bs he = LoadPanic <->
  he = false /\ Exists (fun b : block => Exists big_init_chunk (chunk_by_some (snd b))) bs.
Proof.
  unfold load_obj. destruct he.
  - split; [discriminate|]. intros [H _]. discriminate.
  - destruct (load_blocks (s_mem s) bs []) as [[m al]|] eqn:E.
    + split; [discriminate|]. intros [_ H]. apply (load_blocks_none_iff bs (s_mem s) []) in H. congruence.
    + split; [|reflexivity]. intros _. split; [reflexivity|]. apply (load_blocks_none_iff bs (s_mem s) []). exact E.
Qed.

Lemma run_steps_acc : forall es s acc,
  run_steps s es acc = (fst (run_steps s es []), rev acc ++ snd (run_steps s es [])).
Proof.
  induction es as [|e r IH]; intros s acc.
  - cbn [run_steps fst snd]. rewrite app_nil_r. reflexivity.
  - cbn [run_steps]. destruct (step_in e s) as [s' o].
    destruct o; cbn [fst snd rev app];
      try (rewrite (IH s' (_ :: acc)); rewrite (IH s' [_]); cbn [fst snd rev app]; rewrite <- app_assoc; reflexivity);
      reflexivity.
Qed.

Lemma run_steps_prefix : forall es1 es2 s,
  exists tl, snd (run_steps s (es1 ++ es2) []) = snd (run_steps s es1 []) ++ tl.
Proof.
  induction es1 as [|e r IH]; intros es2 s.
  - exists (snd (run_steps s es2 [])). reflexivity.
  - cbn [app run_steps]. destruct (step_in e s) as [s' o].
    destruct (IH es2 s') as [tl Htl].
    destruct o; cbn [fst snd rev app];
      try (exists tl; rewrite (run_steps_acc (r ++ es2) s' [_]), (run_steps_acc r s' [_]);
           cbn [fst snd rev app]; rewrite Htl; reflexivity);
      exists []; reflexivity.
Qed.
