(* OsContracts.v — machines described by their user-visible parts ([user_ready]) as [st] states with what a routine
   asks of its caller ([ready_st]), what that caller sees afterwards ([view_of_sim]), the two HALT contracts, and
   that the fresh machine of Load.v with keyboard and display attached is such a state. *)
From Coq Require Import ZArith List Bool Lia FMapPositive.
From Gen Require Import Constants OsImage.
From Model Require Import Tree Bits Word Instr Sim Load.
From Proofs Require Import SimHoare SimAccess SimStep OsProofs.
Import ListNotations.
Open Scope Z_scope.

(* a machine in user mode, OS image in place, saved supervisor stack pointer [sp], keyboard (interrupts
   off, queue [q]) and display (buffer [buf]) attached, non-strict, default internal registers *)
Record user_ready (s : sim) (sp : Z) (q buf : list Z) : Prop := mkUR {
  ur_os : os_mem (s_mem s);
  ur_strict : fl_strict (s_flags s) = false;
  ur_ireg : s_ireg s = default_ireg;
  ur_devs : s_devs s = kdevs q buf;
  ur_regs : length (s_regs s) = 8%nat;
  ur_user : psr_privileged (s_psr s) = false;
  ur_ssp : s_saved_sp s = new_init sp;
  ur_pc : in_user (s_pc s) = true;
  ur_fno : 0 <= s_frame_no s }.

(* what the caller can observe, except PC / registers / devices, which each contract states, and the bookkeeping [trc] *)
Definition same_user_view (s s' : sim) : Prop :=
  s_psr s' = s_psr s /\ s_saved_sp s' = s_saved_sp s /\ s_frame_no s' = s_frame_no s /\ s_frames s' = s_frames s /\
  s_sr_defns s' = s_sr_defns s /\ s_alloca s' = s_alloca s /\ s_mcr s' = s_mcr s /\ s_flags s' = s_flags s /\
  s_ireg s' = s_ireg s /\
  (forall a, in_user a = true -> mget (s_mem s') a = mget (s_mem s) a) /\ os_mem (s_mem s').

Lemma quiet_st s sp q buf :
  fl_strict (s_flags s) = false -> s_ireg s = default_ireg -> s_devs s = kdevs q buf ->
  length (s_regs s) = 8%nat -> s_saved_sp s = new_init sp ->
  exists K m r0 r1 r2 r3 r4 r5 r6 r7 pc psr F T,
    s = st K m [r0; r1; r2; r3; r4; r5; r6; r7] pc psr F T q buf /\ f_ssp F = new_init sp.
Proof.
  intros Hst Hir Hdv Hrg Hsp.
  destruct s as [m rs pc psr ssp fno frs srd al ins pf obs mcr fl ir dv]. cbn in *. subst.
  destruct fl as [str re db ig]. cbn in Hst. subst str.
  destruct rs as [|r0 [|r1 [|r2 [|r3 [|r4 [|r5 [|r6 [|r7 [|x rs]]]]]]]]]; try discriminate.
  exists (mkK srd al re db ig), m, r0, r1, r2, r3, r4, r5, r6, r7, pc, psr, (FR (new_init sp) fno frs mcr), (TR ins pf obs).
  split; reflexivity.
Qed.

Lemma ready_st s sp q buf : user_ready s sp q buf ->
  exists K m r0 r1 r2 r3 r4 r5 r6 r7 pc psr F T,
    s = st K m [r0; r1; r2; r3; r4; r5; r6; r7] pc psr F T q buf /\ os_mem m /\ 12288 <= pc < 65024 /\
    (forall w, sp <= 12288 -> mget m pc = new_init w -> at_trap K m psr r6 F pc w sp).
Proof.
  intros [Hos Hst Hir Hdv Hrg Hus Hssp Hpc Hfn].
  destruct (quiet_st s sp q buf Hst Hir Hdv Hrg Hssp) as (K & m & r0 & r1 & r2 & r3 & r4 & r5 & r6 & r7 & pc & psr & F & T & -> & HF).
  apply in_user_range in Hpc.
  exists K, m, r0, r1, r2, r3, r4, r5, r6, r7, pc, psr, F, T. split; [reflexivity|]. split; [exact Hos|]. split; [exact Hpc|].
  intros w Hsp Hw. apply at_trap_user; assumption.
Qed.

Lemma view_of_sim K kd m m' rs rs' pc pc' psr F T T2 T' q q' buf buf' sp :
  mem_sim sp kd m m' -> sp <= 12288 ->
  same_user_view (st K m rs pc psr F T q buf) (retrace (st K m rs' pc' psr F T2 q' buf') m' T').
Proof.
  intros Hm Hsp. unfold same_user_view, st, retrace. cbn.
  repeat split; try reflexivity; [|exact (proj1 Hm)].
  exact (ms_user sp kd m m' Hsp Hm).
Qed.

(* substitutes s = st K m [r0; …; r7] pc psr F T q buf; leaves Hos, Hupc, Htrap *)
Ltac as_st Hur :=
  destruct (ready_st _ _ _ _ Hur) as (K & m & r0 & r1 & r2 & r3 & r4 & r5 & r6 & r7 & pc & psr & F & T & -> & Hos & Hupc & Htrap).

Lemma a_return sc t n sp kd K m rs rs' pc pc' psr F T T2 q q' buf buf' : sp <= 12288 -> forall t0, t0 = (t + n)%nat ->
  aruns sc t0 sp kd (st K m rs' pc' psr F T2 q' buf')
    (fun t' s' => t' = (t + n)%nat /\ s_pc s' = pc' /\ s_regs s' = rs' /\ s_devs s' = kdevs q' buf' /\
                  same_user_view (st K m rs pc psr F T q buf) s').
Proof.
  intros Hsp t0 ->. apply a_0. intros m' T' Hm'. split; [reflexivity|]. split; [reflexivity|]. split; [reflexivity|]. split; [reflexivity|].
  eapply view_of_sim; eassumption.
Qed.

(* checked block by block, so that each image word is looked at once *)
Fixpoint block_loaded (m : mem) (st : Z) (ws : list (option Z)) : bool :=
  match ws with
  | [] => true
  | w :: r => match w with Some x => word_eqb (mget m st) (new_init x) | None => true end && block_loaded m (st + 1) r
  end.
Lemma block_loaded_get m ws : forall st a w,
  block_loaded m st ws = true -> block_get st ws a = Some w -> mget m a = new_init w.
Proof.
  induction ws as [|x r IH]; intros st a w Hl Hg; [discriminate|].
  cbn [block_loaded block_get] in *. apply andb_prop in Hl. destruct Hl as [Hx Hr].
  destruct (a =? st) eqn:E.
  - apply Z.eqb_eq in E. subst a x. apply word_eqb_eq. exact Hx.
  - exact (IH _ _ _ Hr Hg).
Qed.
Lemma blocks_loaded_get m bs : forallb (fun b => block_loaded m (fst b) (snd b)) bs = true ->
  forall a w, blocks_get bs a = Some w -> mget m a = new_init w.
Proof.
  induction bs as [|[st ws] r IH]; intros Hl a w Hg; [discriminate|].
  cbn [forallb blocks_get fst snd] in *. apply andb_prop in Hl. destruct Hl as [Hb Hr].
  destruct (block_get st ws a) as [x|] eqn:E.
  - inversion Hg; subst x. exact (block_loaded_get _ _ _ _ _ Hb E).
  - exact (IH Hr a w Hg).
Qed.
Lemma new_sim_os_mem fl fill : os_mem (s_mem (new_sim fl fill)).
Proof. intros a w. apply blocks_loaded_get. destruct fl. vm_compute. reflexivity. Qed.

Definition set_user_mem (m : mem) (l : list (Z * word)) : mem := fold_left (fun m p => mset m (fst p) (snd p)) l m.
Lemma set_user_mem_os l : forall m, os_mem m -> Forall (fun p => in_user (fst p) = true) l -> os_mem (set_user_mem m l).
Proof.
  induction l as [|[a w] r IH]; intros m Hos Hl; [exact Hos|].
  cbn [set_user_mem fold_left fst snd]. inversion Hl as [|x y Hx Hy]; subst. cbn [fst] in Hx.
  apply IH; [|exact Hy]. apply os_mem_mset; [exact Hos|]. apply in_user_range in Hx. lia.
Qed.

Definition user_machine (fl : flags) (fill : Z) (rs : regs) (pc psr : Z) (um : list (Z * word)) (q buf : list Z) : sim :=
  let s := new_sim fl fill in
  mkSim (set_user_mem (s_mem s) um) rs pc psr (s_saved_sp s) (s_frame_no s) (s_frames s) (s_sr_defns s) (s_alloca s)
        (s_instrs s) (s_prefetch s) (s_obs s) (s_mcr s) (s_flags s) (s_ireg s) (kdevs q buf).

Lemma user_machine_ready fl fill rs pc psr um q buf :
  fl_strict fl = false -> length rs = 8%nat -> psr_privileged psr = false -> in_user pc = true ->
  Forall (fun p => in_user (fst p) = true) um ->
  user_ready (user_machine fl fill rs pc psr um q buf) 12288 q buf.
Proof.
  intros Hst Hrs Hps Hpc Hum. destruct fl as [st re db ig]. cbn in Hst. subst st.
  constructor; try assumption; try reflexivity.
  unfold user_machine. cbn [s_mem]. apply set_user_mem_os; [apply new_sim_os_mem | exact Hum].
Qed.

Lemma halt_virtual_ready s sp q buf e : user_ready s sp q buf -> fl_real (s_flags s) = false ->
  mget (s_mem s) (s_pc s) = new_init 61477 ->
  step_in e s = (upd_obs (upd_prefetch s true) [(s_pc s, OBS_READ)], OHalt).
Proof.
  intros Hur Hreal Hw. as_st Hur.
  rewrite halt_virtual; [reflexivity | exact Hreal | unfold IO_START, sim.IO_START; lia | apply may_access_user; exact Hupc | exact Hw].
Qed.

(* three instructions: TRAP, AND R7, STI MCR *)
Lemma halt_real_ready s sp q buf sc t :
  user_ready s sp q buf -> OS_END + 2 <= sp <= USER_START -> fl_real (s_flags s) = true ->
  mget (s_mem s) (s_pc s) = new_init 61477 ->
  exists s', run sc t 3 s = (s', OOk) /\ s_mcr s' = false /\ s_devs s' = s_devs s /\
             (forall r, 0 <= r < 6 -> rget (s_regs s') r = rget (s_regs s) r) /\
             (forall a, in_user a = true -> mget (s_mem s') a = mget (s_mem s) a).
Proof.
  intros Hur Hsp Hreal Hw. unfold OS_END, USER_START, sim.USER_START in Hsp.
  as_st Hur. apply t_exact. apply (a_run _ _ sp); [exact Hos|].
  apply halt_real with (sp := sp); [exact Hreal | apply Htrap; [lia | exact Hw] | lia | ].
  intros r6' r7' psr' F' Hmcr. apply a_0. intros m' T' Hm'.
  split; [reflexivity|]. split; [exact Hmcr|]. split; [reflexivity|]. split.
  - intros r Hr. assert (r = 0 \/ r = 1 \/ r = 2 \/ r = 3 \/ r = 4 \/ r = 5) as [-> | [-> | [-> | [-> | [-> | ->]]]]] by lia; reflexivity.
  - apply (ms_user sp _ _ _ ltac:(lia) Hm').
Qed.
