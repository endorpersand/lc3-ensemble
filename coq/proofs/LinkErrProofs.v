(* LinkErrProofs.v — C26, linker half: every error returned by `ObjectFile::link` carries a span
   list that is not empty, so `ErrSpan::first` (src/err.rs, which panics on `ErrSpan::Many(vec![])`;
   written here as [err_first] = the head of the list) does not panic on it, and every span is an
   ordered pair. *)
From Coq Require Import ZArith List Bool Lia.
From Model Require Import Tree Bits Text SourceInfo Obj Link.
From Proofs Require Import TextFacts LinkProofs.
Import ListNotations.
Open Scope Z_scope.

Definition err_first (sp : list (Z * Z)) : option (Z * Z) := hd_error sp.

Theorem C26_link_nonempty : forall a b k sp, link a b = LErr k sp ->
  sp <> [] /\ (exists s, err_first sp = Some s) /\
  (k = OverlappingBlocks -> sp = [(0, 0)]) /\ (k = OverlappingLabels -> List.length sp = 2%nat).
Proof.
  intros a b k sp H.
  destruct (link_err_inv a b k sp H) as [(-> & ->)|(-> & n & ad & bd & sa & sb & -> & _)].
  - split; [discriminate|]. split; [eexists; reflexivity|]. split; [reflexivity|discriminate].
  - split; [discriminate|]. split; [eexists; reflexivity|]. split; [discriminate|reflexivity].
Qed.
Print Assumptions C26_link_nonempty.

Lemma sym_span_ordered d n s : sym_span d n = Some s -> fst s <= snd s.
Proof.
  unfold sym_span. destruct (usize_max <? _); [discriminate|]. intros [= <-]. cbn.
  pose proof (byte_len_nonneg n). lia.
Qed.

Theorem C26_link_spans_ordered : forall a b k sp s, link a b = LErr k sp -> In s sp -> fst s <= snd s.
Proof.
  intros a b k sp s H Hin.
  destruct (link_err_inv a b k sp H) as [(_ & ->)|(_ & n & ad & bd & sa & sb & -> & Ha & Hb)].
  - destruct Hin as [<-|[]]. cbn. lia.
  - destruct Hin as [<-|[<-|[]]]; eapply sym_span_ordered; eassumption.
Qed.
Print Assumptions C26_link_spans_ordered.
