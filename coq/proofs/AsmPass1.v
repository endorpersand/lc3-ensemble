(* AsmPass1.v — pass 1 (`SymbolTable::new`) against the positional specification.  [p1_step_inv]:
   after any prefix the state is the abstraction of that prefix ([I1]: the location counter IS the
   unbounded positional address — [shift_exact] —, the label map holds the first binding of every
   name, nothing pass 1 checks is violated so far), or the error names a violated condition.  A
   step panics only on a line index outside its table ([fits]); not for the table of [pass1]. *)
From Coq Require Import ZArith List Bool Lia.
From Gen Require Import Constants.
From Model Require Import Tree Text Bits Instr Offset AsmAst Obj SourceInfo Assembler.
From Spec Require Import LayoutSpec WfSpec.
From Proofs Require Import ListFacts AsmBase.
Import ListNotations.
Open Scope Z_scope.

Lemma typed_app p q : typed (p ++ q) = typed p && typed q.
Proof. unfold typed. apply forallb_app. Qed.

Lemma size_bounds s : typed_stmt s = true -> 0 <= size s < 65536.
Proof.
  unfold typed_stmt, size. destruct (s_nucleus s) as [i|d]; [lia|].
  destruct d as [a|o|n|t| |l]; intros H; try lia.
  pose proof (byte_len_nonneg t). lia.
Qed.
Lemma size_pos s : needs_addr s = true ->
  match s_nucleus s with NDir (DBlkw n) => 0 <? n | _ => true end = true -> 0 < size s.
Proof.
  unfold needs_addr, size. destruct (s_nucleus s) as [i|[a|o|n|t| |l]]; intros NA B; try discriminate NA; try lia.
  pose proof (byte_len_nonneg t). lia.
Qed.
Lemma stmt_len_size s : typed_stmt s = true -> stmt_len (s_nucleus s) = WL (size s).
Proof.
  unfold typed_stmt, size, stmt_len, word_len. destruct (s_nucleus s) as [i|d]; [reflexivity|].
  destruct d as [a|o|n|t| |l]; intros H; try reflexivity.
  apply Z.ltb_lt in H. pose proof (byte_len_nonneg t). unfold wrap16.
  rewrite Z.mod_small by lia. destruct (byte_len t + 1 <? 65536) eqn:E; [reflexivity|lia].
Qed.

Lemma shift_exact c n : c_ovf c = false -> 0 <= c_lc c < 65536 -> 0 <= n < 65536 ->
  shift c n =
    if n =? 0 then SOk c
    else if c_lc c + n <=? asm.IO_START then SOk (mkCur (c_lc c + n) false (c_orig c))
    else if c_lc c + n <=? 65536 then SErr BlockInIO
    else SErr WrappingBlock.
Proof.
  intros Ho Hl Hn. unfold shift. rewrite Ho. unfold asm.IO_START, wrap16.
  destruct (n =? 0) eqn:E0; [reflexivity|]. apply Z.eqb_neq in E0.
  destruct (c_lc c + n <? 65536) eqn:E1.
  - destruct (c_lc c + n >? 65024) eqn:E2; destruct (c_lc c + n <=? 65024) eqn:E3; try lia; try reflexivity.
    destruct (c_lc c + n <=? 65536) eqn:E4; [reflexivity|lia].
  - destruct (c_lc c + n <=? 65024) eqn:E3; [lia|].
    assert (Hm : (- n) mod 65536 = 65536 - n) by (Z.div_mod_to_equations; lia). rewrite Hm.
    destruct (c_lc c =? 65536 - n) eqn:E5; destruct (c_lc c + n <=? 65536) eqn:E6; try reflexivity; lia.
Qed.

Definition sym_of (b : binding) : symdata := mkSym (b_addr b) (b_src b) (b_ext b).
(* first binding of every name; distinct keys, so that membership decides [assoc] *)
Definition labels_rep (L : labmap) (bs : list binding) : Prop :=
  NoDup (map fst L) /\ forall k, assoc k L = option_map sym_of (find (named k) bs).
Definition consistent (bs : list binding) : Prop :=
  forall b b', In b bs -> In b' bs -> b_name b = b_name b' -> b_addr b = b_addr b'.
(* the body of WfSpec.v_dup *)
Definition dupb (bs : list binding) : bool :=
  existsb (fun b => existsb (fun b' => str_eqb (b_name b) (b_name b') && negb (b_addr b =? b_addr b')) bs) bs.

Lemma v_dup_dupb p : v_dup p = dupb (bindings p).
Proof. reflexivity. Qed.

Lemma dupb_false_consistent bs : dupb bs = false <-> consistent bs.
Proof.
  unfold dupb, consistent. split.
  - intros H b b' Hb Hb' Hn.
    destruct (Z.eq_dec (b_addr b) (b_addr b')) as [E|E]; [exact E|]. exfalso.
    assert (T : existsb (fun b0 => existsb (fun b'0 => str_eqb (b_name b0) (b_name b'0) && negb (b_addr b0 =? b_addr b'0)) bs) bs = true).
    { apply existsb_exists. exists b. split; [exact Hb|]. apply existsb_exists. exists b'. split; [exact Hb'|].
      rewrite Hn, str_eqb_refl. cbn. apply negb_true_iff. apply Z.eqb_neq. exact E. }
    congruence.
  - intros H. destruct (existsb _ bs) eqn:E; [|reflexivity]. exfalso.
    apply existsb_exists in E. destruct E as [b [Hb E]]. apply existsb_exists in E. destruct E as [b' [Hb' E]].
    apply andb_prop in E. destruct E as [E1 E2]. apply str_eqb_eq in E1. apply negb_true_iff in E2. apply Z.eqb_neq in E2.
    apply E2. apply H; assumption.
Qed.
Lemma dupb_true_witness bs b b' : In b bs -> In b' bs -> b_name b = b_name b' -> b_addr b <> b_addr b' -> dupb bs = true.
Proof.
  intros Hb Hb' Hn Ha. destruct (dupb bs) eqn:E; [reflexivity|]. exfalso.
  apply dupb_false_consistent in E. apply Ha. apply E; assumption.
Qed.
Lemma dupb_app_true bs bs' : dupb bs = true -> dupb (bs ++ bs') = true.
Proof.
  intros H. destruct (dupb (bs ++ bs')) eqn:E; [reflexivity|]. exfalso.
  apply dupb_false_consistent in E.
  assert (F : dupb bs = false).
  { apply dupb_false_consistent. intros b b' Hb Hb'. apply E; apply in_or_app; left; assumption. }
  congruence.
Qed.

Lemma find_named_some k bs b : find (named k) bs = Some b -> In b bs /\ b_name b = k.
Proof.
  intros H. apply find_some in H. destruct H as [H1 H2]. split; [exact H1|]. unfold named in H2.
  apply str_eqb_eq in H2. exact H2.
Qed.
Lemma find_named_none k bs : find (named k) bs = None -> forall b, In b bs -> b_name b <> k.
Proof.
  intros H b Hb E. pose proof (find_none _ _ H b Hb) as F. unfold named in F. rewrite E, str_eqb_refl in F. discriminate.
Qed.

Lemma consistent_snoc bs nb :
  consistent bs -> (forall b, In b bs -> b_name b = b_name nb -> b_addr b = b_addr nb) -> consistent (bs ++ [nb]).
Proof.
  intros C H x y Hx Hy E. apply in_app_or in Hx, Hy.
  destruct Hx as [Hx|[<-|[]]]; destruct Hy as [Hy|[<-|[]]];
    [exact (C x y Hx Hy E) | exact (H x Hx E) | symmetry; exact (H y Hy (eq_sym E)) | reflexivity].
Qed.

Definition mk_bind (addr : Z) (ext : bool) (l : label) : binding := mkB (upper (l_name l)) addr ext (l_start l).

Lemma add_label_spec L bs l addr ext :
  labels_rep L bs -> consistent bs ->
  post (add_label L l addr ext)
    (fun L' => labels_rep L' (bs ++ [mk_bind addr ext l]) /\ consistent (bs ++ [mk_bind addr ext l]))
    (fun k _ => k = OverlappingLabels /\ dupb (bs ++ [mk_bind addr ext l]) = true) False.
Proof.
  intros [ND R] C. unfold mk_bind. set (nb := mkB (upper (l_name l)) addr ext (l_start l)). unfold add_label. set (key := upper (l_name l)).
  pose proof (R key) as Rk. destruct (assoc key L) as [d|] eqn:A.
  - (* the name is bound already: to its first binding b *)
    destruct (find (named key) bs) as [b|] eqn:F; [|discriminate Rk]. cbn in Rk. injection Rk as ->.
    pose proof (find_named_some _ _ _ F) as [Hb Hn]. cbn [sd_addr sym_of].
    destruct (b_addr b =? addr) eqn:E.
    + apply Z.eqb_eq in E. split.
      * split; [exact ND|]. intros k. rewrite find_app, R.
        destruct (find (named k) bs) as [b0|] eqn:F0; [reflexivity|].
        unfold named, nb. cbn [find b_name]. fold key. destruct (str_eqb key k) eqn:Ek; [|reflexivity].
        apply str_eqb_eq in Ek. subst k. congruence.
      * apply consistent_snoc; [exact C|]. intros b' Hb' En. unfold nb in *. cbn [b_name b_addr] in *. rewrite <- E. apply C; [exact Hb' | exact Hb | rewrite En; symmetry; exact Hn].
    + apply Z.eqb_neq in E. split; [reflexivity|].
      apply (dupb_true_witness _ b nb); [apply in_or_app; left; exact Hb | apply in_or_app; right; left; reflexivity | exact Hn | exact E].
  - destruct (find (named key) bs) as [b|] eqn:F; [discriminate Rk|]. split.
    + split.
      * rewrite map_app. cbn [map fst]. apply NoDup_app_snoc; [exact ND|]. apply (lookup_none key L). exact A.
      * intros k. rewrite assoc_app, find_app, R.
        destruct (find (named k) bs) as [b0|] eqn:F0; [reflexivity|]. cbn [option_map].
        unfold named, nb. cbn [assoc find b_name]. fold key. rewrite (str_eqb_sym k key).
        destruct (str_eqb key k); reflexivity.
    + apply consistent_snoc; [exact C|]. intros b' Hb' En. exfalso. exact (find_named_none _ _ F b' Hb' En).
Qed.

Lemma add_labels_spec ls L bs addr :
  labels_rep L bs -> consistent bs ->
  post (add_labels L ls addr)
    (fun L' => labels_rep L' (bs ++ map (mk_bind addr false) ls) /\ consistent (bs ++ map (mk_bind addr false) ls))
    (fun k _ => k = OverlappingLabels /\ dupb (bs ++ map (mk_bind addr false) ls) = true) False.
Proof.
  intros R C. rewrite add_labels_afold.
  apply (afold_inv _ (fun pre L' => labels_rep L' (bs ++ map (mk_bind addr false) pre) /\ consistent (bs ++ map (mk_bind addr false) pre)));
    [|cbn [map]; rewrite app_nil_r; split; assumption].
  intros pre l r L' -> [R' C']. pose proof (add_label_spec L' _ l addr false R' C') as S.
  rewrite <- app_assoc in S. change (map (mk_bind addr false) pre ++ [mk_bind addr false l]) with (map (mk_bind addr false) pre ++ map (mk_bind addr false) [l]) in S.
  rewrite <- map_app in S. revert S. apply post_mono; [auto | | auto].
  intros k _ [-> D]. split; [reflexivity|].
  rewrite (app_cons_snoc pre l r).
  rewrite map_app, app_assoc. apply dupb_app_true. exact D.
Qed.

(* [0 <= o <= a < 65536]: the bounds [shift_exact] asks.  Nothing reads the last conjunct (AsmSpans keeps it by [Jdir]). *)
Definition cur_rel (c : option cursor) (ps : pos) (pre : list stmt) : Prop :=
  match c, ps with
  | None, None => True
  | Some c, Some (o, a) => c_lc c = a /\ c_ovf c = false /\ 0 <= o <= a /\ a < 65536 /\ In (c_orig c) (map stmt_span pre)
  | _, _ => False
  end.

Lemma cur_rel_mono cu c pre r : cur_rel cu c pre -> cur_rel cu c (pre ++ r).
Proof.
  unfold cur_rel. destruct cu as [cu|]; destruct c as [[o a]|]; try tauto.
  intros [E1 [E2 [E3 [E4 E5]]]]. repeat split; try assumption; try lia. rewrite map_app. apply in_or_app. left. exact E5.
Qed.

Record I1 (pre : list stmt) (st : p1) : Prop := mkI1 {
  i1_cur : cur_rel (p1_cur st) (final None pre) pre;
  i1_rep : labels_rep (p1_labels st) (bindings pre);
  i1_cons : consistent (bindings pre);
  i1_label : v_undet_label pre = false;
  i1_unop : v_unopened pre = false;
  i1_nest : v_nested pre = false;
  i1_io : v_reach asm.IO_START pre = false }.

(* the one way a step can panic on a typed program; AsmLines discharges it for the table of [pass1] *)
Definition fits (src : option str) (st : p1) : Prop :=
  forall ls text, p1_lines st = Some ls -> src = Some text ->
  forall i, (0 <=? get_line text i) && (get_line text i <? len ls) = true.

Lemma typed_in p s : typed p = true -> In s p -> typed_stmt s = true.
Proof. unfold typed. rewrite forallb_forall. auto. Qed.

Lemma placed_in pre s suf : In (final None pre, s) (placed (pre ++ s :: suf)).
Proof. rewrite placed_app. apply in_or_app. right. left. reflexivity. Qed.

Definition lab_binds (c : pos) (s : stmt) : list binding :=
  match c with Some (_, a) => map (mk_bind a false) (s_labels s) | None => [] end.
Definition ext_binds (s : stmt) : list binding :=
  match s_nucleus s with NDir (DExternal l) => [mk_bind 0 true l] | _ => [] end.
Lemma bindings_snoc p s : bindings (p ++ [s]) = (bindings p ++ lab_binds (final None p) s) ++ ext_binds s.
Proof. unfold bindings. rewrite flat_map_placed_snoc. apply app_assoc. Qed.

Lemma dup_violated pre s r : dupb (bindings (pre ++ [s])) = true -> violated (pre ++ s :: r) OverlappingLabels = true.
Proof. intros D. cbn [violated]. rewrite v_dup_dupb, (app_cons_snoc pre s r), bindings_app. apply dupb_app_true. exact D. Qed.

Lemma is_orig_next c s a : s_nucleus s = NDir (DOrig a) -> next c s = Some (a, a).
Proof. unfold next. intros ->. reflexivity. Qed.

(* the position at which the location counter moves: after .orig has opened, .end closed a block *)
Definition mid (c : pos) (s : stmt) : pos :=
  match s_nucleus s with NDir (DOrig a) => Some (a, a) | NDir DEnd => None | _ => c end.
Lemma next_mid c s : next c s = match mid c s with Some (o, a) => Some (o, a + size s) | None => None end.
Proof.
  unfold next, mid, size. destruct (s_nucleus s) as [i|[a|o|n|t| |l]]; try reflexivity.
  rewrite Z.add_0_r. reflexivity.
Qed.
Lemma needs_addr_not_end s : needs_addr s = true -> is_end s = false.
Proof. unfold needs_addr, is_end. destruct (s_nucleus s) as [i|[a|o|n|t| |l]]; intros H; try discriminate H; reflexivity. Qed.
Lemma next_addr c s : needs_addr s = true ->
  next c s = match c with Some (o, a) => Some (o, a + size s) | None => None end.
Proof.
  intros NA. rewrite next_mid. unfold mid, needs_addr in *.
  destruct (s_nucleus s) as [i|[a|o|n|t| |l]]; try reflexivity; discriminate.
Qed.
Lemma reach_mid lim c s :
  match c with Some (_, a) => (0 <? size s) && (lim <? a + size s) | None => false end
  = match mid c s with Some (_, a) => (0 <? size s) && (lim <? a + size s) | None => false end.
Proof.
  unfold mid, size. destruct (s_nucleus s) as [i|[a|o|n|t| |l]]; try reflexivity; destruct c as [[? ?]|]; reflexivity.
Qed.

Lemma p1_lab_inv st s c pre bs :
  cur_rel (p1_cur st) c pre -> labels_rep (p1_labels st) bs -> consistent bs ->
  post (p1_lab st s)
    (fun L1 => labels_rep L1 (bs ++ lab_binds c s) /\ consistent (bs ++ lab_binds c s)
               /\ negb (inside c) && has_labels s = false)
    (fun k _ => (k = UndetAddrLabel /\ negb (inside c) && has_labels s = true)
                \/ (k = OverlappingLabels /\ dupb (bs ++ lab_binds c s) = true))
    False.
Proof.
  intros CR R C. unfold p1_lab, has_labels, lab_binds. destruct (s_labels s) as [|l ls].
  - cbn [post]. destruct c as [[o a]|]; cbn [map]; rewrite app_nil_r, andb_false_r; (split; [assumption | split; [assumption | reflexivity]]).
  - unfold cur_rel in CR. destruct (p1_cur st) as [cu|]; destruct c as [[o a]|]; try contradiction.
    + destruct CR as [E _]. rewrite E. generalize (add_labels_spec (l :: ls) (p1_labels st) bs a R C). apply post_mono.
      * intros L1 [S1 S2]. split; [assumption | split; [assumption | reflexivity]].
      * intros k _ S. right. exact S.
      * intros [].
    + cbn [post]. left. split; reflexivity.
Qed.

Lemma p1_dir_inv st s c pre L1 bs :
  cur_rel (p1_cur st) c pre -> labels_rep L1 bs -> consistent bs -> typed_stmt s = true ->
  post (p1_dir st s L1)
    (fun x => let '(c2, L2, _) := x in
              cur_rel c2 (mid c s) (pre ++ [s]) /\ labels_rep L2 (bs ++ ext_binds s) /\ consistent (bs ++ ext_binds s)
              /\ inside c && is_orig s = false /\ negb (inside c) && is_end s = false)
    (fun k _ => (k = OverlappingOrig /\ inside c && is_orig s = true)
                \/ (k = UnopenedOrig /\ negb (inside c) && is_end s = true)
                \/ (k = OverlappingLabels /\ dupb (bs ++ ext_binds s) = true)
                \/ (k = UndetAddrStmt /\ negb (inside c) && needs_addr s = true))
    False.
Proof.
  intros CR R C T.
  assert (G : cur_rel (p1_cur st) c (pre ++ [s]) /\ labels_rep L1 (bs ++ []) /\ consistent (bs ++ [])
              /\ inside c && false = false /\ negb (inside c) && false = false).
  { rewrite app_nil_r, !andb_false_r. split; [apply cur_rel_mono; exact CR|]. split; [exact R|]. split; [exact C|]. split; reflexivity. }
  unfold p1_dir, mid, ext_binds, is_orig, is_end, needs_addr, typed_stmt in *.
  destruct (s_nucleus s) as [i|[a|[v|l]|n|t| |l]]; try exact G.
  - unfold cur_rel in CR. destruct (p1_cur st) as [cu|]; destruct c as [[o a0]|]; try contradiction; cbn [post].
    + left. split; reflexivity.
    + rewrite app_nil_r. cbn [cur_rel c_lc c_ovf c_orig]. split; [|split; [exact R|]; split; [exact C|]; split; reflexivity].
      repeat split; try reflexivity; try lia. rewrite map_app. apply in_or_app. right. left. reflexivity.
  - cbv zeta. destruct (p1_cur st) as [cu|]; [exact G|].
    destruct (assoc (upper (l_name l)) L1) as [d|]; [destruct (sd_external d)|]; try exact G.
    cbn [post]. right. right. right. split; [reflexivity|]. destruct c as [[? ?]|]; [contradiction|reflexivity].
  - unfold cur_rel in CR. destruct (p1_cur st) as [cu|]; destruct c as [[o a0]|]; try contradiction; cbn [post].
    + rewrite app_nil_r. split; [exact Logic.I|]. split; [exact R|]. split; [exact C|]. split; reflexivity.
    + right. left. split; reflexivity.
  - apply (post_seq (add_label_spec L1 bs l 0 true R C)).
    + intros k _ S. right. right. left. exact S.
    + intros L2 [R2 C2]. cbn [post]. rewrite !andb_false_r. split; [apply cur_rel_mono; exact CR|]. split; [exact R2|]. split; [exact C2|]. split; reflexivity.
Qed.

Lemma p1_line_inv src st s cu E : post (p1_line src st s cu) (fun _ => True) E (~ fits src st).
Proof.
  apply p1_line_post. unfold p1_line. destruct (p1_lines st) as [ls|] eqn:EL; destruct src as [text|]; try discriminate.
  destruct (no_line_entry (s_nucleus s)); [discriminate|].
  destruct ((0 <=? get_line text (s_start s)) && (get_line text (s_start s) <? len ls)) eqn:B; [discriminate|].
  intros _ F. rewrite (F ls text EL eq_refl) in B. discriminate B.
Qed.

Lemma p1_move_inv cu o a pre s :
  cur_rel (Some cu) (Some (o, a)) pre -> typed_stmt s = true ->
  post (p1_move s cu)
    (fun cu' => cur_rel (Some cu') (Some (o, a + size s)) pre /\ (0 <? size s) && (asm.IO_START <? a + size s) = false)
    (fun k _ => (k = BlockInIO /\ (0 <? size s) && (asm.IO_START <? a + size s) = true)
                \/ (k = WrappingBlock /\ (0 <? size s) && (65536 <? a + size s) = true))
    False.
Proof.
  unfold cur_rel. intros [E [Ho [Hoa [Ha Hin]]]] T. unfold p1_move. rewrite (stmt_len_size s T). pose proof (size_bounds s T) as B.
  rewrite shift_exact by (try assumption; lia). rewrite E. unfold asm.IO_START.
  destruct (size s =? 0) eqn:E0.
  - apply Z.eqb_eq in E0. rewrite E0. cbn [post]. repeat split; try lia; assumption.
  - apply Z.eqb_neq in E0. destruct (a + size s <=? 65024) eqn:E1.
    + cbn [post c_lc c_ovf c_orig]. repeat split; try lia; exact Hin.
    + destruct (a + size s <=? 65536) eqn:E2; cbn [post]; [left | right]; split; try reflexivity; lia.
Qed.

Lemma p1_step_inv src pre s r st : I1 pre st -> typed_stmt s = true ->
  post (p1_step src st s) (I1 (pre ++ [s])) (fun k _ => violated (pre ++ s :: r) k = true) (~ fits src st).
Proof.
  intros [CR R C VL VU VN VIO] T. set (c := final None pre) in *.
  pose proof (placed_in pre s r) as K. fold c in K.
  assert (FIN : final None (pre ++ [s]) = match mid c s with Some (o, a) => Some (o, a + size s) | None => None end).
  { rewrite final_snoc. apply next_mid. }
  rewrite p1_step_eq.
  apply (post_seq (p1_lab_inv st s c pre _ CR R C)).
  { intros k _ [[-> F]|[-> F]]; [exact (existsb_in _ _ _ K F) | apply dup_violated; rewrite bindings_snoc; apply dupb_app_true; exact F]. }
  intros L1 [R1 [C1 FL]].
  apply (post_seq (p1_dir_inv st s c pre L1 _ CR R1 C1 T)).
  { intros k _ [[-> F]|[[-> F]|[[-> F]|[-> F]]]]; try exact (existsb_in _ _ _ K F).
    apply dup_violated. rewrite bindings_snoc. exact F. }
  intros [[c2 L2] r2] [CR2 [R2 [C2 [FN FU]]]].
  assert (DONE : forall cu' ls', cur_rel cu' (final None (pre ++ [s])) (pre ++ [s]) ->
            match c with Some (_, a) => (0 <? size s) && (asm.IO_START <? a + size s) | None => false end = false ->
            I1 (pre ++ [s]) (mkP1 cu' L2 r2 ls')).
  { intros cu' ls' H1 H2. constructor; cbn [p1_cur p1_labels]; try rewrite bindings_snoc; try assumption.
    - exact (v_snoc_false _ _ _ VL FL).
    - exact (v_snoc_false _ _ _ VU FU).
    - exact (v_snoc_false _ _ _ VN FN).
    - exact (v_snoc_false _ _ _ VIO H2). }
  unfold p1_tail. destruct c2 as [cu|]; destruct (mid c s) as [[o a]|] eqn:EM; try contradiction.
  - apply (post_bind _ _ (fun _ => True)); [apply p1_line_inv|]. intros ls' _.
    apply (post_seq (p1_move_inv cu o a (pre ++ [s]) s CR2 T)).
    + intros k _ [[-> F]|[-> F]]; cbn [violated]; unfold v_reach; apply (existsb_in _ _ _ K); cbn [fst snd];
        rewrite (reach_mid _ c s), EM; exact F.
    + intros cu' [CR' H2]. apply DONE; [rewrite FIN; exact CR' | rewrite (reach_mid _ c s), EM; exact H2].
  - apply DONE; [rewrite FIN; exact Logic.I | rewrite (reach_mid _ c s), EM; reflexivity].
Qed.

Lemma p1_loop_inv src p st : typed p = true -> I1 [] st ->
  post (p1_loop src st p) (I1 p) (fun k _ => violated p k = true) (src <> None).
Proof.
  intros T HI. rewrite p1_loop_afold. apply (afold_inv _ I1); [|exact HI].
  intros pre s r st' EP HI'. subst p.
  generalize (p1_step_inv src pre s r st' HI' (typed_in _ s T (in_elt s pre r))). apply post_mono; [auto | auto |].
  intros NF E. subst src. apply NF. intros ls text _ E. discriminate E.
Qed.

Lemma I1_init ls : I1 [] (mkP1 None [] [] ls).
Proof.
  constructor; cbn; try reflexivity; try exact Logic.I.
  - split; [constructor|]. intros k. reflexivity.
  - intros b b' [].
Qed.

(* [I1] at the end, the last block closed ([I1] reads only cursor and labels of the state) *)
Definition P1ok (p : list stmt) (L : labmap) : Prop := I1 p (mkP1 None L [] None).
Lemma P1ok_closed p L : P1ok p L -> final None p = None.
Proof. intros OK. pose proof (i1_cur _ _ OK) as CR. cbn in CR. destruct (final None p) as [[o a]|]; [contradiction | reflexivity]. Qed.

(* weak panic clause; AsmLines.pass1_text_spec has the exact one *)
Lemma pass1_spec src p : typed p = true ->
  post (pass1 p src) (fun sym => P1ok p (st_labels sym)) (fun k _ => violated p k = true) (src <> None).
Proof.
  intros T. unfold pass1. cbv zeta. apply (post_bind _ _ (I1 p)); [apply (p1_loop_inv src p _ T); apply I1_init|].
  intros st [CR R C VL VU VN VIO]. unfold cur_rel in CR. destruct (p1_cur st) as [cu|].
  - cbn [post violated]. unfold v_unclosed. destruct (final None p) as [[o a]|]; [reflexivity|contradiction].
  - destruct (final None p) as [[o a]|] eqn:EF; [contradiction|].
    assert (OK : P1ok p (p1_labels st)) by (constructor; cbn [p1_cur p1_labels]; try rewrite EF; assumption).
    destruct (p1_lines st) as [ls|]; destruct src as [text|]; try exact OK.
    destruct (lsm_new ls); [exact OK|]. cbn [post]. discriminate.
Qed.
