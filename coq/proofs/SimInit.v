(* SimInit.v — C14, third sentence: a machine whose memory words, registers and saved stack pointer are all
   fully initialised never reports a strict error and stays so, with strict mode on or off. *)
From Coq Require Import ZArith List Bool Lia.
From Model Require Import Word Sim.
From Proofs Require Import SimHoare SimObsEntry IrqProofs SimMachine.
Import ListNotations.
Open Scope Z_scope.

Definition AI (s : sim) : Prop :=
  List.length (s_regs s) = 8%nat /\ Forall (fun w => is_init w = true) (s_regs s)
  /\ is_init (s_saved_sp s) = true /\ (forall a, is_init (mget (s_mem s) a) = true).

Definition ok_brk (b : brk) : Prop := match b with BErr e => is_strict_err e = false | _ => True end.

Definition G {A} (m : M A) (Q : A -> Prop) : Prop :=
  forall s, AI s -> AI (fst (m s)) /\ match snd (m s) with inl a => Q a | inr b => ok_brk b end.
Definition any {A} (_ : A) : Prop := True.
Definition winit (w : word) : Prop := is_init w = true.

Lemma g_any {A} (m : M A) (Q : A -> Prop) : G m Q -> G m any.
Proof.
  intros H s Hs. specialize (H s Hs). destruct (m s) as [s1 [a|b]]; cbn [fst snd] in *; destruct H; split; auto. exact Logic.I.
Qed.

Lemma ai_get_if_init w st e : winit w -> hoareI AI (of_opt (get_if_init w st) e) anyv ok_brk.
Proof. intros H. unfold get_if_init. unfold winit in H. rewrite H, orb_true_r. apply hi_ret. exact Logic.I. Qed.
Lemma ai_set_if_init w st e : winit w -> hoareI AI (of_opt (set_if_init w st) e) winit ok_brk.
Proof. intros H. unfold set_if_init. unfold winit in H. rewrite H, orb_true_r. apply hi_ret. exact H. Qed.

Lemma AI_mset s a w : AI s -> winit w -> AI (upd_mem s (mset (s_mem s) a w)).
Proof.
  intros (L & R & S & M) Hw. repeat split; try assumption. apply (mget_mset_all winit); assumption.
Qed.
Lemma AI_rset s r w : AI s -> winit w -> AI (upd_regs s (rset (s_regs s) r w)).
Proof.
  intros (L & R & S & M) Hw. unfold AI. cbn [s_regs s_saved_sp s_mem upd_regs]. unfold rset.
  rewrite set_nth_length. repeat split; try assumption. apply set_nth_Forall; assumption.
Qed.
Lemma AI_rget s r : AI s -> rok r -> winit (rget (s_regs s) r).
Proof.
  intros (L & R & _) Hr. unfold rok in Hr. unfold rget, winit. rewrite Forall_forall in R. apply R. apply nth_In. rewrite L. lia.
Qed.
Lemma AI_ssp s w : AI s -> winit w -> AI (upd_saved_sp s w).
Proof. intros (L & R & S & M) Hw. repeat split; assumption. Qed.
Lemma AI_mget s a : AI s -> winit (mget (s_mem s) a). Proof. intros (_ & _ & _ & M). apply M. Qed.

Lemma winit_new d : winit (new_init d). Proof. reflexivity. Qed.
Lemma winit_eq w : winit w -> w_init w = ALL_BITS. Proof. unfold winit, is_init. intros H. apply Z.eqb_eq. exact H. Qed.
Lemma winit_add l r : winit l -> winit r -> winit (w_add l r).
Proof.
  intros Hl Hr. unfold w_add. destruct (_ && _); [exact Hl|]. destruct (_ && _); [exact Hr|].
  unfold winit, is_init, both_init. cbn [w_init]. rewrite (winit_eq l Hl), (winit_eq r Hr). reflexivity.
Qed.
Lemma winit_sub l r : winit l -> winit r -> winit (w_sub l r).
Proof.
  intros Hl Hr. unfold w_sub. destruct (_ && _); [exact Hl|].
  unfold winit, is_init, both_init. cbn [w_init]. rewrite (winit_eq l Hl), (winit_eq r Hr). reflexivity.
Qed.
Lemma winit_not w : winit w -> winit (w_not w). Proof. intros H. exact H. Qed.
Lemma lor_absorb a y : Z.lor a (Z.land y a) = a.
Proof.
  apply Z.bits_inj'. intros n _. rewrite Z.lor_spec, Z.land_spec.
  destruct (Z.testbit a n), (Z.testbit y n); reflexivity.
Qed.
Lemma winit_and l r : winit l -> winit r -> winit (w_and l r).
Proof.
  intros Hl Hr. unfold winit, is_init, w_and. cbn [w_init]. rewrite (winit_eq l Hl), (winit_eq r Hr).
  change (Z.land ALL_BITS ALL_BITS) with ALL_BITS. rewrite !lor_absorb. apply Z.eqb_refl.
Qed.

Lemma AI_obs s o : AI s -> AI (upd_obs s o). Proof. intros H; exact H. Qed.

Lemma AI_io_read e a io s : AI s -> AI (io_read e a io s).
Proof.
  intros Hs. unfold io_read. destruct (assoc (s_ireg s) a) as [r|]; [apply AI_mset; [exact Hs|apply winit_new]|].
  destruct (dev_read e (nth_dev (s_devs s) (port_dev a)) a io) as [d' [v|]]; [|exact Hs].
  apply (AI_mset (upd_devs s _)); [exact Hs|apply winit_new].
Qed.
Lemma ai_read e a c : hoareI AI (read_mem e a c) winit ok_brk.
Proof. apply hi_read; [exact AI_obs|apply AI_io_read|intros s; apply AI_mget|reflexivity]. Qed.

Lemma AI_ireg_write s r v : AI s -> AI (ireg_write s r v).
Proof. intros H. destruct r; try exact H. apply AI_ssp; [exact H|apply winit_new]. Qed.

Lemma ai_write e a w c : winit w -> hoareI AI (write_mem e a w c) anyv ok_brk.
Proof.
  intros Hw. assert (MS : may_store w c = true) by (unfold may_store; rewrite Hw; apply orb_true_r).
  apply hi_write; [| | |reflexivity|rewrite MS; discriminate].
  - exact AI_obs.
  - intros s H. unfold io_write. destruct (assoc (s_ireg s) a) as [r|]; [apply AI_ireg_write, H|].
    destruct (dev_write e (nth_dev (s_devs s) (port_dev a)) a (w_data w)). exact H.
  - intros s H. apply AI_mset; assumption.
Qed.

Lemma ai_push a b f : hoareI AI (push_frame a b f) anyv ok_brk.
Proof. apply hi_push_frame. intros s n fr H. exact H. Qed.
Lemma AI_ssp_init s : AI s -> winit (s_saved_sp s). Proof. intros H. apply H. Qed.
Lemma AI_same_regs s s' : s_regs s' = s_regs s -> s_saved_sp s' = s_saved_sp s -> s_mem s' = s_mem s -> AI s -> AI s'.
Proof. intros R S M H. unfold AI. rewrite R, S, M. exact H. Qed.

Lemma operand_init s o : AI s -> ior_ok o -> winit (operand s o).
Proof. intros H Ho. destruct o; cbn [operand]; [apply winit_new | apply AI_rget; assumption]. Qed.

#[export] Hint Resolve ai_read ai_write ai_get_if_init ai_set_if_init ai_push
  winit_new winit_add winit_sub winit_and winit_not operand_init AI_rget AI_ssp_init
  AI_rset AI_ssp : hoare.
(* R6: entry and RTI address the stack through it *)
#[export] Hint Extern 0 (rok 6) => unfold rok; lia : hoare.
#[export] Hint Extern 0 (ok_brk _) => reflexivity : hoare.
(* updates that AI does not see (PC, PSR, prefetch, frames, devices); after AI_rset and AI_ssp, hence cost 4 *)
#[export] Hint Extern 4 (AI _) => eapply AI_same_regs; [reflexivity|reflexivity|reflexivity|] : hoare.
#[export] Hint Extern 0 (hoareI AI (modify _) _ _) => apply hi_modify; intros ? ? : hoare.

(* on an initialised memory the strict look at the jump target finds nothing *)
Lemma ai_set_pc w b : winit w -> hoareI AI (set_pc w b) anyv ok_brk.
Proof.
  intros Hw s Hs. rewrite set_pc_eq. unfold winit in *. rewrite Hw, (AI_mget s _ Hs), orb_true_r, andb_false_r.
  split; [exact Hs|exact Logic.I].
Qed.
#[export] Hint Resolve ai_set_pc : hoare.

Lemma ai_handle_interrupt e vect prio : hoareI AI (handle_interrupt e vect prio) anyv ok_brk.
Proof.
  apply hi_handle_interrupt; [|intros s H; exact H|].
  - intros b. apply real_int_vect_cases; reflexivity.
  - intros ft f s0 _. unfold entry_body. cbv delta [call_interrupt swap_sp]. repeat hstep.
Qed.
#[export] Hint Resolve ai_handle_interrupt : hoare.

Lemma ai_exec e i : regs_ok i -> hoareI AI (exec e i) anyv ok_brk.
Proof.
  intros RO. unfold exec. cbv delta [call_subroutine set_reg_if_init set_cc swap_sp pop_frame offset_pc]. hstep.
  destruct i as [cc off|dr sr1 o|dr off|sr off|o|dr sr1 o|dr br off|sr br off| |dr sr|dr off|sr off|br|dr off|v];
    cbn [regs_ok] in RO; try destruct o; cbn [ior_ok] in RO; decompose [and] RO; repeat hstep.
Qed.
#[export] Hint Resolve ai_exec : hoare.

Lemma ai_fetch_exec e : hoareI AI (fetch_exec e) anyv ok_brk.
Proof. unfold fetch_exec. cbv delta [offset_pc]. repeat hstep. Qed.
