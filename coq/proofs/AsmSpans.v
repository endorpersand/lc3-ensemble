(* AsmSpans.v — C26 (assembler half): every error carries at least one span; each is the span of a
   statement of the program or of a label written in it; label errors carry label spans.  Two
   provenance invariants, one per pass. *)
From Coq Require Import ZArith List Bool Lia.
From Gen Require Import Constants.
From Model Require Import Tree Text Bits Instr Offset AsmAst Obj SourceInfo Assembler.
From Spec Require Import WfSpec.
From Proofs Require Import AsmBase AsmBlocks AsmPass2.
Import ListNotations.
Open Scope Z_scope.

Definition labels_in (s : stmt) : list label :=
  s_labels s
  ++ (match s_nucleus s with NDir (DExternal l) => [l] | _ => [] end)
  ++ (match operand_of s with Some (_, l) => [l] | None => [] end).
Definition label_spans (p : list stmt) : list span := map label_span (flat_map labels_in p).
Definition stmt_spans (p : list stmt) : list span := map stmt_span p.

Definition label_kind (k : err_kind) : bool :=
  match k with
  | UndetAddrLabel | OverlappingLabels | OffsetNewErr _ | OffsetExternal | CouldNotFindLabel => true
  | _ => false
  end.

Definition spans_ok (p : list stmt) (k : err_kind) (sp : list span) : Prop :=
  sp <> [] /\
  Forall (fun s => In s (stmt_spans p) \/ In s (label_spans p)) sp /\
  (label_kind k = true -> Forall (fun s => In s (label_spans p)) sp).

Lemma spans_labels p k (ls : list label) :
  ls <> [] -> (forall l, In l ls -> In l (flat_map labels_in p)) -> spans_ok p k (map label_span ls).
Proof.
  intros NE H. assert (F : Forall (fun x => In x (label_spans p)) (map label_span ls)).
  { rewrite Forall_forall. intros x Hx. apply in_map_iff in Hx. destruct Hx as [l [<- Hl]]. apply in_map. exact (H l Hl). }
  split; [destruct ls; [congruence|discriminate]|]. split; [|intros _; exact F].
  rewrite Forall_forall in *. intros x Hx. right. exact (F x Hx).
Qed.
Lemma spans_stmts p k sp :
  label_kind k = false -> sp <> [] -> (forall x, In x sp -> In x (stmt_spans p)) -> spans_ok p k sp.
Proof.
  intros K NE H. split; [exact NE|]. split; [rewrite Forall_forall; intros x Hx; left; exact (H x Hx) | rewrite K; discriminate].
Qed.

Lemma spans_here p s : In s p -> forall k, label_kind k = false -> spans_ok p k [stmt_span s].
Proof. intros Hs k K. apply spans_stmts; [exact K | discriminate | intros x [<-|[]]; apply in_map; exact Hs]. Qed.

Definition Jlab (ls : list label) (L : labmap) : Prop :=
  forall k d, In (k, d) L -> exists l0, In l0 ls /\ k = upper (l_name l0) /\ sd_src_start d = l_start l0.
Definition Jdir (p : list stmt) (x : option cursor * labmap * list (Z * str)) : Prop :=
  let '(c2, L2, _) := x in Jlab (flat_map labels_in p) L2 /\ forall cu, c2 = Some cu -> In (c_orig cu) (stmt_spans p).
Definition J1 (p : list stmt) (st : p1) : Prop := Jdir p (p1_cur st, p1_labels st, p1_rel st).

Lemma add_label_spans ls L l addr ext :
  Jlab ls L -> In l ls ->
  post (add_label L l addr ext) (Jlab ls) (fun _ sp => exists l0, In l0 ls /\ sp = map label_span [l0; l]) False.
Proof.
  intros J Hl. unfold add_label. destruct (assoc (upper (l_name l)) L) as [d|] eqn:A.
  - destruct (sd_addr d =? addr); cbn [post]; [exact J|].
    apply lookup_in in A. destruct (J _ _ A) as [l0 [H1 [H2 H3]]]. exists l0. split; [exact H1|].
    cbn [map]. unfold label_span at 1. rewrite H3, H2, byte_len_upper. reflexivity.
  - intros k d' H. apply in_app_or in H. destruct H as [H|[H|[]]]; [exact (J k d' H)|].
    injection H as <- <-. exists l. split; [exact Hl|]. split; reflexivity.
Qed.
Lemma add_labels_spans ls2 ls L addr :
  Jlab ls L -> (forall l, In l ls2 -> In l ls) ->
  post (add_labels L ls2 addr) (Jlab ls)
    (fun _ sp => exists l0 l, In l0 ls /\ In l ls /\ sp = map label_span [l0; l]) False.
Proof.
  intros J H. rewrite add_labels_afold.
  apply (afold_inv _ (fun _ L' => Jlab ls L')); [|exact J].
  intros pre l r L' E J'. assert (Hl : In l ls) by (apply H; rewrite E; apply in_elt).
  generalize (add_label_spans ls L' l addr false J' Hl). apply post_mono; [auto | | auto].
  intros _ sp [l0 [H1 ->]]. exists l0, l. split; [exact H1|]. split; [exact Hl | reflexivity].
Qed.

Lemma shift_orig c n c' : shift c n = SOk c' -> c_orig c' = c_orig c.
Proof.
  unfold shift. destruct (n =? 0); [intros [= <-]; reflexivity|]. destruct (c_ovf c); [discriminate|].
  destruct (c_lc c + n <? 65536); [|destruct (c_lc c =? wrap16 (- n)); discriminate].
  destruct (c_lc c + n >? asm.IO_START); [discriminate|]. intros [= <-]. reflexivity.
Qed.
Lemma shift_err c n k : shift c n = SErr k -> label_kind k = false.
Proof.
  unfold shift. destruct (n =? 0); [discriminate|]. destruct (c_ovf c); [intros [= <-]; reflexivity|].
  destruct (c_lc c + n <? 65536).
  - destruct (c_lc c + n >? asm.IO_START); [intros [= <-]; reflexivity | discriminate].
  - destruct (c_lc c =? wrap16 (- n)); intros [= <-]; reflexivity.
Qed.

Lemma p1_step_spans src p s st :
  In s p -> J1 p st -> post (p1_step src st s) (J1 p) (spans_ok p) True.
Proof.
  intros Hs [JL JC]. rewrite p1_step_eq.
  assert (LI : forall l, In l (labels_in s) -> In l (flat_map labels_in p)).
  { intros l H. apply in_flat_map. exists s. split; assumption. }
  assert (HERE : In (stmt_span s) (stmt_spans p)) by (apply in_map; exact Hs).
  pose proof (spans_here p s Hs) as SS.
  apply (post_bind _ _ (Jlab (flat_map labels_in p))).
  { unfold p1_lab. destruct (s_labels s) as [|l ls] eqn:EL; [exact JL|]. rewrite <- EL.
    assert (LL : forall x, In x (s_labels s) -> In x (flat_map labels_in p)) by (intros x H; apply LI, in_or_app; left; exact H).
    destruct (p1_cur st) as [cu|]; [|apply spans_labels; [rewrite EL; discriminate | exact LL]].
    generalize (add_labels_spans (s_labels s) _ _ (c_lc cu) JL LL). apply post_mono; [auto | | auto].
    intros k _ [l0 [l' [H1 [H2 ->]]]]. apply spans_labels; [discriminate|]. intros x [<-|[<-|[]]]; assumption. }
  intros L1 J1'.
  apply (post_bind _ _ (Jdir p)).
  { assert (G : forall r2, Jdir p (p1_cur st, L1, r2)) by (intros r2; exact (conj J1' JC)).
    unfold p1_dir. destruct (s_nucleus s) as [i|[a|[v|l]|n|t| |l]] eqn:EN; try apply G.
    - destruct (p1_cur st) as [cu|] eqn:ECU; cbn [post].
      + apply spans_stmts; [reflexivity | discriminate|]. intros x [<-|[<-|[]]]; [exact (JC cu eq_refl) | exact HERE].
      + split; [exact J1'|]. intros cu [= <-]. exact HERE.
    - cbv zeta. destruct (p1_cur st) as [cu|]; [apply G|].
      destruct (assoc (upper (l_name l)) L1) as [d|]; [destruct (sd_external d)|]; try apply G. apply SS. reflexivity.
    - destruct (p1_cur st) as [cu|]; cbn [post]; [|apply SS; reflexivity]. split; [exact J1' | discriminate].
    - assert (IL : In l (flat_map labels_in p)).
      { apply LI. unfold labels_in. rewrite EN. apply in_or_app. right. apply in_or_app. left. left. reflexivity. }
      apply (post_seq (add_label_spans _ L1 l 0 true J1' IL)).
      + intros k _ [l0 [H1 ->]]. apply spans_labels; [discriminate|]. intros x [<-|[<-|[]]]; assumption.
      + intros L2 J2'. exact (conj J2' JC). }
  intros [[c2 L2] r2] [JL2 JC2].
  unfold p1_tail. destruct c2 as [cu|]; [|split; [exact JL2 | discriminate]].
  apply (post_bind _ _ (fun _ => True)); [apply p1_line_post; auto|]. intros ls' _.
  unfold p1_move. destruct (stmt_len (s_nucleus s)) as [n|]; [|exact Logic.I].
  destruct (shift cu n) as [cu'|k] eqn:ES; cbn [abind post].
  - split; [exact JL2|]. intros ? [= <-]. rewrite (shift_orig _ _ _ ES). exact (JC2 cu eq_refl).
  - apply SS. exact (shift_err _ _ _ ES).
Qed.

Lemma pass1_spans src p k sp : pass1 p src = AErr k sp -> spans_ok p k sp.
Proof.
  unfold pass1. cbv zeta. intros E.
  assert (S : post (p1_loop src (mkP1 None [] [] match src with Some text => Some (repeat None (Z.to_nat (count_lines text))) | None => None end) p)
                (J1 p) (spans_ok p) True).
  { rewrite p1_loop_afold. apply (afold_inv _ (fun _ => J1 p)); [|split; [intros ? ? [] | discriminate]].
    intros pre s r st EP J. apply p1_step_spans; [rewrite EP; apply in_elt | exact J]. }
  destruct (p1_loop src _ p) as [st|k0 sp0|]; cbn [abind post] in *; [|injection E as <- <-; exact S|discriminate].
  destruct (p1_cur st) as [cu|] eqn:ECU.
  - injection E as <- <-. apply spans_stmts; [reflexivity | discriminate|]. intros x [<-|[]]. exact (proj2 S cu ECU).
  - destruct (p1_lines st) as [ls|]; destruct src; try discriminate E. destruct (lsm_new ls); discriminate E.
Qed.

Definition J2 (p : list stmt) (st : p2) : Prop :=
  (forall lc blk, p2_cur st = Some (lc, blk) -> In (ob_span blk) (stmt_spans p))
  /\ (forall k b, In (k, b) (p2_map st) -> In (ob_span b) (stmt_spans p)).

Lemma rpo_spans n o pc L k sp : replace_pc_offset n o pc L = AErr k sp -> exists l, o = PLab l /\ sp = [label_span l].
Proof.
  unfold replace_pc_offset. destruct o as [v|l]; [discriminate|]. intros E. exists l. split; [reflexivity|].
  destruct (assoc (upper (l_name l)) L) as [d|]; [destruct (sd_external d)|]; try (injection E as _ <-; reflexivity).
  destruct (new_s n (to_i16 (sd_addr d - pc))); try discriminate E. injection E as _ <-. reflexivity.
Qed.

Lemma emit_spans L s lc words k sp : emit L s lc words = AErr k sp -> exists l, In l (labels_in s) /\ sp = [label_span l].
Proof.
  rewrite emit_operand. unfold labels_in, resolve. destruct (operand_of s) as [[n l]|]; [|discriminate]. intros E. exists l.
  split; [apply in_or_app; right; apply in_or_app; right; left; reflexivity|].
  destruct (n =? 0).
  - destruct (lookup_label_map L (l_name l)); [discriminate E|]. injection E as _ <-. reflexivity.
  - destruct (replace_pc_offset n (PLab l) _ L) as [v|k0 sp0|] eqn:R; try discriminate E. injection E as _ <-.
    destruct (rpo_spans _ _ _ _ _ _ R) as [l' [[= <-] ->]]. reflexivity.
Qed.

Lemma p2_step_spans L p s st :
  In s p -> J2 p st -> post (p2_step L st s) (J2 p) (spans_ok p) True.
Proof.
  intros Hs [JC JM].
  assert (HERE : In (stmt_span s) (stmt_spans p)) by (apply in_map; exact Hs).
  pose proof (spans_here p s Hs) as SS.
  destruct (needs_addr s) eqn:NA.
  - rewrite (p2_step_emit L st s NA). destruct (p2_cur st) as [[lc blk]|] eqn:EC; [|apply SS; reflexivity].
    destruct (stmt_len (s_nucleus s)) as [n|]; [|exact Logic.I].
    destruct (emit L s lc (ob_words blk)) as [w|k sp|] eqn:EE; cbn [abind post]; [| |exact Logic.I].
    + split; [|exact JM]. intros lc0 blk0 [= <- <-]. exact (JC lc blk eq_refl).
    + destruct (emit_spans _ _ _ _ _ _ EE) as [l [Hl ->]]. apply (spans_labels p k [l]); [discriminate|].
      intros x [<-|[]]. apply in_flat_map. exists s. split; assumption.
  - unfold needs_addr in NA. unfold p2_step. destruct (s_nucleus s) as [i|[a|o|n|t| |l]]; try discriminate NA.
    + destruct (p2_cur st); [exact Logic.I|]. split; [|exact JM]. intros lc0 blk0 [= <- <-]. exact HERE.
    + (* an overlapping block is one of the map *)
      destruct (p2_cur st) as [[lc blk]|] eqn:EC; [|apply SS; reflexivity]. pose proof (JC lc blk eq_refl) as JB.
      destruct (ob_words blk); [split; [discriminate | exact JM]|]. fold (neighbours blk (p2_map st)).
      pose proof (find_overlap_post blk (neighbours blk (p2_map st))) as FO.
      destruct (find_overlap blk _) as [[other|]|k sp|]; cbn [abind post] in *; [| |contradiction|exact Logic.I].
      * destruct (FO other eq_refl) as [k Hk]. apply neighbours_in in Hk.
        apply spans_stmts; [reflexivity | destruct (_ <=? _); discriminate|].
        intros x Hx. destruct (_ <=? _); destruct Hx as [<-|[<-|[]]]; first [exact JB | exact (JM _ _ Hk)].
      * split; [discriminate|]. intros k b H. apply bt_insert_in in H. destruct H as [E|H]; [injection E as -> ->; exact JB | exact (JM k b H)].
    + exact (conj JC JM).
Qed.

Theorem assemble_spans debug src p k sp : assemble debug src p = AErr k sp -> spans_ok p k sp.
Proof.
  unfold assemble. destruct (pass1 p src) as [sym|k0 sp0|] eqn:P1; cbn [abind]; [|intros [= <- <-]; exact (pass1_spans src p k0 sp0 P1)|discriminate].
  unfold pass2.
  assert (S : post (p2_loop (st_labels sym) (mkP2 [] None) p) (J2 p) (spans_ok p) True).
  { rewrite p2_loop_afold. apply (afold_inv _ (fun _ => J2 p)); [|split; [discriminate | intros ? ? []]].
    intros pre s r st EP J. apply p2_step_spans; [rewrite EP; apply in_elt | exact J]. }
  destruct (p2_loop (st_labels sym) (mkP2 [] None) p) as [st|k0 sp0|]; cbn [abind]; [discriminate|intros [= <- <-]; exact S|discriminate].
Qed.
