(* SimNoPanic.v — C16 on the model: no failure of interrupt entry or of fetch-and-execute is a panic; runs.
   The Rust panic sites of the modelled code are listed and discharged in tools/panic_sites/sim.expected; the
   only one a state could reach is `Reg::try_from(..).unwrap()` in decode, explicit as [DPanic]. *)
From Coq Require Import ZArith List.
From Model Require Import Sim.
From Proofs Require Import SimHoare SimAccess SimObsEntry IrqProofs SimMachine.
Import ListNotations.
Open Scope Z_scope.

Definition Tr (_ : sim) : Prop := True.
Definition np_ok (b : brk) : Prop := b <> BPanic.
#[export] Hint Extern 0 (np_ok _) => discriminate : hoare.
Lemma np_read e a c : hoareI Tr (read_mem e a c) anyv np_ok.
Proof. apply hi_read; try (intros; exact Logic.I). discriminate. Qed.
Lemma np_write e a d c : hoareI Tr (write_mem e a d c) anyv np_ok.
Proof. apply hi_write; try (intros; exact Logic.I); [|split]; discriminate. Qed.
Lemma np_of_opt {A} (o : option A) e : hoareI Tr (of_opt o e) anyv np_ok.
Proof. apply hi_of_opt; intros; [exact Logic.I|discriminate]. Qed.
#[export] Hint Resolve np_read np_write np_of_opt : hoare.
#[export] Hint Extern 0 (hoareI Tr (modify _) _ _) => apply hi_modify; intros; exact Logic.I : hoare.

Lemma np_handle_interrupt e v p : hoareI Tr (handle_interrupt e v p) anyv np_ok.
Proof.
  apply hi_handle_interrupt; [|intros; exact Logic.I|].
  - intros b. apply real_int_vect_cases; discriminate.
  - intros ft f s0 _. unfold entry_body. cbv delta [call_interrupt push_frame swap_sp set_pc]. repeat hstep.
Qed.
#[export] Hint Resolve np_handle_interrupt : hoare.

Lemma np_exec e i : hoareI Tr (exec e i) anyv np_ok.
Proof.
  unfold exec. cbv delta [call_subroutine push_frame pop_frame set_reg_if_init set_cc swap_sp offset_pc set_pc]. repeat hstep.
Qed.
#[export] Hint Resolve np_exec : hoare.
Lemma np_fetch_exec e : hoareI Tr (fetch_exec e) anyv np_ok.
Proof. unfold fetch_exec. cbv delta [offset_pc set_pc]. repeat hstep. Qed.

Fixpoint run_n (es : list env) (s : sim) : sim * list outcome :=
  match es with
  | [] => (s, [])
  | e :: r => let '(s1, o) := step_in e s in let '(s2, os) := run_n r s1 in (s2, o :: os)
  end.

Lemma run_n_inv (I : sim -> Prop) (O : outcome -> Prop) :
  (forall e s, I s -> I (fst (step_in e s)) /\ O (snd (step_in e s))) ->
  forall es s, I s -> I (fst (run_n es s)) /\ Forall O (snd (run_n es s)).
Proof.
  intros H. induction es as [|e r IH]; intros s Hs; cbn [run_n]; [split; [exact Hs|constructor]|].
  destruct (H e s Hs) as [H1 Ho]. destruct (step_in e s) as [s1 o]. cbn [fst snd] in *.
  destruct (IH s1 H1) as [H2 Hos]. destruct (run_n r s1) as [s2 os]. split; [exact H2|constructor; assumption].
Qed.
Lemma run_n_app es1 es2 s :
  run_n (es1 ++ es2) s = let '(s1, o1) := run_n es1 s in let '(s2, o2) := run_n es2 s1 in (s2, o1 ++ o2).
Proof.
  revert s. induction es1 as [|e r IH]; intros s; cbn [app run_n]; [destruct (run_n es2 s); reflexivity|].
  destruct (step_in e s) as [s1 o]. rewrite IH. destruct (run_n r s1) as [s2 os]. destruct (run_n es2 s2). reflexivity.
Qed.
Lemma run_n_length es : forall s, length (snd (run_n es s)) = length es.
Proof.
  induction es as [|e r IH]; intros s; cbn [run_n]; [reflexivity|].
  destruct (step_in e s) as [s1 o]. specialize (IH s1). destruct (run_n r s1). cbn [snd length] in *. rewrite IH. reflexivity.
Qed.
