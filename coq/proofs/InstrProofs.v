(* InstrProofs.v — C06.  A 16-bit word is the sum of its bit fields ([join_sum], [join_word], [slice_fields]).
   The decoder's register tests are on 3-bit slices and always pass; without them it is a table with one
   row per opcode ([decode_nf]), on which stand [decode_iff] and [classify_dec] (the ISA table's
   must-be-zero masks are unions of fields). *)
From Coq Require Import ZArith List Bool Lia.
From Model Require Import Bits Instr.
From Spec Require Import IsaEncoding.
From Proofs Require Import OffsetProofs.
Import ListNotations.
Open Scope Z_scope.

Definition is_canonical (w : Z) : bool := match classify w with Canonical => true | _ => false end.

Lemma slice_spec w lo hi : 0 <= lo <= hi -> slice w lo hi = (w / 2 ^ lo) mod 2 ^ (hi - lo).
Proof.
  intros H. unfold slice. rewrite Z.shiftr_div_pow2 by lia. apply Z.land_ones. lia.
Qed.

Lemma slice_fact w lo hi : 0 <= lo <= hi ->
  0 <= slice w lo hi < 2 ^ (hi - lo) /\ w mod 2 ^ hi = w mod 2 ^ lo + slice w lo hi * 2 ^ lo.
Proof.
  intros H. rewrite slice_spec by lia. split; [apply Z.mod_pos_bound; lia|].
  replace hi with (lo + (hi - lo)) at 1 by lia. rewrite Z.pow_add_r, Z.rem_mul_r by lia. lia.
Qed.

Lemma slice_mod w lo hi : 0 <= lo <= hi -> slice w lo hi mod 2 ^ (hi - lo) = slice w lo hi.
Proof. intros H. apply Z.mod_small, slice_fact, H. Qed.

(* bounds given by equations ([hi = k + 1], ...): these lemmas rewrite against the formats' numerals (12 for 9 + 3) *)
Lemma testbit_slice w k hi : 0 <= k -> hi = k + 1 -> Z.testbit w k = negb (slice w k hi =? 0).
Proof.
  intros Hk ->. rewrite slice_spec by lia. replace (k + 1 - k) with 1 by lia.
  change (2 ^ 1) with 2. rewrite <- Z.testbit_spec' by lia. destruct (Z.testbit w k); reflexivity.
Qed.

Lemma mod_mod_pow a n m : 0 <= n <= m -> (a mod 2 ^ m) mod 2 ^ n = a mod 2 ^ n.
Proof.
  intros H. replace m with (n + (m - n)) by lia. rewrite Z.pow_add_r by lia.
  rewrite Z.rem_mul_r by lia. rewrite (Z.mul_comm (2 ^ n)), Z.mod_add by lia. apply Z.mod_mod. lia.
Qed.

Lemma field_spec v lo hi : 0 <= lo <= hi -> hi - lo <= 16 -> field v lo hi = v mod 2 ^ (hi - lo) * 2 ^ lo.
Proof.
  intros H H'. unfold field, to_u16, wrap16. rewrite Z.shiftl_mul_pow2 by lia. f_equal.
  change (Z.shiftl 1 (hi - lo) - 1) with (Z.ones (hi - lo)). rewrite Z.land_ones by lia.
  apply (mod_mod_pow v (hi - lo) 16). lia.
Qed.

Lemma lor_disjoint b a k : 0 <= k -> 0 <= a < 2 ^ k -> Z.lor (b * 2 ^ k) a = b * 2 ^ k + a.
Proof.
  intros Hk Ha. rewrite <- Z.lxor_lor, <- Z.add_nocarry_lxor; try reflexivity.
  all: rewrite <- (Z.mod_small a (2 ^ k)) by lia; rewrite <- Z.land_ones by lia.
  all: rewrite Z.land_assoc, (Z.land_comm _ a), <- Z.land_assoc, Z.land_ones, Z.mod_mul by lia; apply Z.land_0_r.
Qed.

Fixpoint fields_sum (l : list (Z * Z * Z)) : Z :=
  match l with [] => 0 | (v, lo, hi) :: r => v mod 2 ^ (hi - lo) * 2 ^ lo + fields_sum r end.

(* the fields tile the bits below [top] from the top down, without gaps *)
Fixpoint packed (top : Z) (l : list (Z * Z * Z)) : bool :=
  match l with
  | [] => top =? 0
  | (_, lo, hi) :: r => (hi =? top) && (0 <=? lo) && (lo <=? hi) && packed lo r
  end.

Lemma join_packed l : forall top, top <= 16 -> packed top l = true ->
  join_bits l = fields_sum l /\ 0 <= fields_sum l < 2 ^ top.
Proof.
  induction l as [|[[v lo] hi] r IH]; intros top Ht H; cbn [packed join_bits fields_sum] in *.
  - apply Z.eqb_eq in H. subst top. split; [reflexivity | cbn; lia].
  - apply andb_prop in H. destruct H as [H Hr].
    assert (hi = top /\ 0 <= lo <= hi) as [-> Hlo] by lia.
    destruct (IH lo) as [E B]; [lia | exact Hr |].
    rewrite E, field_spec, lor_disjoint by lia. split; [reflexivity|].
    pose proof (Z.mod_pos_bound v (2 ^ (top - lo))) as Hv.
    replace (2 ^ top) with (2 ^ (top - lo) * 2 ^ lo) by (rewrite <- Z.pow_add_r by lia; f_equal; lia).
    nia.
Qed.

Lemma join_sum l : packed 16 l = true -> join_bits l = fields_sum l.
Proof. intros H. apply (join_packed l 16); [lia | exact H]. Qed.

Lemma join_range l : packed 16 l = true -> 0 <= join_bits l < 65536.
Proof. intros H. destruct (join_packed l 16 ltac:(lia) H) as [-> B]. exact B. Qed.

Fixpoint fields_of (w : Z) (l : list (Z * Z * Z)) : Prop :=
  match l with [] => True | (v, lo, hi) :: r => v mod 2 ^ (hi - lo) = slice w lo hi /\ fields_of w r end.

Lemma fields_sum_word w l : forall top, packed top l = true -> fields_of w l -> fields_sum l = w mod 2 ^ top.
Proof.
  induction l as [|[[v lo] hi] r IH]; intros top H F; cbn [packed fields_sum fields_of] in *.
  - apply Z.eqb_eq in H. subst top. symmetry. apply Z.mod_1_r.
  - apply andb_prop in H. destruct H as [H Hr]. assert (hi = top /\ 0 <= lo <= hi) as [-> Hlo] by lia.
    destruct F as [-> F]. rewrite (IH lo Hr F). destruct (slice_fact w lo top Hlo) as [_ ->]. lia.
Qed.

Lemma join_word w l : 0 <= w < 65536 -> packed 16 l = true -> fields_of w l -> join_bits l = w.
Proof.
  intros Hw P F. rewrite (join_sum l P), (fields_sum_word w l 16 P F). apply Z.mod_small. exact Hw.
Qed.

Lemma slice_above A B k a b : 0 <= B < 2 ^ k -> 0 <= k <= a -> a <= b ->
  slice (A * 2 ^ k + B) a b = slice A (a - k) (b - k).
Proof.
  intros HB Hk Hab. rewrite !slice_spec by lia. replace (b - k - (a - k)) with (b - a) by lia. f_equal.
  replace a with (k + (a - k)) at 1 by lia. rewrite Z.pow_add_r, <- Z.div_div, Z.div_add_l, (Z.div_small B) by lia.
  f_equal. lia.
Qed.

Lemma slice_below A B k a b : 0 <= a <= b -> b <= k -> slice (A * 2 ^ k + B) a b = slice B a b.
Proof.
  intros Hab Hk. rewrite !slice_spec by lia.
  replace (A * 2 ^ k) with (A * 2 ^ (k - b) * 2 ^ (b - a) * 2 ^ a)
    by (rewrite <- !Z.mul_assoc, <- !Z.pow_add_r by lia; do 2 f_equal; lia).
  rewrite Z.div_add_l, Z.add_comm, Z.mod_add by lia. reflexivity.
Qed.

(* bits a .. b-1 of the joined word, when they lie inside one field *)
Fixpoint sub_field (l : list (Z * Z * Z)) (a b : Z) : option Z :=
  match l with
  | [] => None
  | (v, lo, hi) :: r =>
      if lo <=? a then if b <=? hi then Some ((v mod 2 ^ (hi - lo) / 2 ^ (a - lo)) mod 2 ^ (b - a)) else None
      else sub_field r a b
  end.

Lemma slice_sub_field l : forall top, top <= 16 -> packed top l = true ->
  forall a b x, 0 <= a <= b -> sub_field l a b = Some x -> b <= top /\ slice (fields_sum l) a b = x.
Proof.
  induction l as [|[[v lo] hi] r IH]; intros top Ht H a b x Hab Hx; cbn [sub_field fields_sum packed] in *; [discriminate|].
  apply andb_prop in H. destruct H as [H Hr]. assert (hi = top /\ 0 <= lo <= hi) as [-> Hlo] by lia.
  destruct (join_packed r lo) as [_ B]; [lia | exact Hr |].
  destruct (Z.leb_spec lo a).
  - destruct (Z.leb_spec b top); [|discriminate]. injection Hx as <-. split; [assumption|].
    rewrite slice_above, slice_spec by lia. do 2 f_equal. lia.
  - destruct (IH lo ltac:(lia) Hr a b x Hab Hx) as [Hb <-]. split; [lia|]. apply slice_below; lia.
Qed.

Lemma slice_fields l a b x : packed 16 l = true -> 0 <= a <= b -> sub_field l a b = Some x ->
  slice (fields_sum l) a b = x.
Proof. intros H Hab Hx. apply (slice_sub_field l 16); [lia | exact H | exact Hab | exact Hx]. Qed.

Lemma slice_opcode v r : packed 12 r = true -> slice (fields_sum ((v, 12, 16) :: r)) 12 16 = v mod 16.
Proof.
  intros H. erewrite slice_fields; [| cbn [packed]; rewrite H; reflexivity | lia | reflexivity].
  change (2 ^ (12 - 12)) with 1. rewrite Z.div_1_r. apply Z.mod_mod. lia.
Qed.

Lemma reg_ok_slice w lo hi : 0 <= lo -> hi = lo + 3 -> reg_ok (slice w lo hi) = true.
Proof.
  intros H ->. rewrite slice_spec by lia. replace (lo + 3 - lo) with 3 by lia.
  pose proof (Z.mod_pos_bound (w / 2 ^ lo) (2 ^ 3)). unfold reg_ok. lia.
Qed.

Lemma rng_slice w lo hi m : 0 <= lo <= hi -> m = 2 ^ (hi - lo) -> rng 0 m (slice w lo hi) = true.
Proof. intros H ->. pose proof (proj1 (slice_fact w lo hi H)). unfold rng. lia. Qed.

(* one range predicate: [rng] in [valid], [fits_s] / [fits_u] in OffsetProofs, [reg_ok] in the decoder *)
Lemma fits_s_rng n v : fits_s n v = rng (- 2 ^ (n - 1)) (2 ^ (n - 1)) v.
Proof. reflexivity. Qed.
Lemma fits_u_rng n v : fits_u n v = rng 0 (2 ^ n) v.
Proof. reflexivity. Qed.
Lemma reg_ok_rng r : reg_ok r = rng 0 8 r.
Proof. reflexivity. Qed.

Lemma rng_sext n v a b : 1 <= n <= 16 -> a = - 2 ^ (n - 1) -> b = 2 ^ (n - 1) -> rng a b (sext n v) = true.
Proof. intros Hn -> ->. rewrite <- fits_s_rng. exact (sext_fits n v Hn). Qed.

Lemma rng_zext n v m : 1 <= n <= 16 -> m = 2 ^ n -> rng 0 m (zext n v) = true.
Proof. intros Hn ->. rewrite <- fits_u_rng. exact (zext_fits n v Hn). Qed.

Lemma sext_mod n m v : 1 <= n <= 16 -> m = 2 ^ n -> fits_s n v = true -> sext n (v mod m) = v.
Proof.
  intros Hn -> F. rewrite <- (sext_fix n v Hn) in F. apply Z.eqb_eq in F. rewrite F at 2.
  unfold sext. rewrite Z.mod_mod by (apply Z.pow_nonzero; lia). reflexivity.
Qed.

(* closed [2 ^ e] and opcodes evaluated, so that [lia] sees numerals *)
Ltac eval_consts := repeat match goal with
  | |- context [2 ^ ?e] => let v := eval cbv in (2 ^ e) in change (2 ^ e) with v
  | |- context [opcode ?i] => let v := eval cbv in (opcode i) in change (opcode i) with v
  end.

(* every slice of w in the goal gets a name and its [slice_fact] *)
Ltac name_slices w := repeat match goal with |- context [slice w ?lo ?hi] =>
  generalize (slice_fact w lo hi ltac:(lia)); generalize (slice w lo hi); eval_consts; intros ? ? end.

(* the decoder without its register tests; [must] keeps the decoder's polarity, so that [decode_nf] is by conversion *)
Definition must (b : bool) (r : dec_res) : dec_res := if negb b then DInvalidFormat else r.

Definition dec_row (op w : Z) : dec_res :=
  let f := slice w in
  let pc9 k := DOk (k (f 9 12) (sext 9 (f 0 9))) in
  let bo6 k := DOk (k (f 9 12) (f 6 9) (sext 6 (f 0 6))) in
  let ari k :=
    if negb (f 5 6 =? 0) then DOk (k (f 9 12) (f 6 9) (Imm (sext 5 (f 0 5))))
    else must (f 3 5 =? 0) (DOk (k (f 9 12) (f 6 9) (RegOp (f 0 3)))) in
  match op with
  | 0 => pc9 SBR
  | 1 => ari SADD
  | 2 => pc9 SLD
  | 3 => pc9 SST
  | 4 => if negb (f 11 12 =? 0) then DOk (SJSR (Imm (sext 11 (f 0 11))))
         else must (f 9 11 =? 0) (must (f 0 6 =? 0) (DOk (SJSR (RegOp (f 6 9)))))
  | 5 => ari SAND
  | 6 => bo6 SLDR
  | 7 => bo6 SSTR
  | 8 => must (f 0 12 =? 0) (DOk SRTI)
  | 9 => must (f 0 6 =? 63) (DOk (SNOT (f 9 12) (f 6 9)))
  | 10 => pc9 SLDI
  | 11 => pc9 SSTI
  | 12 => must (f 9 12 =? 0) (must (f 0 6 =? 0) (DOk (SJMP (f 6 9))))
  | 14 => pc9 SLEA
  | 15 => must (f 8 12 =? 0) (DOk (STRAP (zext 8 (f 0 8))))
  | _ => DIllegalOpcode
  end.
Definition dec_nf (w : Z) : dec_res := dec_row (slice w 12 16) w.

Lemma opcode_ind w (P : Z -> Prop) :
  P 0 -> P 1 -> P 2 -> P 3 -> P 4 -> P 5 -> P 6 -> P 7 -> P 8 -> P 9 -> P 10 -> P 11 -> P 12 ->
  P 13 -> P 14 -> P 15 -> P (slice w 12 16).
Proof.
  intros. pose proof (proj1 (slice_fact w 12 16 ltac:(lia))) as R. remember (slice w 12 16) as op.
  assert (C : op = 0 \/ op = 1 \/ op = 2 \/ op = 3 \/ op = 4 \/ op = 5 \/ op = 6 \/ op = 7 \/ op = 8 \/
              op = 9 \/ op = 10 \/ op = 11 \/ op = 12 \/ op = 13 \/ op = 14 \/ op = 15) by lia.
  clear R Heqop. repeat (destruct C as [-> | C]); [.. | subst op]; assumption.
Qed.

Lemma decode_nf w : decode w = dec_nf w.
Proof.
  unfold decode, dec_nf, dec_row, JMP_MBZ_HI, soff.
  rewrite (reg_ok_slice w 9 12), (reg_ok_slice w 6 9), (reg_ok_slice w 0 3) by lia.
  pattern (slice w 12 16). apply opcode_ind; reflexivity.
Qed.

Lemma decode_total w : decode w <> DPanic.
Proof.
  rewrite decode_nf. unfold dec_nf, dec_row. pattern (slice w 12 16). apply opcode_ind; cbv beta iota zeta delta [must].
  all: repeat match goal with |- context [if ?c then _ else _] => destruct c end; discriminate.
Qed.

(* a field of the re-encoded instruction: a constant that a test found in w | a slice of w, maybe extended |
   else (a one-bit field <> 0, a zero field tested in two parts) arithmetic over [slice_fact]s *)
Ltac field_goal w :=
  first [ symmetry; assumption
        | unfold zext; rewrite ?sext_low_bits, ?Z.mod_mod by lia; apply slice_mod; lia
        | repeat match goal with H : context [slice _ _ _] |- _ => revert H end; name_slices w; intros; rewrite ?Z.mod_small by lia; lia ].

Lemma dec_nf_sound w i : dec_nf w = DOk i -> valid i = true /\ (0 <= w < 65536 -> encode i = w).
Proof.
  unfold dec_nf, dec_row. cbv beta zeta.
  generalize (eq_refl (slice w 12 16)). pattern (slice w 12 16) at 2 3. apply opcode_ind; intros Eop; cbv beta iota.
  all: repeat (match goal with |- context [?x =? ?y] => destruct (Z.eqb_spec x y) end; cbv beta iota delta [must negb]).
  all: intros E; try discriminate E; injection E as <-.
  all: split; [unfold valid, valid_ior; rewrite ?rng_slice, ?rng_sext, ?rng_zext by first [lia | reflexivity]; reflexivity |].
  all: intros Hw; unfold encode; apply join_word; [exact Hw | reflexivity | cbn [fields_of]; repeat apply conj; try exact I; field_goal w].
Qed.

Lemma decode_valid w i : decode w = DOk i -> valid i = true.
Proof. rewrite decode_nf. intros E. apply (dec_nf_sound w i E). Qed.

Definition res_class (r : dec_res) : word_class :=
  match r with DOk _ => Canonical | DIllegalOpcode => Reserved | _ => BadBits end.

Lemma lor_eqb_0 a b : (Z.lor a b =? 0) = (a =? 0) && (b =? 0).
Proof. apply eq_true_iff_eq. rewrite andb_true_iff, !Z.eqb_eq. apply Z.lor_eq_0_iff. Qed.

(* the masked word is the slice, shifted *)
Lemma land_mask_0 w lo hi : 0 <= lo <= hi ->
  (Z.land w (Z.shiftl (Z.ones (hi - lo)) lo) =? 0) = (slice w lo hi =? 0).
Proof.
  intros H. assert (E : Z.land w (Z.shiftl (Z.ones (hi - lo)) lo) = slice w lo hi * 2 ^ lo).
  { rewrite <- Z.shiftl_mul_pow2 by lia. unfold slice. change (Z.shiftl 1 (hi - lo) - 1) with (Z.ones (hi - lo)).
    apply Z.bits_inj'. intros i Hi. rewrite Z.land_spec, !Z.shiftl_spec, Z.land_spec by assumption.
    destruct (Z.ltb_spec i lo).
    - rewrite !(Z.testbit_neg_r _ (i - lo)) by lia. apply andb_false_r.
    - rewrite Z.shiftr_spec by lia. replace (i - lo + lo) with i by lia. reflexivity. }
  rewrite E. assert (0 < 2 ^ lo) by (apply Z.pow_pos_nonneg; lia).
  destruct (Z.eqb_spec (slice w lo hi) 0) as [->|N]; [reflexivity | apply Z.eqb_neq; nia].
Qed.

Lemma classify_dec w : 0 <= w < 65536 -> classify w = res_class (decode w).
Proof.
  intros Hw. unfold classify, isa_opcode. cbv beta zeta.
  replace (w / 4096) with (slice w 12 16)
    by (rewrite slice_spec by lia; apply Z.mod_small; change (2 ^ 12) with 4096; change (2 ^ (16 - 12)) with 16;
        split; [apply Z.div_pos | apply Z.div_lt_upper_bound]; lia).
  rewrite (testbit_slice w 5 6), (testbit_slice w 11 12) by lia.
  change 24 with (Z.shiftl (Z.ones (5 - 3)) 3).
  change 1599 with (Z.lor (Z.shiftl (Z.ones (11 - 9)) 9) (Z.shiftl (Z.ones (6 - 0)) 0)).
  change 3647 with (Z.lor (Z.shiftl (Z.ones (12 - 9)) 9) (Z.shiftl (Z.ones (6 - 0)) 0)).
  change 4095 with (Z.shiftl (Z.ones (12 - 0)) 0).
  change 3840 with (Z.shiftl (Z.ones (12 - 8)) 8).
  change (Z.land w 63) with (slice w 0 6).
  rewrite !Z.land_lor_distr_r, !lor_eqb_0, !land_mask_0 by lia.
  rewrite decode_nf. unfold dec_nf, dec_row. cbv beta zeta. pattern (slice w 12 16). apply opcode_ind.
  all: with_strategy opaque [slice sext zext] cbn.
  all: repeat match goal with |- context [?x =? ?y] => destruct (x =? y) end; reflexivity.
Qed.

Lemma dec_nf_complete i : valid i = true -> dec_nf (encode i) = DOk i.
Proof.
  intros V.
  destruct i as [cc off|dr sr1 [v|r]|dr off|sr off|[v|r]|dr sr1 [v|r]|dr br off|sr br off| |dr sr|dr off|sr off|br|dr off|v];
    unfold encode; rewrite join_sum by reflexivity; unfold dec_nf; rewrite slice_opcode by reflexivity.
  (* every slice of the selected row lies inside one field of the encoder *)
  all: repeat (with_strategy opaque [slice sext zext fields_sum] cbn;
               repeat erewrite slice_fields by first [reflexivity | lia]; eval_consts).
  all: rewrite ?Z.div_1_r, ?Z.mod_mod by lia.
  all: unfold valid, valid_ior, rng in V.
  all: rewrite ?(sext_mod 5), ?(sext_mod 6), ?(sext_mod 9), ?(sext_mod 11) by first [reflexivity | lia | unfold fits_s; cbn; lia].
  all: unfold zext; eval_consts; rewrite ?Z.mod_mod by lia; rewrite ?Z.mod_small by lia.
  all: reflexivity.
Qed.

Lemma encode_range i : 0 <= encode i < 65536.
Proof. destruct i as [| ? ? []| | |[]| ? ? []| | | | | | | | |]; unfold encode; apply join_range; reflexivity. Qed.

Theorem decode_iff w i : 0 <= w < 65536 -> (decode w = DOk i <-> encode i = w /\ valid i = true).
Proof.
  intros Hw. rewrite decode_nf. split.
  - intros E. destruct (dec_nf_sound w i E) as [V En]. split; [exact (En Hw)|exact V].
  - intros [<- V]. apply dec_nf_complete; exact V.
Qed.

Lemma ior_eqb_eq a b : ior_eqb a b = true -> a = b.
Proof. destruct a, b; cbn; intros H; try discriminate; apply Z.eqb_eq in H; subst; reflexivity. Qed.

Lemma instr_eqb_eq a b : instr_eqb a b = true -> a = b.
Proof.
  destruct a, b; cbn; intros H; try discriminate; try reflexivity;
  repeat match goal with
  | H : _ && _ = true |- _ => apply andb_prop in H; destruct H
  | H : (_ =? _) = true |- _ => apply Z.eqb_eq in H; subst
  | H : ior_eqb _ _ = true |- _ => apply ior_eqb_eq in H; subst
  end; reflexivity.
Qed.
