(* SimStepObs.v — whole steps: a completed [step_inner] from the emptied observer that takes no interrupt is the fetch
   (one tracked read of the PC) followed by the instruction the fetched word decodes to ([step_exec]); what the fetch
   leaves of the state before the step is [kept_by_fetch]. *)
From Coq Require Import ZArith List Bool Lia FMapPositive.
From Gen Require Import Constants.
From Model Require Import Tree Bits Word Instr Sim.
From Proofs Require Import SimHoare SimAccess SimObs IrqProofs.
Import ListNotations.
Open Scope Z_scope.

Definition after_fetch (s1 : sim) : sim := upd_prefetch (upd_pc s1 (wrap16 (s_pc s1 + 1))) false.

Lemma fetch_exec_decompose e s0 s' u :
  fetch_exec e s0 = (s', inl u) ->
  exists s1 w i s3,
    read_mem e (s_pc s0) (default_ctx s0) s0 = (s1, inl w) /\
    decode (w_data w) = DOk i /\
    exec e i (after_fetch s1) = (s3, inl tt) /\
    s' = upd_instrs s3 ((s_instrs s3 + 1) mod 18446744073709551616).
Proof.
  rewrite fetch_exec_eq. destruct (read_mem e (s_pc s0) (default_ctx s0) s0) as [s1 [w|b]]; [|discriminate].
  destruct (fetched_instr (strict s0) w) as [i|b] eqn:D; [apply fetched_instr_inl in D|discriminate].
  destruct (exec e i _) as [s3 [[]|b]] eqn:X; [|discriminate].
  intros E. inversion E. exists s1, w, i, s3. auto.
Qed.

Definition fetched (e : env) (s : sim) : sim * (word + brk) :=
  read_mem e (s_pc s) (default_ctx s) (after_poll e (upd_obs s [])).

Lemma step_fetch_exec e s s' u :
  (forall v p, ~ takes_irq e s v p) -> step_inner e (upd_obs s []) = (s', inl u) ->
  exists s1 w i s3,
    fetched e s = (s1, inl w) /\ decode (w_data w) = DOk i /\
    exec e i (after_fetch s1) = (s3, inl tt) /\
    s' = upd_instrs s3 ((s_instrs s3 + 1) mod 18446744073709551616).
Proof.
  intros NT STEP.
  assert (NT' : forall v p, ~ takes_irq e (upd_obs s []) v p) by exact NT.
  rewrite (gate_not_taken e (upd_obs s []) NT') in STEP.
  change (pending e (upd_obs s [])) with (pending e s) in STEP.
  apply (fetch_exec_decompose e (after_poll e (upd_obs s [])) s' u). destruct (pending e s) as [[v p|]|]; [exact STEP|discriminate|exact STEP].
Qed.

Lemma step_takes_irq e s s' u v p : takes_irq e s v p -> step_inner e (upd_obs s []) = (s', inl u) ->
  handle_interrupt e (256 + v) (Some p) (after_poll e (upd_obs s [])) = (s', inl u).
Proof. intros T STEP. rewrite <- STEP. symmetry. exact (gate_taken e (upd_obs s []) v p T). Qed.

(* [s1], [w]: state and word of the fetch; [i]: the decoded instruction *)
Definition Completed (e : env) (s s' : sim) (u : unit) (s1 : sim) (w : word) (i : sim_instr) : Prop :=
  (forall v p, ~ takes_irq e s v p) /\
  step_inner e (upd_obs s []) = (s', inl u) /\
  read_mem e (s_pc s) (default_ctx s) (after_poll e (upd_obs s [])) = (s1, inl w) /\
  decode (w_data w) = DOk i.

Record kept_by_fetch (s t : sim) : Prop := {
  fv_pc : s_pc t = wrap16 (s_pc s + 1);
  fv_regs : s_regs t = s_regs s;
  fv_psr : s_psr t = s_psr s;
  fv_saved_sp : s_saved_sp t = s_saved_sp s;
  fv_frame_no : s_frame_no t = s_frame_no s;
  fv_frames : s_frames t = s_frames s;
  fv_obs : s_obs t = [(s_pc s, OBS_READ)];
  fv_mem : (IO_START <=? s_pc s) = false -> s_mem t = s_mem s }.

Lemma step_exec e s s' u s1 w i : Completed e s s' u s1 w i ->
  kept_by_fetch s (after_fetch s1) /\
  exists s3, exec e i (after_fetch s1) = (s3, inl tt) /\
             s' = upd_instrs s3 ((s_instrs s3 + 1) mod 18446744073709551616).
Proof.
  intros (NT & STEP & FETCH & DEC). split.
  - destruct (read_mem_kept _ _ _ _ _ _ FETCH) as (K & Pk & Sk & Ssk & _).
    constructor; cbn [after_fetch upd_prefetch upd_pc s_pc s_regs s_psr s_saved_sp s_frame_no s_frames s_obs s_mem].
    + rewrite Pk. reflexivity.
    + exact (kp_regs _ _ K).
    + exact Sk.
    + exact Ssk.
    + exact (kp_frame_no _ _ K).
    + exact (kp_frames _ _ K).
    + exact (read_ok_obs _ _ _ _ _ _ FETCH eq_refl).
    + intros IO. exact (proj1 (read_mem_ok_plain _ _ _ _ _ _ FETCH IO)).
  - destruct (step_fetch_exec e s s' u NT STEP) as (t1 & w' & i' & s3 & R & D & X & S').
    unfold fetched in R. rewrite FETCH in R. inversion R; subst t1 w'. rewrite DEC in D. inversion D; subst i'.
    exists s3. auto.
Qed.

(* non-vacuity: `ST R0, #1` (x3001) at x3000 in user mode with R0 = 5 over a zero word *)
Definition ex_st_state : sim :=
  mkSim (mset (mkMem (PositiveMap.empty word) (new_init 0)) 12288 (new_init 12289))
        (new_init 5 :: repeat (new_init 0) 7) 12288 32770 (new_init 12288) 0 None [] [] 0 false [(7, 7)] true
        (mkFlags false false false false) [] [].
Definition ex_env : env := mkEnv false false [].
Ltac completed_by_computation :=
  unfold Completed; split; [intros v p [H _]; vm_compute in H; discriminate H|];
  split; [vm_compute; reflexivity|]; split; vm_compute; reflexivity.
Example ex_st_step :
  (forall v p, ~ takes_irq ex_env ex_st_state v p) /\
  (exists s', step_inner ex_env (upd_obs ex_st_state []) = (s', inl tt) /\
              step_in ex_env ex_st_state = (s', OOk) /\
              (exists s1 w, Completed ex_env ex_st_state s' tt s1 w (SST 0 1)) /\
              s_obs s' = [(12288, OBS_READ); (12290, Z.lor OBS_WRITTEN OBS_MODIFIED)] /\
              mget (s_mem s') 12290 = new_init 5).
Proof.
  set (s' := fst (step_inner ex_env (upd_obs ex_st_state []))).
  split; [intros v p [H _]; vm_compute in H; discriminate H|].
  exists s'. split; [vm_compute; reflexivity|]. split; [vm_compute; reflexivity|]. split.
  - exists (fst (fetched ex_env ex_st_state)), (new_init 12289). completed_by_computation.
  - split; vm_compute; reflexivity.
Qed.
