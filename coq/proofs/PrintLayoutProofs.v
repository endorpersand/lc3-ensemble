(* PrintLayoutProofs.v — C36, second half: what the printer writes is a layout.  A printed nucleus has
   the tokens [instr_ops] / [dir_ops] with the numeric token the printer spells, so a printed program
   is a written program, to which [parse_layout] applies. *)
From Coq Require Import ZArith List Bool Lia.
From Model Require Import Text Instr AsmAst Lexer Parser Print.
From Spec Require Import Numerals.
From Proofs Require Import ListFacts LexerProofs LexNumProofs OffsetProofs PiecesProofs ParserProofs PrintParseProofs LayoutProofs.
Import ListNotations.
Open Scope Z_scope.

(* `#v`, or `x..` for a trap vector and an origin; TComma: no numeric operand, never looked at *)
Definition instr_nt (i : asm_instr) : token :=
  match i with
  | ATRAP v => TUnsigned v
  | _ => match instr_num i with Some v => tok_of_off v | None => TComma end
  end.
Definition dir_nt (d : directive) : token :=
  match d with
  | DOrig a => TUnsigned a
  | DBlkw n => tok_of_off n
  | DFill (POff v) => tok_of_off v
  | _ => TComma
  end.

Lemma num_tok_off v : -32768 <= v <= 65535 -> num_tok (tok_of_off v) v.
Proof. intros H. unfold num_tok, tok_of_off. destruct (v <? 0) eqn:E; [right|left]; split; try reflexivity; lia. Qed.

Lemma instr_nt_num i v : instr_okb i = true -> instr_num i = Some v -> num_tok (instr_nt i) v.
Proof.
  intros Hok Hn. destruct i; try destruct o; try discriminate Hn; cbn [instr_num] in Hn; injection Hn as <-;
    cbn [instr_okb ior_okb pcoff_okb] in Hok; split_andb; cbn [instr_nt instr_num];
    try (apply num_tok_off; eapply fits_s_range; [|eassumption]; lia).
  left. split; [reflexivity|]. apply (fits_u_range 8); [lia|assumption].
Qed.

Lemma dir_nt_num d : directive_okb d = true -> dir_num_ok d (dir_nt d).
Proof.
  destruct d; try destruct o; cbn [directive_okb dir_num_ok dir_nt]; intros Hok; split_andb; try exact Logic.I.
  - left. split; [reflexivity|]. apply (fits_u_range 16); [lia|assumption].
  - pose proof (fits_u_range 16 v ltac:(lia) Hok). exists v. split; [apply num_tok_off; lia|].
    symmetry. apply Z.mod_small. lia.
  - apply num_tok_off. match goal with H : fits_u 16 n = true |- _ => pose proof (fits_u_range 16 n ltac:(lia) H) end. lia.
Qed.

Lemma br_cc_kw cc : 1 <= cc <= 7 -> br_cc (br_kw cc) = Some cc.
Proof.
  intros H. assert (Hc : cc = 1 \/ cc = 2 \/ cc = 3 \/ cc = 4 \/ cc = 5 \/ cc = 6 \/ cc = 7) by lia.
  destruct Hc as [->|[->|[->|[->|[->|[->| ->]]]]]]; reflexivity.
Qed.

Lemma instr_pieces_tokens i pos : instr_okb i = true ->
  exists k, instr_kw_ok i k = true /\
            map fst (toks_of pos (instr_pieces i)) = TIdent (IKw k) :: instr_ops i (instr_nt i) false.
Proof.
  intros Hok. destruct i; try destruct o; eexists; (split; [|reflexivity]); try reflexivity;
    cbn [instr_okb] in Hok; split_andb; cbn [instr_kw_ok]; rewrite br_cc_kw by lia; apply Z.eqb_refl.
Qed.

Lemma directive_pieces_tokens d pos :
  exists name, assoc_str (kw_upper name) dir_names = Some (dir_index d) /\
               map fst (toks_of pos (directive_pieces d)) = TDirective name :: dir_ops d (dir_nt d).
Proof. destruct d; try destruct o; eexists; (split; [|reflexivity]); reflexivity. Qed.

Lemma printed_nucleus_reads n pos : nucleus_okb n = true ->
  nucleus_reads (toks_of pos (nucleus_pieces n))
                (reloc_nucleus n (last_span (toks_of pos (nucleus_pieces n))))
                (last_span (toks_of pos (nucleus_pieces n))).
Proof.
  destruct n as [i|d]; cbn [nucleus_okb nucleus_pieces reloc_nucleus]; intros Hok.
  - destruct (instr_pieces_tokens i pos Hok) as [k [Hk Ht]].
    apply (tokens_read_instr i k (instr_nt i)); try assumption. intros v. apply instr_nt_num. exact Hok.
  - destruct (directive_pieces_tokens d pos) as [name [Hi Ht]].
    apply (tokens_read_directive d name (dir_nt d)); try assumption. apply dir_nt_num. exact Hok.
Qed.

Definition printed_wstmt (ls : list wlabel) (n : nucleus) (pos : Z) (post : list span) : wstmt :=
  let nuc := toks_of pos (nucleus_pieces n) in
  mkWStmt ls nuc (reloc_nucleus n (last_span nuc)) (match nuc with (_, sp) :: _ => fst sp | [] => 0 end)
          (last_span nuc) post.

Lemma printed_wstmt_ok ls n pos post : nucleus_okb n = true -> wstmt_ok (printed_wstmt ls n pos post).
Proof.
  intros Hok. split; [apply printed_nucleus_reads; exact Hok|]. cbn [printed_wstmt ws_nuc ws_start].
  pose proof (nucleus_starts n pos) as Hs.
  destruct (toks_of pos (nucleus_pieces n)) as [|[t sp] r]; [contradiction|reflexivity].
Qed.

Fixpoint printed_labels (pos : Z) (ls : list label) : list wlabel :=
  match ls with
  | [] => []
  | l :: r => mkWLabel (l_name l) (pos, pos + byte_len (l_name l)) None []
              :: printed_labels (pos + byte_len (l_name l) + 1) r
  end.

Lemma label_pieces_toks ls : forall pos, toks_of pos (label_pieces ls) = flat_map wlabel_toks (printed_labels pos ls).
Proof.
  induction ls as [|l ls IH]; intros pos; [reflexivity|].
  change (label_pieces (l :: ls)) with (Wlab l :: Sp :: label_pieces ls).
  cbn [toks_of Wlab printed_labels flat_map wlabel_toks wl_name wl_sp wl_colon wl_nls nl_toks map app].
  rewrite IH. reflexivity.
Qed.

Lemma printed_labels_shape ls : forall pos,
  map shape_label (map wlabel_label (printed_labels pos ls)) = map shape_label ls.
Proof. induction ls as [|l ls IH]; intros pos; [reflexivity|]. cbn [printed_labels map]. rewrite IH. reflexivity. Qed.

Lemma printed_stmt_toks s pos post : nucleus_okb (s_nucleus s) = true ->
  exists w, toks_of pos (stmt_pieces s) ++ nl_toks post = wstmt_toks w /\ wstmt_ok w /\ ws_post w = post /\
            shape_stmt (wstmt_stmt w) = shape_stmt s.
Proof.
  intros Hn.
  exists (printed_wstmt (printed_labels pos (s_labels s)) (s_nucleus s) (pos + byte_len (text_of (label_pieces (s_labels s)))) post).
  split; [unfold stmt_pieces, wstmt_toks; rewrite toks_of_app, label_pieces_toks, <- app_assoc; reflexivity|].
  split; [apply printed_wstmt_ok; exact Hn|]. split; [reflexivity|].
  unfold shape_stmt, wstmt_stmt. cbn [printed_wstmt ws_labels ws_n s_labels s_nucleus].
  rewrite printed_labels_shape, shape_reloc. reflexivity.
Qed.

Lemma program_toks l : Forall (fun s => nucleus_okb (s_nucleus s) = true) l -> forall pos, exists ws,
  toks_of pos (program_pieces l) = prog_toks ws /\ prog_ok ws /\
  map (fun w => shape_stmt (wstmt_stmt w)) ws = map shape_stmt l.
Proof.
  induction 1 as [|s r Hs _ IH]; intros pos; [exists []; repeat split|]. cbn [program_pieces].
  destruct r as [|s2 r2].
  - destruct (printed_stmt_toks s pos [] Hs) as (w & Ht & Hok & _ & Hsh). exists [w].
    cbn [prog_toks prog_ok map]. rewrite <- Ht, Hsh. cbn [nl_toks map]. rewrite !app_nil_r. split; [reflexivity|]. split; [exact Hok|reflexivity].
  - rewrite toks_of_app. cbn [toks_of]. set (sp := (_, _ + byte_len (nl_text false))).
    destruct (IH (snd sp)) as (ws & Ht & Hok & Hsh).
    destruct (printed_stmt_toks s pos [sp] Hs) as (w & Htw & Hokw & Hpw & Hshw). exists (w :: ws).
    cbn [prog_toks map]. rewrite <- Htw, <- Ht, <- app_assoc, Hshw, Hsh. split; [reflexivity|]. split; [|reflexivity].
    destruct ws as [|w2 ws2]; [discriminate Hsh|]. cbn [prog_ok]. rewrite Hpw. split; [exact Hokw|]. split; [discriminate|exact Hok].
Qed.

Theorem print_parse_program l : Forall (fun s => in_parser_image s = true /\ printable_strings s = true) l ->
  exists l', parse_ast (print_program l) = POk l' /\ map shape_stmt l' = map shape_stmt l.
Proof.
  intros Hl. destruct (program_pieces_ok l Hl) as [Hps Hnc].
  (* only the lexing needs valid label names *)
  assert (Hn : Forall (fun s => nucleus_okb (s_nucleus s) = true) l).
  { eapply Forall_impl; [|exact Hl]. intros s [Hi _]. unfold in_parser_image in Hi. apply andb_prop in Hi. apply Hi. }
  destruct (program_toks l Hn 0) as (ws & Ht & Hok & Hsh).
  exists (map wstmt_stmt ws). split; [|rewrite map_map; exact Hsh].
  rewrite print_program_pieces. apply (parse_layout _ []); [exact Hps| |exact Hok].
  rewrite filter_toks by exact Hnc. exact Ht.
Qed.
