(* ObjBinProofs.v — C17: deser_bin (ser_bin o) = ROk o for every object with obj_inv, in every order
   of the label / relocation lists.  The file written is a sequence of chunks of five kinds; the
   reader's loop consumes one chunk per round, so reading back is a fold over the chunks. *)
From Coq Require Import ZArith List Bool Lia Permutation.
From Model Require Import Text Obj ObjBin.
From Spec Require Import ObjEquiv.
From Proofs Require Import ListFacts TextFacts.
From Proofs Require Export ObjBytesProofs ObjMaps.
Import ListNotations.
Open Scope Z_scope.

Inductive chunk : Type :=
| CBlock (b : Z * list (option Z))
| CLabel (p : str * symdata)
| CLines (p : Z * list Z)
| CSrc (s : str)
| CRel (p : Z * str).

Definition ser_chunk (c : chunk) : list Z :=
  match c with
  | CBlock b => ser_block b | CLabel p => ser_label p | CLines p => ser_lines p
  | CSrc s => ser_src s | CRel p => ser_rel p
  end.
Definition chunk_inv (c : chunk) : bool :=
  match c with
  | CBlock b => block_inv b | CLabel p => label_inv p | CLines p => run_inv p
  | CSrc s => valid_str s && (byte_len s <=? ISIZE_MAX) | CRel p => rel_inv p
  end.
Definition upd_chunk (c : chunk) (st : bstate) : bstate :=
  let dd := dbg_or_default (b_dbg st) in
  match c with
  | CBlock b => mkB (bt_insert (fst b) (snd b) (b_blocks st)) (b_labels st) (b_rel st) (b_dbg st)
  | CLabel p => mkB (b_blocks st) (hm_insert str_eqb (fst p) (snd p) (b_labels st)) (b_rel st) (b_dbg st)
  | CLines p => mkB (b_blocks st) (b_labels st) (b_rel st) (Some (bt_insert (fst p) (snd p) (fst dd), snd dd))
  | CSrc s => mkB (b_blocks st) (b_labels st) (b_rel st) (Some (fst dd, snd dd ++ s))
  | CRel p => mkB (b_blocks st) (b_labels st) (hm_insert Z.eqb (fst p) (snd p) (b_rel st)) (b_dbg st)
  end.

Definition debug_chunks (d : debug_symbols) : list chunk := map CLines (ds_lines d) ++ [CSrc (ds_src d)].
Definition sym_chunks (s : symtab) : list chunk :=
  map CLabel (st_labels s) ++ (match st_debug s with Some d => debug_chunks d | None => [] end) ++ map CRel (st_rel s).
Definition chunks_of (o : objfile) : list chunk :=
  map CBlock (o_blocks o) ++ match o_sym o with Some s => sym_chunks s | None => [] end.

Lemma ser_bin_chunks o : ser_bin o = BFMT_MAGIC ++ BFMT_VER ++ flat_map ser_chunk (chunks_of o).
Proof.
  unfold ser_bin, chunks_of. rewrite flat_map_app, flat_map_map. f_equal. f_equal. f_equal.
  destruct (o_sym o) as [s|]; [|reflexivity]. unfold ser_sym, sym_chunks. rewrite !flat_map_app, !flat_map_map.
  f_equal. f_equal. destruct (st_debug s) as [d|]; [|reflexivity].
  unfold ser_debug, debug_chunks. rewrite flat_map_app, flat_map_map. cbn [flat_map ser_chunk]. rewrite app_nil_r. reflexivity.
Qed.

Lemma chunks_inv o : obj_inv o = true -> forallb chunk_inv (chunks_of o) = true.
Proof.
  intro H. destruct (obj_inv_spec o H) as (Hb & _ & Hs). unfold chunks_of. rewrite forallb_app, forallb_map.
  apply andb_true_iff. split; [exact Hb|]. destruct (o_sym o) as [s|]; [|reflexivity].
  pose proof (Hs s eq_refl) as S.
  unfold sym_chunks. rewrite !forallb_app, !forallb_map. apply andb_true_iff. split; [exact (si_labels _ _ S)|].
  apply andb_true_iff. split; [|exact (si_rels _ _ S)]. destruct (st_debug s) as [d|] eqn:Ed; [|reflexivity].
  pose proof (si_dbg _ _ S d Ed) as D.
  unfold debug_chunks. rewrite forallb_app, forallb_map. apply andb_true_iff. split; [exact (df_runs d D)|].
  cbn [forallb chunk_inv]. rewrite (df_src d D), andb_true_r. apply Z.leb_le. exact (df_len d D).
Qed.

Lemma step_chunk c rest st f : chunk_inv c = true ->
  chunk_loop (S f) (ser_chunk c ++ rest) st = chunk_loop f rest (upd_chunk c st).
Proof.
  intro H. unfold upd_chunk. destruct (dbg_or_default (b_dbg st)) as [lm src] eqn:Ed.
  destruct c as [[a ws]|[n [a s e]]|[l d]|s|[a n]]; cbn [chunk_inv ser_chunk] in *;
    unfold ser_block, ser_label, ser_lines, ser_src, ser_rel; cbn [fst snd sd_addr sd_src_start sd_external];
    rewrite <- app_comm_cons; cbn [chunk_loop]; unfold parse_chunk; cbn [Z.eqb]; rewrite <- ?app_assoc.
  - destruct (block_inv_spec _ H) as (Ha & Hl & Hw). cbn [fst snd] in *.
    pose proof (len_nonneg ws).
    rewrite take_u16 by lia. cbn [rd_bind]. rewrite Z.mod_small by lia.
    rewrite take_u16 by lia. cbn [rd_bind].
    rewrite take_slice_app by (unfold len; rewrite length_ser_words; lia). cbn [of_opt rd_bind].
    rewrite chunks3_ser by exact Hw. reflexivity.
  - destruct (label_inv_spec _ H) as (Hv & Ha & Hs & Hl). cbn [fst snd sd_addr sd_src_start] in *.
    rewrite take_u16 by lia. cbn [rd_bind app]. rewrite take_byte. cbn [rd_bind].
    rewrite take_u64 by lia. cbn [rd_bind].
    pose proof (byte_len_nonneg n).
    rewrite take_u64 by (unfold USIZE_MAX, ISIZE_MAX in *; lia). cbn [rd_bind].
    rewrite take_slice_app by apply length_utf8_bytes. cbn [of_opt rd_bind].
    rewrite utf8_roundtrip by exact Hv. cbn [of_opt rd_bind]. destruct e; reflexivity.
  - destruct (run_inv_spec _ H) as [Hl0 Hl Hb Hw Hss]. cbn [fst snd] in *.
    rewrite Ed. pose proof (len_nonneg d).
    rewrite take_u64 by (unfold USIZE_MAX, ISIZE_MAX in *; lia). cbn [rd_bind]. rewrite Z.mod_small by lia.
    rewrite take_u16 by lia. cbn [rd_bind].
    rewrite take_slice_app by (unfold len; rewrite length_ser_u16s; lia). cbn [of_opt rd_bind].
    rewrite chunks2_ser by exact Hw. cbn [rd_bind]. rewrite Hss. reflexivity.
  - apply andb_true_iff in H. destruct H as [Hv Hl]. apply Z.leb_le in Hl.
    rewrite Ed. pose proof (byte_len_nonneg s).
    rewrite take_u64 by (unfold USIZE_MAX, ISIZE_MAX in *; lia). cbn [rd_bind].
    rewrite take_slice_app by apply length_utf8_bytes. cbn [of_opt rd_bind].
    rewrite utf8_roundtrip by exact Hv. reflexivity.
  - destruct (rel_inv_spec _ H) as (Ha & Hv & Hl). cbn [fst snd] in *.
    rewrite take_u16 by lia. cbn [rd_bind].
    pose proof (byte_len_nonneg n).
    rewrite take_u64 by (unfold USIZE_MAX, ISIZE_MAX in *; lia). cbn [rd_bind].
    rewrite take_slice_app by apply length_utf8_bytes. cbn [of_opt rd_bind].
    rewrite utf8_roundtrip by exact Hv. reflexivity.
Qed.

Lemma loop_chunks cs : forall st fuel, forallb chunk_inv cs = true -> (List.length (flat_map ser_chunk cs) <= fuel)%nat ->
  chunk_loop fuel (flat_map ser_chunk cs) st = ROk (fold_left (fun s c => upd_chunk c s) cs st).
Proof.
  induction cs as [|c cs IH]; intros st fuel Hok Hlen; [destruct fuel; reflexivity|].
  apply forallb_cons_iff in Hok. destruct Hok as [Hc Hcs].
  cbn [flat_map fold_left] in *. rewrite app_length in Hlen.
  assert (1 <= List.length (ser_chunk c))%nat by (destruct c; cbn; lia).
  destruct fuel as [|f]; [lia|]. rewrite step_chunk by exact Hc. apply IH; [exact Hcs|lia].
Qed.

(* a run of chunks of one kind is a fold of insertions into its own field of the reader's state *)
Lemma run_blocks bs : forall st, fold_left (fun s c => upd_chunk c s) (map CBlock bs) st
  = mkB (fold_left (fun m p => bt_insert (fst p) (snd p) m) bs (b_blocks st)) (b_labels st) (b_rel st) (b_dbg st).
Proof. induction bs as [|b bs IH]; intro st; [destruct st; reflexivity|]. cbn [map fold_left]. rewrite IH. reflexivity. Qed.
Lemma run_labels ls : forall st, fold_left (fun s c => upd_chunk c s) (map CLabel ls) st
  = mkB (b_blocks st) (fold_left (fun m p => hm_insert str_eqb (fst p) (snd p) m) ls (b_labels st)) (b_rel st) (b_dbg st).
Proof. induction ls as [|p ls IH]; intro st; [destruct st; reflexivity|]. cbn [map fold_left]. rewrite IH. reflexivity. Qed.
Lemma run_rels ls : forall st, fold_left (fun s c => upd_chunk c s) (map CRel ls) st
  = mkB (b_blocks st) (b_labels st) (fold_left (fun m p => hm_insert Z.eqb (fst p) (snd p) m) ls (b_rel st)) (b_dbg st).
Proof. induction ls as [|p ls IH]; intro st; [destruct st; reflexivity|]. cbn [map fold_left]. rewrite IH. reflexivity. Qed.
Lemma run_debug src ls : forall st, fold_left (fun s c => upd_chunk c s) (map CLines ls ++ [CSrc src]) st
  = mkB (b_blocks st) (b_labels st) (b_rel st)
        (Some (fold_left (fun m p => bt_insert (fst p) (snd p) m) ls (fst (dbg_or_default (b_dbg st))),
               snd (dbg_or_default (b_dbg st)) ++ src)).
Proof. induction ls as [|p ls IH]; intro st; [reflexivity|]. cbn [map app fold_left]. rewrite IH. reflexivity. Qed.

Lemma lsm_from_blocks_ok ls :
  forallb run_inv ls = true -> runs_disjoint ls = true -> lsm_from_blocks ls = ROk ls.
Proof.
  intros Hi Hd. rewrite lsm_from_blocks_eq, Hd.
  replace (lines_fit ls) with true
    by (symmetry; revert Hi; apply forallb_impl; intros p Hp; pose proof (rf_fit p (run_inv_spec p Hp)); lia).
  replace (forallb (fun b => weakly_sorted (snd b)) ls) with true; [reflexivity|].
  symmetry. revert Hi. apply forallb_impl. intros p Hp. apply strictly_weakly, (rf_sorted p (run_inv_spec p Hp)).
Qed.

Lemma finish_obj_ok blocks labels rel dbg : check_relocations blocks rel = true -> labels <> [] \/ dbg <> None ->
  finish_obj blocks labels rel dbg = ROk (mkObj blocks (Some (mkSymtab labels rel dbg))).
Proof.
  intros Hc Hne. unfold finish_obj. rewrite Hc.
  destruct labels; [destruct dbg; [reflexivity|destruct Hne; contradiction]|reflexivity].
Qed.

Lemma strip_prefix_app p r : strip_prefix p (p ++ r) = Some r.
Proof. induction p as [|x p IH]; [reflexivity|]. cbn [app strip_prefix]. rewrite Z.eqb_refl. exact IH. Qed.

Theorem deser_ser_bin o : obj_inv o = true -> deser_bin (ser_bin o) = ROk o.
Proof.
  intro H. rewrite ser_bin_chunks. unfold deser_bin. rewrite !strip_prefix_app.
  rewrite loop_chunks by (try apply chunks_inv; try apply le_n; exact H). cbn [rd_bind].
  destruct (obj_inv_spec o H) as (_ & Hss & Hs). destruct o as [blocks sym]. unfold chunks_of. cbn [o_blocks o_sym] in *.
  rewrite fold_left_app, run_blocks, fold_bt_sorted by exact Hss. cbn [b_init b_blocks b_labels b_rel b_dbg app].
  destruct sym as [[labels rel dbg]|]; [|reflexivity].
  destruct (Hs _ eq_refl) as [_ Hnl _ Hnr Hchk Hd Hne]. cbn [st_labels st_rel st_debug] in *.
  unfold sym_chunks. cbn [st_labels st_rel st_debug]. rewrite !fold_left_app, run_labels, (fold_hm_nodup str_eqb str_eqb_eq) by exact Hnl.
  cbn [b_blocks b_labels b_rel b_dbg app].
  destruct dbg as [[lines src]|].
  - destruct (Hd _ eq_refl) as [Hr Hsl Hdis _ _]. cbn [ds_lines ds_src] in *.
    unfold debug_chunks. cbn [ds_lines ds_src]. rewrite run_debug, fold_bt_sorted by exact Hsl.
    rewrite run_rels, (fold_hm_nodup Z.eqb Z.eqb_eq) by exact Hnr.
    cbn [b_blocks b_labels b_rel b_dbg dbg_or_default fst snd app].
    rewrite lsm_from_blocks_ok by assumption. exact (finish_obj_ok _ _ _ _ Hchk Hne).
  - cbn [fold_left]. rewrite run_rels, (fold_hm_nodup Z.eqb Z.eqb_eq) by exact Hnr. exact (finish_obj_ok _ _ _ _ Hchk Hne).
Qed.

Lemma obj_equiv_refl o : obj_equiv o o.
Proof. split; [reflexivity|]. destruct (o_sym o); [|exact Logic.I]. repeat split; apply Permutation_refl. Qed.
Lemma obj_equiv_sym a b : obj_equiv a b -> obj_equiv b a.
Proof.
  intros [H1 H2]. split; [congruence|]. destruct (o_sym a), (o_sym b); try contradiction; [|exact Logic.I].
  destruct H2 as (P1 & P2 & E). repeat split; [apply Permutation_sym; exact P1|apply Permutation_sym; exact P2|congruence].
Qed.

Lemma obj_equiv_trans a b c : obj_equiv a b -> obj_equiv b c -> obj_equiv a c.
Proof.
  intros [H1 H2] [H3 H4]. split; [congruence|].
  destruct (o_sym a), (o_sym b), (o_sym c); try contradiction; [|exact Logic.I].
  destruct H2 as (P1 & P2 & E1). destruct H4 as (P3 & P4 & E2).
  repeat split; [eapply Permutation_trans; eassumption|eapply Permutation_trans; eassumption|congruence].
Qed.

Lemma obj_inv_equiv o o' : obj_equiv o o' -> obj_inv o = true -> obj_inv o' = true.
Proof.
  intros [Hb Hs]. unfold obj_inv. rewrite <- Hb. intro H. btrue.
  repeat (apply andb_true_iff; split); try assumption.
  destruct (o_sym o) as [s|], (o_sym o') as [s'|]; try contradiction; [|reflexivity].
  destruct Hs as (P1 & P2 & E). unfold symtab_inv in *. rewrite <- E. btrue.
  repeat (apply andb_true_iff; split).
  - eapply forallb_perm; eassumption.
  - eapply (nodup_by_perm str_eqb str_eqb_eq); [apply Permutation_map; exact P1|assumption].
  - eapply forallb_perm; eassumption.
  - eapply (nodup_by_perm Z.eqb Z.eqb_eq); [apply Permutation_map; exact P2|assumption].
  - unfold check_relocations in *. eapply forallb_perm; eassumption.
  - assumption.
  - destruct (st_labels s) eqn:El.
    + apply Permutation_nil in P1. rewrite P1. assumption.
    + destruct (st_labels s'); [|reflexivity]. apply Permutation_sym, Permutation_nil in P1. discriminate.
Qed.
