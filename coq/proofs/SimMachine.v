(* SimMachine.v — from the two halves of a step to [step_in]: an invariant kept by interrupt entry and by
   fetch-and-execute is kept by the whole step, whatever the devices deliver; what [decode] guarantees. *)
From Coq Require Import ZArith List Lia.
From Model Require Import Bits Instr Sim.
From Proofs Require Import InstrProofs SimHoare SimObsEntry IrqProofs.
Import ListNotations.
Open Scope Z_scope.

Lemma hi_step (I : sim -> Prop) (E : brk -> Prop) e :
  hoareI I (step_inner e) anyv E -> (forall v, hoareI I (handle_interrupt e v None) anyv E) ->
  hoareI I (step e) anyv E.
Proof.
  intros Hi Hh s Hs. rewrite step_eq. specialize (Hi s Hs). destruct (step_inner e s) as [s1 r].
  destruct (if fl_real (s_flags s1) then redirect r else None) as [v|]; [|exact Hi].
  apply Hh. destruct r; apply Hi.
Qed.

Definition out_ok (E : brk -> Prop) (o : outcome) : Prop :=
  match o with OOk => True | OHalt => E BHalt | OErr x => E (BErr x) | OPanic => E BPanic end.
Lemma hi_step_in (I : sim -> Prop) (E : brk -> Prop) e :
  (forall s, I s -> I (upd_obs s [])) -> hoareI I (step e) anyv E ->
  forall s, I s -> I (fst (step_in e s)) /\ out_ok E (snd (step_in e s)).
Proof.
  intros Ho H s Hs. unfold step_in. specialize (H _ (Ho s Hs)).
  destruct (step e (upd_obs s [])) as [s1 [u|[ |x| ]]]; cbn [fst snd out_ok]; destruct H; split; auto.
Qed.

Lemma hi_step_inner (I : sim -> Prop) (E : brk -> Prop) e :
  (forall s, I s -> I (after_poll e s)) ->
  (forall v p, hoareI I (handle_interrupt e v p) anyv E) -> hoareI I (fetch_exec e) anyv E ->
  E (BErr InterruptErr) -> hoareI I (step_inner e) anyv E.
Proof.
  intros Hp Hh Hf He s Hs. rewrite step_inner_cases. specialize (Hp s Hs).
  destruct (pending e s) as [[v p|]|].
  - destruct (psr_priority (s_psr s) <? p); [apply Hh|apply Hf]; exact Hp.
  - split; assumption.
  - apply Hf. exact Hp.
Qed.

Theorem hi_machine (I : sim -> Prop) (E : brk -> Prop) e :
  (forall s, I s -> I (upd_obs s [])) -> (forall s, I s -> I (after_poll e s)) ->
  (forall v p, hoareI I (handle_interrupt e v p) anyv E) -> hoareI I (fetch_exec e) anyv E ->
  E (BErr InterruptErr) ->
  forall s, I s -> I (fst (step_in e s)) /\ out_ok E (snd (step_in e s)).
Proof.
  intros Ho Hp Hh Hf He. apply hi_step_in; [exact Ho|].
  apply hi_step; [apply hi_step_inner; assumption|]. intros v. apply Hh.
Qed.

(* the gate and the virtual short-cut once: an invariant is left with the walk through [entry_body] *)
Lemma hi_handle_interrupt (I : sim -> Prop) (E : brk -> Prop) e v prio :
  (forall b, real_int_vect v = Some b -> E b) ->
  (forall s, I s -> I (upd_prefetch (upd_pc s (wrap16 (s_pc s + -1))) true)) ->
  (forall ft f s0, (forall x, f x = psr_set_cc x 2 \/ exists p, f x = psr_set_priority (psr_set_cc x 2) p) ->
     hoareI I (entry_body e v ft f s0) anyv E) ->
  hoareI I (handle_interrupt e v prio) anyv E.
Proof.
  intros Hb Hpc He s Hs. rewrite handle_interrupt_eq. destruct prio as [p|].
  - destruct (p <=? psr_priority (s_psr s)); [split; [exact Hs|exact Logic.I]|].
    exact (He _ _ s (fun x => or_intror (ex_intro _ p eq_refl)) s Hs).
  - destruct (if fl_real (s_flags s) then None else real_int_vect v) as [b|] eqn:R;
      [|exact (He _ _ s (fun x => or_introl eq_refl) s Hs)].
    rewrite shortcut_eq. destruct (fl_real (s_flags s)); [discriminate R|].
    split; [destruct (s_prefetch s); auto|exact (Hb b R)].
Qed.

Definition rok (r : Z) : Prop := 0 <= r < 8.
Definition ior_ok (o : imm_or_reg) : Prop := match o with Imm _ => True | RegOp r => rok r end.
Definition regs_ok (i : sim_instr) : Prop :=
  match i with
  | SBR _ _ | SRTI => True
  | STRAP v => 0 <= v < 256
  | SADD a b o | SAND a b o => rok a /\ rok b /\ ior_ok o
  | SLD a _ | SST a _ | SLDI a _ | SSTI a _ | SLEA a _ | SJMP a => rok a
  | SJSR o => ior_ok o
  | SLDR a b _ | SSTR a b _ | SNOT a b => rok a /\ rok b
  end.

(* [regs_ok] is what the simulator needs of [valid] *)
Lemma valid_regs_ok i : valid i = true -> regs_ok i.
Proof.
  destruct i as [| ? ? []| | |[]| ? ? []| | | | | | | | |]; cbn [valid valid_ior regs_ok ior_ok]; unfold rng, rok; intros V;
    repeat split; lia.
Qed.

(* for EVERY integer, not only 16-bit words *)
Lemma decode_spec w : match decode w with DOk i => regs_ok i | DPanic => False | _ => True end.
Proof.
  pose proof (decode_total w) as N. pose proof (decode_valid w) as V.
  destruct (decode w) as [i| | |]; [apply valid_regs_ok, V; reflexivity|exact I|exact I|exact (N eq_refl)].
Qed.
Lemma decode_never_panics w : decode w <> DPanic.
Proof. exact (decode_total w). Qed.
Lemma decode_regs_ok w i : decode w = DOk i -> regs_ok i.
Proof. intros E. pose proof (decode_spec w) as H. rewrite E in H. exact H. Qed.

Lemma hi_decode_m (I : sim -> Prop) (E : brk -> Prop) w :
  E (BErr IllegalOpcode) -> E (BErr InvalidInstrFormat) -> hoareI I (decode_m w) regs_ok E.
Proof.
  intros E1 E2. unfold decode_m. pose proof (decode_spec w) as H.
  destruct (decode w); [apply hi_ret; exact H|apply hi_err; exact E1|apply hi_err; exact E2|contradiction].
Qed.
#[export] Hint Resolve hi_decode_m : hoare.
