(* ObjBytesProofs.v — byte-level lemmas about model/ObjBin.v (little-endian integers, take, the chunk
   decoders, UTF-8), and [rd_post], the postcondition through which both readers are analysed. *)
From Coq Require Import ZArith List Bool Lia.
From Model Require Import Text Obj ObjBin.
From Proofs Require Import ListFacts TextFacts.
Import ListNotations.
Open Scope Z_scope.

Lemma in_range_true lo hi x : lo <= x < hi -> (lo <=? x) && (x <? hi) = true.
Proof. intro H. apply andb_true_iff. split; [apply Z.leb_le|apply Z.ltb_lt]; lia. Qed.
Lemma in_range_false lo hi x : x < lo \/ hi <= x -> (lo <=? x) && (x <? hi) = false.
Proof. intro H. apply andb_false_iff. destruct H; [left; apply Z.leb_gt|right; apply Z.ltb_ge]; lia. Qed.

Lemma between_true lo hi x : lo <= x <= hi -> (lo <=? x) && (x <=? hi) = true.
Proof. intro H. apply andb_true_iff. split; apply Z.leb_le; lia. Qed.
Lemma between_false lo hi x : x < lo \/ hi < x -> (lo <=? x) && (x <=? hi) = false.
Proof. intro H. apply andb_false_iff. destruct H; [left|right]; apply Z.leb_gt; lia. Qed.
Lemma ltb_true x y : x < y -> (x <? y) = true.
Proof. apply Z.ltb_lt. Qed.

Lemma len_app {A} (a b : list A) : len (a ++ b) = len a + len b.
Proof. unfold len. rewrite app_length. lia. Qed.
Lemma len_nonneg {A} (a : list A) : 0 <= len a.
Proof. unfold len. lia. Qed.
Lemma len_cons {A} (x : A) l : len (x :: l) = 1 + len l.
Proof. unfold len. cbn [List.length]. lia. Qed.
Lemma len_repeat {A} (x : A) k : len (repeat x k) = Z.of_nat k.
Proof. unfold len. rewrite repeat_length. reflexivity. Qed.
Lemma len_map {A B} (f : A -> B) l : len (map f l) = len l.
Proof. unfold len. rewrite map_length. reflexivity. Qed.
Lemma forallb_repeat {A} (f : A -> bool) x k : f x = true -> forallb f (repeat x k) = true.
Proof. intro H. induction k as [|k IH]; [reflexivity|]. cbn [repeat forallb]. rewrite H. exact IH. Qed.

Lemma str_eqb_neq a b : str_eqb a b = false <-> a <> b.
Proof. exact (TextFacts.str_eqb_neq a b). Qed.

Lemma from_le_u16 z : 0 <= z < 65536 -> from_le (u16_le z) = z.
Proof. intro H. unfold u16_le. cbn [from_le]. Z.div_mod_to_equations. lia. Qed.
Lemma from_le_u64 z : 0 <= z <= USIZE_MAX -> from_le (u64_le z) = z.
Proof. unfold USIZE_MAX. intro H. unfold u64_le. cbn [from_le]. Z.div_mod_to_equations. lia. Qed.
Lemma from_le_byte z : from_le [z] = z.
Proof. cbn [from_le]. lia. Qed.
Lemma length_u16_le z : List.length (u16_le z) = 2%nat.
Proof. reflexivity. Qed.
Lemma length_u64_le z : List.length (u64_le z) = 8%nat.
Proof. reflexivity. Qed.

Lemma take_slice_app a r n : len a = n -> take_slice n (a ++ r) = Some (a, r).
Proof.
  intro H. unfold take_slice. rewrite len_app.
  pose proof (len_nonneg a). pose proof (len_nonneg r).
  replace (n <? 0) with false by (symmetry; apply Z.ltb_ge; lia).
  replace (len a + len r <? n) with false by (symmetry; apply Z.ltb_ge; lia).
  cbn [orb]. subst n. unfold len. rewrite Nat2Z.id.
  rewrite firstn_app, Nat.sub_diag, firstn_all, firstn_O, app_nil_r.
  rewrite skipn_app, Nat.sub_diag, skipn_all, skipn_O. reflexivity.
Qed.
Lemma take_slice_some n bs l r : take_slice n bs = Some (l, r) -> bs = l ++ r /\ len l = n.
Proof.
  unfold take_slice. destruct ((n <? 0) || (len bs <? n)) eqn:E; [discriminate|].
  apply orb_false_iff in E. destruct E as [E1 E2]. intro H. inversion H; subst. clear H.
  split; [symmetry; apply firstn_skipn|]. unfold len in *. rewrite firstn_length. lia.
Qed.
(* take::<N> never panics: the slice it converts has the length it asked for *)
Lemma take_int_eq n bs : take_int n bs = match take_slice n bs with Some (l, r) => ROk (from_le l, r) | None => RNone end.
Proof.
  unfold take_int. destruct (take_slice n bs) as [[l r]|] eqn:E; [|reflexivity].
  rewrite (proj2 (take_slice_some _ _ _ _ E)), Z.eqb_refl. reflexivity.
Qed.
Lemma take_int_app a r n : len a = n -> take_int n (a ++ r) = ROk (from_le a, r).
Proof. intro H. rewrite take_int_eq, (take_slice_app a r n H). reflexivity. Qed.
Lemma take_u16 z r : 0 <= z < 65536 -> take_int 2 (u16_le z ++ r) = ROk (z, r).
Proof. intro H. rewrite take_int_app by reflexivity. rewrite from_le_u16 by exact H. reflexivity. Qed.
Lemma take_u64 z r : 0 <= z <= USIZE_MAX -> take_int 8 (u64_le z ++ r) = ROk (z, r).
Proof. intro H. rewrite take_int_app by reflexivity. rewrite from_le_u64 by exact H. reflexivity. Qed.
Lemma take_byte z r : take_int 1 (z :: r) = ROk (z, r).
Proof. change (z :: r) with ([z] ++ r). rewrite take_int_app by reflexivity. rewrite from_le_byte. reflexivity. Qed.

Definition word_ok (w : option Z) : Prop := match w with Some v => 0 <= v < 65536 | None => True end.
Lemma chunks3_ser ws : Forall word_ok ws -> chunks3 (flat_map ser_word ws) = ROk ws.
Proof.
  induction 1 as [|w ws Hw _ IH]; [reflexivity|].
  cbn [flat_map]. destruct w as [v|]; cbn [ser_word u16_le app chunks3]; rewrite IH; cbn [rd_bind].
  - rewrite Z.eqb_refl. cbn in Hw. f_equal. f_equal. f_equal. Z.div_mod_to_equations. lia.
  - reflexivity.
Qed.
Lemma chunks2_ser ws : Forall (fun v => 0 <= v < 65536) ws -> chunks2 (flat_map u16_le ws) = ROk ws.
Proof.
  induction 1 as [|w ws Hw _ IH]; [reflexivity|].
  cbn [flat_map u16_le app chunks2]. rewrite IH. cbn [rd_bind]. f_equal. f_equal. Z.div_mod_to_equations. lia.
Qed.
Lemma length_ser_words ws : List.length (flat_map ser_word ws) = (3 * List.length ws)%nat.
Proof. induction ws as [|w ws IH]; [reflexivity|]. cbn [flat_map]. rewrite app_length, IH. destruct w; cbn; lia. Qed.
Lemma length_ser_u16s ws : List.length (flat_map u16_le ws) = (2 * List.length ws)%nat.
Proof. induction ws as [|w ws IH]; [reflexivity|]. cbn [flat_map]. rewrite app_length, IH. cbn. lia. Qed.

Lemma is_cont_low6 x : is_cont (128 + x mod 64) = true.
Proof. unfold is_cont. apply andb_true_iff. split; apply Z.leb_le; Z.div_mod_to_equations; lia. Qed.

(* The decoder finds the length of a sequence from the range of its first byte, rebuilds the code
   point from the 6-bit groups, and rejects over-long forms: the encoder's choice of length is
   exactly what passes that last test. *)
Lemma utf8_decode_encode c rest : is_scalar c = true ->
  utf8_decode (utf8_encode c ++ rest) = option_map (cons c) (utf8_decode rest).
Proof.
  intro Hs. assert (Hc : 0 <= c < 1114112) by (unfold is_scalar in Hs; lia).
  unfold utf8_encode.
  destruct (c <? 128) eqn:E1.
  { cbn [app utf8_decode]. rewrite in_range_true by lia. reflexivity. }
  destruct (c <? 2048) eqn:E2.
  { cbn [app utf8_decode]. rewrite in_range_false by (Z.div_mod_to_equations; lia).
    rewrite in_range_true by (Z.div_mod_to_equations; lia).
    replace ((192 + c / 64 - 192) * 64 + (128 + c mod 64 - 128)) with c by (Z.div_mod_to_equations; lia).
    rewrite is_cont_low6. replace (128 <=? c) with true by (symmetry; apply Z.leb_le; lia). reflexivity. }
  destruct (c <? 65536) eqn:E3.
  { cbn [app utf8_decode]. rewrite !in_range_false by (Z.div_mod_to_equations; lia).
    rewrite in_range_true by (Z.div_mod_to_equations; lia).
    replace ((224 + c / 4096 - 224) * 4096 + (128 + (c / 64) mod 64 - 128) * 64 + (128 + c mod 64 - 128)) with c
      by (Z.div_mod_to_equations; lia).
    rewrite !is_cont_low6, Hs. replace (2048 <=? c) with true by (symmetry; apply Z.leb_le; lia). reflexivity. }
  { cbn [app utf8_decode]. rewrite !in_range_false by (Z.div_mod_to_equations; lia).
    rewrite in_range_true by (Z.div_mod_to_equations; lia).
    replace ((240 + c / 262144 - 240) * 262144 + (128 + (c / 4096) mod 64 - 128) * 4096
             + (128 + (c / 64) mod 64 - 128) * 64 + (128 + c mod 64 - 128)) with c by (Z.div_mod_to_equations; lia).
    rewrite !is_cont_low6, Hs. replace (65536 <=? c) with true by (symmetry; apply Z.leb_le; lia). reflexivity. }
Qed.

Lemma utf8_roundtrip s : valid_str s = true -> utf8_decode (utf8_bytes s) = Some s.
Proof.
  unfold valid_str, utf8_bytes. induction s as [|c s IH]; intro H; [reflexivity|].
  apply forallb_cons_iff in H. destruct H as [Hc Hs].
  cbn [flat_map]. rewrite utf8_decode_encode by exact Hc. rewrite IH by exact Hs. reflexivity.
Qed.

Definition rd_post {A} (Q : A -> Prop) (r : rd A) : Prop :=
  match r with ROk a => Q a | RNone => True | RPanic => False end.

Lemma rd_post_bind {A B} (Q : A -> Prop) (R : B -> Prop) (r : rd A) (f : A -> rd B) :
  rd_post Q r -> (forall a, Q a -> rd_post R (f a)) -> rd_post R (rd_bind r f).
Proof. destruct r; cbn [rd_post rd_bind]; intros H Hf; [apply Hf; exact H|exact H|exact H]. Qed.
Lemma rd_post_impl {A} (Q Q' : A -> Prop) (r : rd A) : rd_post Q r -> (forall a, Q a -> Q' a) -> rd_post Q' r.
Proof. destruct r; cbn [rd_post]; intros H Hq; [apply Hq; exact H|exact H|exact H]. Qed.
Lemma rd_post_np {A} (Q : A -> Prop) (r : rd A) : rd_post Q r -> r <> RPanic.
Proof. intros H E. rewrite E in H. exact H. Qed.
Lemma rd_post_ok {A} (Q : A -> Prop) (r : rd A) a : rd_post Q r -> r = ROk a -> Q a.
Proof. intros H E. rewrite E in H. exact H. Qed.
