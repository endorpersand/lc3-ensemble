(* LinkSpecProofs.v — algebra of the order-free link specification (spec/LinkSpec.v).
   vlink a b = vres (vunion a b): the plain union of the two views, then one resolution pass of the
   pending sites against the merged labels.  The union is associative, and commutative on linkable
   views; a resolution pass inside a union is absorbed by the one outside.  Hence [vlink_all] of a
   set of files does not depend on their order and splits over ++. *)
From Coq Require Import ZArith List Bool Lia Permutation Morphisms Setoid.
From Model Require Import Text Obj.
From Spec Require Import LinkSpec.
Import ListNotations.
Open Scope Z_scope.

Global Instance veq_equiv : Equivalence veq.
Proof.
  split.
  - intro v. repeat split.
  - intros v w (H1 & H2 & H3). repeat split; intros; symmetry; auto.
  - intros u v w (A1 & A2 & A3) (B1 & B2 & B3). repeat split; intros; etransitivity; eauto.
Qed.

Definition vunion (a b : view) : view :=
  mkView (fun addr => first_of (v_img a addr) (v_img b addr))
         (fun n => lmerge (v_lbl a n) (v_lbl b n))
         (fun addr => first_of (v_pend a addr) (v_pend b addr)).

(* resolution of one site (content w, waiting for p) against a label map *)
Definition res_img (w : option (option Z)) (p : option str) (L : str -> option (Z * bool)) : option (option Z) :=
  match w with
  | None => None
  | Some w => match p with
              | Some n => match is_defined (L n) with Some t => Some (Some t) | None => Some w end
              | None => Some w
              end
  end.
Definition res_pend (p : option str) (L : str -> option (Z * bool)) : option str :=
  match p with
  | Some n => match is_defined (L n) with Some _ => None | None => Some n end
  | None => None
  end.
Definition vres (v : view) : view :=
  mkView (fun addr => res_img (v_img v addr) (v_pend v addr) (v_lbl v)) (v_lbl v)
         (fun addr => res_pend (v_pend v addr) (v_lbl v)).

Lemma vlink_vres a b : vlink a b = vres (vunion a b).
Proof. reflexivity. Qed.
Lemma vlink_img_eq a b addr :
  v_img (vlink a b) addr = res_img (first_of (v_img a addr) (v_img b addr)) (first_of (v_pend a addr) (v_pend b addr))
                                   (fun n => lmerge (v_lbl a n) (v_lbl b n)).
Proof. reflexivity. Qed.
Lemma vlink_pend_eq a b addr :
  v_pend (vlink a b) addr = res_pend (first_of (v_pend a addr) (v_pend b addr)) (fun n => lmerge (v_lbl a n) (v_lbl b n)).
Proof. reflexivity. Qed.

Lemma res_img_ext w p L1 L2 : (forall n, L1 n = L2 n) -> res_img w p L1 = res_img w p L2.
Proof. intro H. unfold res_img. destruct w; [|reflexivity]. destruct p; [|reflexivity]. rewrite H. reflexivity. Qed.
Lemma res_pend_ext p L1 L2 : (forall n, L1 n = L2 n) -> res_pend p L1 = res_pend p L2.
Proof. intro H. unfold res_pend. destruct p; [|reflexivity]. rewrite H. reflexivity. Qed.

Global Instance vunion_proper : Proper (veq ==> veq ==> veq) vunion.
Proof. intros a a' (A1 & A2 & A3) b b' (B1 & B2 & B3). repeat split; intro x; cbn; congruence. Qed.
Global Instance vres_proper : Proper (veq ==> veq) vres.
Proof.
  intros v w (H1 & H2 & H3). repeat split; intro x; cbn; rewrite ?H1, ?H3;
    [apply res_img_ext|apply H2|apply res_pend_ext]; exact H2.
Qed.
Global Instance vlink_proper : Proper (veq ==> veq ==> veq) vlink.
Proof. intros a a' Ha b b' Hb. rewrite !vlink_vres, Ha, Hb. reflexivity. Qed.

Lemma viewinv_cong a a' : veq a a' -> ViewInv a -> ViewInv a'.
Proof.
  intros (A1 & A2 & A3) (I1 & I2 & I3). repeat split.
  - intros n x. rewrite <- A2. apply I1.
  - intros addr n. rewrite <- A3. intro H. destruct (I2 _ _ H) as (x & Hx). exists x. rewrite <- A2. exact Hx.
  - intros addr n. rewrite <- A3, <- A1. apply I3.
Qed.
Global Instance linkable_proper : Proper (veq ==> veq ==> iff) Linkable.
Proof.
  assert (K : forall a a' b b', veq a a' -> veq b b' -> Linkable a b -> Linkable a' b').
  { intros a a' b b' (A1 & A2 & A3) (B1 & B2 & B3) (L1 & L2). split.
    - intro addr. rewrite <- A1, <- B1. apply L1.
    - intros n x y. rewrite <- A2, <- B2. apply L2. }
  intros a a' Ha b b' Hb. split; apply K; assumption || (symmetry; assumption).
Qed.

Lemma linkable_sym a b : Linkable a b -> Linkable b a.
Proof.
  intros (L1 & L2). split.
  - intro addr. destruct (L1 addr); auto.
  - intros n x y Hb Ha. symmetry. eauto.
Qed.

Definition lbl_ok (x : option (Z * bool)) : Prop := forall t, x = Some (t, true) -> t = 0.
Definition entry_agree (x y : option (Z * bool)) : Prop :=
  forall s t, x = Some (s, false) -> y = Some (t, false) -> s = t.

Lemma lmerge_comm x y : lbl_ok x -> lbl_ok y -> entry_agree x y -> lmerge x y = lmerge y x.
Proof.
  intros Hx Hy Hxy.
  destruct x as [[ax [|]]|], y as [[ay [|]]|]; cbn; try reflexivity.
  - rewrite (Hx ax eq_refl), (Hy ay eq_refl). reflexivity.
  - rewrite (Hxy ax ay eq_refl eq_refl). reflexivity.
Qed.
Lemma lmerge_assoc x y z : lmerge (lmerge x y) z = lmerge x (lmerge y z).
Proof.
  destruct x as [[ax [|]]|], y as [[ay [|]]|], z as [[az [|]]|]; reflexivity.
Qed.
Lemma lmerge_none_r x : lmerge x None = x.
Proof. destruct x as [[? [|]]|]; reflexivity. Qed.
Lemma lmerge_ok x y : lbl_ok x -> lbl_ok y -> lbl_ok (lmerge x y).
Proof.
  intros Hx Hy t. destruct x as [[ax [|]]|], y as [[ay [|]]|]; cbn; intro H; inversion H; subst; auto.
Qed.
Lemma lmerge_defined x y t : entry_agree x y ->
  (lmerge x y = Some (t, false) <-> x = Some (t, false) \/ y = Some (t, false)).
Proof.
  intro Hxy.
  destruct x as [[ax [|]]|], y as [[ay [|]]|]; cbn; split; intro H;
    try (destruct H as [H|H]); try discriminate; auto.
  inversion H; subst. rewrite (Hxy ax t eq_refl eq_refl). reflexivity.
Qed.
Lemma lmerge_external x y t : lmerge x y = Some (t, true) ->
  (x = Some (t, true) /\ (y = None \/ exists s, y = Some (s, true))) \/ (x = None /\ y = Some (t, true)).
Proof.
  destruct x as [[ax [|]]|], y as [[ay [|]]|]; cbn; intro H; inversion H; subst; eauto.
Qed.
Lemma is_defined_lmerge_l x y t : is_defined x = Some t -> is_defined (lmerge x y) = Some t.
Proof. destruct x as [[ax [|]]|], y as [[ay [|]]|]; cbn; intro H; inversion H; reflexivity. Qed.
Lemma is_defined_lmerge_r x y t : entry_agree x y -> is_defined y = Some t -> is_defined (lmerge x y) = Some t.
Proof.
  intro Hxy. destruct x as [[ax [|]]|], y as [[ay [|]]|]; cbn; intro H; inversion H; subst; try reflexivity.
  rewrite (Hxy ax t eq_refl eq_refl). reflexivity.
Qed.
Lemma entry_agree_lmerge_r x y z : entry_agree x y -> entry_agree x z -> entry_agree x (lmerge y z).
Proof.
  intros Hxy Hxz s t Hx Hm.
  destruct y as [[ay [|]]|], z as [[az [|]]|]; cbn in Hm; inversion Hm; subst; eauto.
Qed.

Lemma viewinv_lbl_ok v n : ViewInv v -> lbl_ok (v_lbl v n).
Proof. intros (I1 & _) t H. eauto. Qed.
Lemma linkable_agree a b n : Linkable a b -> entry_agree (v_lbl a n) (v_lbl b n).
Proof. intros (_ & L2) s t. apply L2. Qed.

Lemma pend_covered v addr n : ViewInv v -> v_pend v addr = Some n -> exists w, v_img v addr = Some w.
Proof.
  intros (_ & _ & I3) H. specialize (I3 _ _ H). destruct (v_img v addr); [eauto|contradiction].
Qed.
Lemma pend_none_of_img v addr : ViewInv v -> v_img v addr = None -> v_pend v addr = None.
Proof.
  intros Hv H. destruct (v_pend v addr) eqn:E; [|reflexivity].
  destruct (pend_covered _ _ _ Hv E) as (w & Hw). congruence.
Qed.
Lemma pend_external v addr n : ViewInv v -> v_pend v addr = Some n -> v_lbl v n = Some (0, true).
Proof.
  intros (I1 & I2 & _) H. destruct (I2 _ _ H) as (x & Hx). rewrite (I1 _ _ Hx) in Hx. exact Hx.
Qed.
Lemma absent_of_linkable a b addr : ViewInv b -> Linkable a b -> v_img a addr <> None ->
  v_img b addr = None /\ v_pend b addr = None.
Proof.
  intros Hb (L1 & _) H. destruct (L1 addr) as [K|K]; [contradiction|]. split; [exact K|].
  apply pend_none_of_img; assumption.
Qed.

Lemma first_of_assoc {A} (x y z : option A) : first_of (first_of x y) z = first_of x (first_of y z).
Proof. destruct x; reflexivity. Qed.
Lemma first_of_none_r {A} (x : option A) : first_of x None = x.
Proof. destruct x; reflexivity. Qed.

Lemma vlink_inv a b : ViewInv a -> ViewInv b -> Linkable a b -> ViewInv (vlink a b).
Proof.
  intros Ha Hb Hl. repeat split.
  - intros n x. cbn. apply lmerge_ok; apply viewinv_lbl_ok; assumption.
  - intros addr n. cbn.
    destruct (first_of (v_pend a addr) (v_pend b addr)) as [m|] eqn:E; [|discriminate].
    destruct (is_defined (lmerge (v_lbl a m) (v_lbl b m))) eqn:D; [discriminate|].
    intro H; inversion H; subst m.
    assert (Hex : v_lbl a n = Some (0, true) \/ v_lbl b n = Some (0, true)).
    { unfold first_of in E. destruct (v_pend a addr) eqn:Ea.
      - inversion E; subst. left. eapply pend_external; eauto.
      - right. eapply pend_external; eauto. }
    pose proof (viewinv_lbl_ok a n Ha) as Oa. pose proof (viewinv_lbl_ok b n Hb) as Ob.
    destruct (v_lbl a n) as [[ax [|]]|], (v_lbl b n) as [[ay [|]]|]; cbn in *;
      try discriminate; eauto; destruct Hex as [Hex|Hex]; discriminate.
  - intros addr n. cbn.
    destruct (first_of (v_pend a addr) (v_pend b addr)) as [m|] eqn:E; [|discriminate].
    intros _.
    assert (Hc : first_of (v_img a addr) (v_img b addr) <> None).
    { unfold first_of in *. destruct (v_pend a addr) eqn:Ea.
      - destruct (pend_covered _ _ _ Ha Ea) as (w & Hw). rewrite Hw. discriminate.
      - destruct (pend_covered _ _ _ Hb E) as (w & Hw). rewrite Hw.
        destruct (v_img a addr); discriminate. }
    destruct (first_of (v_img a addr) (v_img b addr)); [|contradiction].
    destruct (is_defined _); discriminate.
Qed.

(* the labels commute because two external entries both carry address 0 ([lbl_ok]) *)
Lemma vunion_comm a b : ViewInv a -> ViewInv b -> Linkable a b -> veq (vunion a b) (vunion b a).
Proof.
  intros Ha Hb Hl. pose proof Hl as (L1 & _). repeat split; intro x; cbn.
  - destruct (L1 x) as [H|H]; rewrite H; [destruct (v_img b x)|destruct (v_img a x)]; reflexivity.
  - apply lmerge_comm; try (apply viewinv_lbl_ok; assumption). apply linkable_agree; assumption.
  - destruct (L1 x) as [H|H];
      [rewrite (pend_none_of_img _ _ Ha H); destruct (v_pend b x)
      |rewrite (pend_none_of_img _ _ Hb H); destruct (v_pend a x)]; reflexivity.
Qed.
Theorem vlink_comm a b : ViewInv a -> ViewInv b -> Linkable a b -> veq (vlink a b) (vlink b a).
Proof. intros Ha Hb Hl. rewrite !vlink_vres, vunion_comm by assumption. reflexivity. Qed.

Lemma vlink_img_none a b addr : v_img (vlink a b) addr = None <-> v_img a addr = None /\ v_img b addr = None.
Proof.
  rewrite vlink_img_eq. unfold res_img, first_of. destruct (v_img a addr) eqn:Ea.
  - split; [|intros (H & _); discriminate].
    destruct (match v_pend a addr with Some _ => v_pend a addr | None => v_pend b addr end); [destruct (is_defined _)|]; discriminate.
  - destruct (v_img b addr) eqn:Eb.
    + split; [|intros (_ & H); discriminate].
      destruct (match v_pend a addr with Some _ => v_pend a addr | None => v_pend b addr end); [destruct (is_defined _)|]; discriminate.
    + split; auto.
Qed.

Lemma linkable_vlink_r a b c : Linkable b c -> (Linkable a (vlink b c) <-> Linkable a b /\ Linkable a c).
Proof.
  intros Hbc. split.
  - intros (L1 & L2).
    assert (K : forall v, (forall addr, v_img (vlink b c) addr = None -> v_img v addr = None) ->
              (forall n x, v_lbl v n = Some (x, false) -> v_lbl (vlink b c) n = Some (x, false)) -> Linkable a v).
    { intros v Hi Hl. split.
      - intro addr. destruct (L1 addr) as [H|H]; auto.
      - intros n x y Hx Hy. apply (L2 n x y); auto. }
    split; apply K; try (intros addr H; apply vlink_img_none in H; tauto);
      intros n x Hx; cbn; apply lmerge_defined; auto using linkable_agree.
  - intros ((A1 & A2) & (B1 & B2)). split.
    + intro addr. destruct (A1 addr) as [H|H]; [auto|]. destruct (B1 addr) as [H'|H']; [auto|].
      right. apply vlink_img_none. auto.
    + intros n x y Hx Hy. cbn in Hy. apply lmerge_defined in Hy; [|apply linkable_agree; assumption].
      destruct Hy as [Hy|Hy]; eauto.
Qed.

Lemma vunion_assoc a b c : veq (vunion (vunion a b) c) (vunion a (vunion b c)).
Proof. repeat split; intro x; cbn; [apply first_of_assoc|apply lmerge_assoc|apply first_of_assoc]. Qed.

Lemma res_absorb w p L1 L :
  (forall n t, is_defined (L1 n) = Some t -> is_defined (L n) = Some t) ->
  res_img (res_img w p L1) (res_pend p L1) L = res_img w p L /\ res_pend (res_pend p L1) L = res_pend p L.
Proof.
  intro Hm. destruct w as [v|], p as [n|]; cbn; try (split; reflexivity).
  all: destruct (is_defined (L1 n)) eqn:D; cbn; rewrite ?(Hm _ _ D); split; reflexivity.
Qed.
(* a pass on one side of a union is absorbed by a later pass over the union, if that side's
   pending sites lie in its image and the other side has none there *)
Lemma res_absorb_l w p w' p' L1 L :
  (forall n t, is_defined (L1 n) = Some t -> is_defined (L n) = Some t) ->
  (w = None -> p = None) -> (w <> None -> p' = None) ->
  res_img (first_of (res_img w p L1) w') (first_of (res_pend p L1) p') L = res_img (first_of w w') (first_of p p') L /\
  res_pend (first_of (res_pend p L1) p') L = res_pend (first_of p p') L.
Proof.
  intros Hm H1 H2. destruct w as [v|].
  - rewrite H2 by discriminate. destruct p as [n|]; cbn; [|auto].
    destruct (is_defined (L1 n)) eqn:D; cbn; [rewrite (Hm _ _ D)|]; auto.
  - rewrite H1 by reflexivity. auto.
Qed.
Lemma res_absorb_r w p w' p' L1 L :
  (forall n t, is_defined (L1 n) = Some t -> is_defined (L n) = Some t) ->
  (w = None -> p = None) -> (w <> None -> p' = None) ->
  res_img (first_of w (res_img w' p' L1)) (first_of p (res_pend p' L1)) L = res_img (first_of w w') (first_of p p') L /\
  res_pend (first_of p (res_pend p' L1)) L = res_pend (first_of p p') L.
Proof.
  intros Hm H1 H2. destruct w as [v|].
  - rewrite H2 by discriminate. cbn. destruct p; auto.
  - rewrite H1 by reflexivity. apply res_absorb. exact Hm.
Qed.

Lemma vres_absorb_l x y :
  (forall addr, v_img x addr = None -> v_pend x addr = None) ->
  (forall addr, v_img x addr <> None -> v_pend y addr = None) ->
  veq (vres (vunion (vres x) y)) (vres (vunion x y)).
Proof.
  intros H1 H2. repeat split; intro addr; cbn;
    apply (res_absorb_l (v_img x addr) _ (v_img y addr) _ (v_lbl x)); auto; intros n t; apply is_defined_lmerge_l.
Qed.
Lemma vres_absorb_r x y :
  (forall n, entry_agree (v_lbl x n) (v_lbl y n)) ->
  (forall addr, v_img x addr = None -> v_pend x addr = None) ->
  (forall addr, v_img x addr <> None -> v_pend y addr = None) ->
  veq (vres (vunion x (vres y))) (vres (vunion x y)).
Proof.
  intros Hl H1 H2. repeat split; intro addr; cbn;
    apply (res_absorb_r (v_img x addr) _ (v_img y addr) _ (v_lbl y)); auto; intros n t; apply is_defined_lmerge_r, Hl.
Qed.

Theorem vlink_assoc a b c : ViewInv a -> ViewInv b -> ViewInv c ->
  Linkable a b -> Linkable a c -> Linkable b c ->
  veq (vlink (vlink a b) c) (vlink a (vlink b c)).
Proof.
  intros Ha Hb Hc Hab Hac Hbc.
  (* both sides are one pass over the union of the three; three side conditions for the pass over
     b and c beside a, then the last two again for the pass over a and b beside c *)
  rewrite !vlink_vres, vres_absorb_l, vres_absorb_r, vunion_assoc; [reflexivity|..].
  - intro n. apply entry_agree_lmerge_r; apply linkable_agree; assumption.
  - intro addr. apply pend_none_of_img. exact Ha.
  - intros addr H. cbn.
    destruct (absent_of_linkable a b addr Hb Hab H) as (_ & ->).
    destruct (absent_of_linkable a c addr Hc Hac H) as (_ & ->). reflexivity.
  - intro addr. cbn. unfold first_of. destruct (v_img a addr) eqn:Ea; [discriminate|]. intro Eb.
    rewrite (pend_none_of_img _ _ Ha Ea). apply pend_none_of_img; assumption.
  - intros addr H. cbn in H. unfold first_of in H. destruct (v_img a addr) eqn:Ea.
    + apply (absent_of_linkable a c); [assumption|assumption|congruence].
    + apply (absent_of_linkable b c); assumption.
Qed.

Lemma vres_id v : (forall addr n, v_pend v addr = Some n -> is_defined (v_lbl v n) = None) -> veq (vres v) v.
Proof.
  intro H. repeat split; intro x; cbn; destruct (v_pend v x) as [n|] eqn:E, (v_img v x); cbn;
    rewrite ?(H _ _ E); reflexivity.
Qed.
Lemma pend_undefined v addr n : ViewInv v -> v_pend v addr = Some n -> is_defined (v_lbl v n) = None.
Proof. intros Hv H. rewrite (pend_external _ _ _ Hv H). reflexivity. Qed.

Lemma vlink_plain a b v : veq (vunion a b) v ->
  (forall addr n, v_pend v addr = Some n -> is_defined (v_lbl v n) = None) -> veq (vlink a b) v.
Proof. intros E H. rewrite vlink_vres, E. apply vres_id. exact H. Qed.
Lemma vlink_nolabels_r a b : ViewInv a -> (forall n, v_lbl b n = None) -> (forall x, v_pend b x = None) ->
  veq (vlink a b) (mkView (fun x => first_of (v_img a x) (v_img b x)) (v_lbl a) (v_pend a)).
Proof.
  intros Ha Hl Hp. apply vlink_plain.
  - repeat split; intro x; cbn; rewrite ?Hl, ?Hp; auto using lmerge_none_r, first_of_none_r.
  - intros addr n. cbn. apply pend_undefined. exact Ha.
Qed.
Lemma vlink_nolabels_l a b : ViewInv b -> (forall n, v_lbl a n = None) -> (forall x, v_pend a x = None) ->
  veq (vlink a b) (mkView (fun x => first_of (v_img a x) (v_img b x)) (v_lbl b) (v_pend b)).
Proof.
  intros Hb Hl Hp. apply vlink_plain.
  - repeat split; intro x; cbn; rewrite ?Hl, ?Hp; reflexivity.
  - intros addr n. cbn. apply pend_undefined. exact Hb.
Qed.

Lemma viewinv_empty : ViewInv vempty.
Proof. repeat split; cbn; intros; discriminate. Qed.
Lemma linkable_empty_r a : Linkable a vempty.
Proof. split; cbn; intros; [auto|discriminate]. Qed.
Lemma vlink_empty_r a : ViewInv a -> veq (vlink a vempty) a.
Proof.
  intro Ha. rewrite vlink_nolabels_r by (assumption || reflexivity).
  repeat split; intro x; cbn; auto using first_of_none_r.
Qed.

Lemma vlink_all_cons v r : vlink_all (v :: r) = vlink v (vlink_all r).
Proof. reflexivity. Qed.

Lemma linkable_all_iff a l : AllLinkable l -> (Linkable a (vlink_all l) <-> Forall (Linkable a) l).
Proof.
  revert a. induction l as [|v r IH]; intros a Hall.
  - cbn. split; [constructor|intros; apply linkable_empty_r].
  - cbn in *. destruct Hall as (Hvr & Hrr).
    assert (Lvr : Linkable v (vlink_all r)) by (apply IH; assumption).
    rewrite (linkable_vlink_r a v (vlink_all r) Lvr), (IH a Hrr), Forall_cons_iff. reflexivity.
Qed.
Lemma viewinv_all l : Forall ViewInv l -> AllLinkable l -> ViewInv (vlink_all l).
Proof.
  induction l as [|v r IH]; intros Hinv Hall; cbn.
  - apply viewinv_empty.
  - inversion Hinv; subst. destruct Hall as (Hvr & Hrr).
    apply vlink_inv; auto. apply linkable_all_iff; assumption.
Qed.

Lemma alllinkable_app l1 l2 :
  AllLinkable (l1 ++ l2) <-> AllLinkable l1 /\ AllLinkable l2 /\ Forall (fun x => Forall (Linkable x) l2) l1.
Proof.
  induction l1 as [|v r IH]; cbn.
  - split; [intro H; repeat split; auto|tauto].
  - rewrite Forall_app, IH, Forall_cons_iff. tauto.
Qed.

Lemma linkable_all_all l1 l2 : AllLinkable l1 -> AllLinkable l2 ->
  (Linkable (vlink_all l1) (vlink_all l2) <-> Forall (fun x => Forall (Linkable x) l2) l1).
Proof.
  intros A1 A2. split; intro H.
  - apply linkable_sym in H. rewrite (linkable_all_iff _ _ A1) in H.
    rewrite Forall_forall in H |- *. intros x Hx. specialize (H x Hx). apply linkable_sym in H.
    rewrite (linkable_all_iff _ _ A2) in H. exact H.
  - apply linkable_sym. apply linkable_all_iff; [assumption|].
    rewrite Forall_forall in H |- *. intros x Hx. apply linkable_sym. apply linkable_all_iff; auto.
Qed.

Lemma vlink_all_app l1 l2 : Forall ViewInv l1 -> Forall ViewInv l2 -> AllLinkable (l1 ++ l2) ->
  veq (vlink (vlink_all l1) (vlink_all l2)) (vlink_all (l1 ++ l2)).
Proof.
  induction l1 as [|v r IH]; intros I1 I2 Hall.
  - assert (Iall : ViewInv (vlink_all l2)) by (apply viewinv_all; [assumption|apply Hall]).
    cbn. rewrite vlink_comm, vlink_empty_r;
      [reflexivity|assumption|apply viewinv_empty|assumption|apply linkable_sym, linkable_empty_r].
  - inversion I1 as [|? ? Iv Ir]; subst. cbn [app]. rewrite !vlink_all_cons.
    cbn in Hall. destruct Hall as (Hv & Hall).
    pose proof (proj1 (alllinkable_app r l2) Hall) as (Ar & A2 & Across).
    apply Forall_app in Hv. destruct Hv as (Hvr & Hv2).
    rewrite vlink_assoc, IH; try reflexivity; auto using viewinv_all.
    + apply linkable_all_iff; assumption.
    + apply linkable_all_iff; assumption.
    + apply linkable_all_all; assumption.
Qed.

Lemma alllinkable_perm l l' : Permutation l l' -> AllLinkable l -> AllLinkable l'.
Proof.
  induction 1 as [|x l l' Hp IH|x y l|l l' l'' H1 IH1 H2 IH2]; cbn.
  - auto.
  - intros (H1 & H2). split; [|auto]. eapply Permutation_Forall; eauto.
  - intros (Hy & Hxl & Hl). inversion Hy as [|? ? Hyx Hyl]; subst. repeat split; auto.
    constructor; [|assumption]. apply linkable_sym. assumption.
  - auto.
Qed.

Lemma vlink_all_perm l l' : Permutation l l' -> Forall ViewInv l -> AllLinkable l ->
  veq (vlink_all l) (vlink_all l').
Proof.
  induction 1 as [|x l l' Hp IH|x y l|l l' l'' H1 IH1 H2 IH2]; intros Hinv Hall.
  - reflexivity.
  - cbn in *. inversion Hinv; subst. destruct Hall. rewrite IH by assumption. reflexivity.
  - cbn in *. inversion Hinv as [|? ? Iy Hinv']; subst. inversion Hinv' as [|? ? Ix Il]; subst.
    destruct Hall as (Hy & Hx & Hl). inversion Hy as [|? ? Hyx Hyl]; subst.
    assert (Il' : ViewInv (vlink_all l)) by (apply viewinv_all; assumption).
    assert (Lx : Linkable x (vlink_all l)) by (apply linkable_all_iff; assumption).
    assert (Ly : Linkable y (vlink_all l)) by (apply linkable_all_iff; assumption).
    (* y (x R) = (y x) R = (x y) R = x (y R) *)
    rewrite <- vlink_assoc, (vlink_comm y x), vlink_assoc by auto using linkable_sym. reflexivity.
  - rewrite IH1 by assumption. apply IH2.
    + eapply Permutation_Forall; eauto.
    + eapply alllinkable_perm; eauto.
Qed.

Lemma alllinkable_in l u w : AllLinkable l -> In u l -> In w l -> u = w \/ Linkable u w.
Proof.
  induction l as [|v r IH]; cbn; intros Hall Hu Hw; [contradiction|].
  destruct Hall as (Hv & Hr). rewrite Forall_forall in Hv.
  destruct Hu as [<-|Hu], Hw as [<-|Hw]; auto.
  right. apply linkable_sym. auto.
Qed.

Lemma lbl_all_defined l n t : AllLinkable l ->
  (v_lbl (vlink_all l) n = Some (t, false) <-> exists w, In w l /\ v_lbl w n = Some (t, false)).
Proof.
  induction l as [|v r IH]; intros Hall.
  - split; [discriminate|intros (w & [] & _)].
  - rewrite vlink_all_cons. cbn [In]. destruct Hall as (Hv & Hr).
    assert (Lv : Linkable v (vlink_all r)) by (apply linkable_all_iff; assumption).
    cbn [v_lbl vlink]. rewrite (lmerge_defined _ _ _ (linkable_agree _ _ n Lv)), (IH Hr). split.
    + intros [H|(w & Hw & H)]; eauto.
    + intros (w & [<-|Hw] & H); eauto.
Qed.

Lemma site_in_all l u addr n : Forall ViewInv l -> AllLinkable l -> In u l -> v_pend u addr = Some n ->
  v_img (vlink_all l) addr = match is_defined (v_lbl (vlink_all l) n) with Some t => Some (Some t) | None => v_img u addr end /\
  v_pend (vlink_all l) addr = match is_defined (v_lbl (vlink_all l) n) with Some _ => None | None => Some n end.
Proof.
  induction l as [|v r IH]; intros Hinv Hall Hin Hu; [contradiction|]. rewrite vlink_all_cons.
  inversion Hinv as [|? ? Iv Ir]; subst. destruct Hall as (Hv & Hr).
  assert (Lv : Linkable v (vlink_all r)) by (apply linkable_all_iff; assumption).
  rewrite vlink_img_eq, vlink_pend_eq. cbn [v_lbl vlink].
  destruct Hin as [<-|Hin].
  - destruct (pend_covered _ _ _ Iv Hu) as (w & Hw). rewrite Hu, Hw. cbn. split; reflexivity.
  - assert (Iu : ViewInv u) by (rewrite Forall_forall in Ir; auto).
    destruct (pend_covered _ _ _ Iu Hu) as (w & Hw).
    assert (Lvu : Linkable u v) by (apply linkable_sym; rewrite Forall_forall in Hv; auto).
    destruct (absent_of_linkable u v addr Iv Lvu) as (-> & ->); [congruence|]. cbn [first_of].
    destruct (IH Ir Hr Hin Hu) as (I1 & I2). rewrite I1, I2.
    destruct (is_defined (v_lbl (vlink_all r) n)) as [t|] eqn:D.
    + rewrite (is_defined_lmerge_r _ _ t (linkable_agree _ _ n Lv) D). cbn. split; reflexivity.
    + rewrite Hw. cbn. split; reflexivity.
Qed.
