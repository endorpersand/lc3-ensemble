(* AsmLineMap.v — `LineSymbolMap` (a BTreeMap from the first line of a run to its addresses).  On
   a map that passes the checks of `from_blocks`, `get` agrees with `iter`, and so does `find` for
   an address that stands on one line only.  `LineSymbolMap::new`: the runs of a line table arrive
   sorted and apart, so the sorting steps are the identity and the result is the list of runs iff
   every run is sorted; a run that reaches the end of the table is dropped ([closed]). *)
From Coq Require Import ZArith List Bool Lia.
From Model Require Import Tree Text Bits AsmAst Obj SourceInfo Assembler.
From Proofs Require Import AsmBase AsmBlocks SourceInfoProofs.
Import ListNotations.
Open Scope Z_scope.

Lemma nth_z_0 {A} (a : A) l : nth_z (a :: l) 0 = Some a.
Proof. reflexivity. Qed.

(* [windows_all Z.leb] by index: [bsearch_loop] indexes *)
Definition sorted_nth (l : list Z) : Prop :=
  forall i j vi vj, i <= j -> nth_z l i = Some vi -> nth_z l j = Some vj -> vi <= vj.
Lemma windows_sorted l : windows_all Z.leb l = true -> sorted_nth l.
Proof.
  induction l as [|a l IH]; intros W i j vi vj Hij Hi Hj.
  - apply nth_z_some in Hi. cbn in Hi. lia.
  - assert (Wl : windows_all Z.leb l = true) by (destruct l; [reflexivity | cbn [windows_all] in W; apply andb_prop in W; exact (proj2 W)]).
    assert (Hd : forall j v, 0 < j -> nth_z (a :: l) j = Some v -> a <= v).
    { clear - W Wl IH. intros j v Hj Hv. rewrite nth_z_cons in Hv by lia. destruct l as [|b l]; [apply nth_z_some in Hv; cbn in Hv; lia|].
      cbn [windows_all] in W. apply andb_prop in W. destruct W as [W1 _]. apply Z.leb_le in W1.
      assert (b <= v); [|lia]. apply (IH Wl 0 (j - 1) b v); [lia | reflexivity | exact Hv]. }
    pose proof (nth_z_len _ _ _ Hi) as Ri. destruct (Z.eq_dec i 0) as [->|Hi0].
    + cbn in Hi. injection Hi as <-. destruct (Z.eq_dec j 0) as [->|Hj0]; [cbn in Hj; injection Hj as <-; lia|].
      apply (Hd j vj); [lia|exact Hj].
    + rewrite nth_z_cons in Hi, Hj by lia. apply (IH Wl (i - 1) (j - 1) vi vj); [lia|assumption|assumption].
Qed.

Lemma bsearch_loop_inv l x : sorted_nth l -> forall fuel base size,
  size - 1 <= Z.of_nat fuel -> 0 <= base -> 1 <= size -> base + size <= len l ->
  (exists j, base <= j < base + size /\ nth_z l j = Some x) ->
  nth_z l (bsearch_loop fuel l x base size) = Some x.
Proof.
  intros S fuel. induction fuel as [|fuel IH]; intros base size Hf Hb Hs Hl [j [Hj Hx]]; cbn [bsearch_loop].
  - assert (j = base) by lia. subst j. exact Hx.
  - destruct (size >? 1) eqn:E; [|assert (j = base) by lia; subst j; exact Hx].
    set (half := size / 2). assert (Hh : 1 <= half /\ half <= size - half) by (unfold half; Z.div_mod_to_equations; lia).
    destruct (nth_z l (base + half)) as [v|] eqn:EM.
    + destruct (v >? x) eqn:EV.
      * apply IH; try lia. exists j. split; [|exact Hx].
        destruct (Z_lt_ge_dec j (base + half)) as [Hlt|Hge]; [lia|]. exfalso.
        pose proof (S (base + half) j v x ltac:(lia) EM Hx). lia.
      * apply IH; try lia. destruct (Z_lt_ge_dec j (base + half)) as [Hlt|Hge].
        -- exists (base + half). split; [lia|]. pose proof (S j (base + half) x v ltac:(lia) Hx EM). assert (v = x) by lia. subst v. exact EM.
        -- exists j. split; [lia|exact Hx].
    + exfalso. assert (R : 0 <= base + half < len l) by lia. unfold nth_z in EM. destruct (base + half <? 0) eqn:E0; [lia|].
      apply nth_error_None in EM. unfold len in R. lia.
Qed.

Lemma binary_search_sound l x i : binary_search l x = Some i -> nth_z l i = Some x.
Proof.
  unfold binary_search. destruct l as [|a l]; [discriminate|].
  destruct (nth_z (a :: l) _) as [v|] eqn:E; [|discriminate]. destruct (v =? x) eqn:EV; [|discriminate].
  apply Z.eqb_eq in EV. subst v. intros [= <-]. exact E.
Qed.
Lemma binary_search_complete l x : sorted_nth l -> In x l -> binary_search l x <> None.
Proof.
  intros S H. destruct (in_nth_z l x H) as [j Hj]. pose proof (nth_z_len _ _ _ Hj) as Rj.
  unfold binary_search. destruct l as [|a l]; [contradiction|].
  rewrite (bsearch_loop_inv (a :: l) x S (length (a :: l)) 0 (len (a :: l))); try (unfold len in *; lia).
  - rewrite Z.eqb_refl. discriminate.
  - exists j. split; [lia|exact Hj].
Qed.

Definition apart_chk (l r : Z * list Z) : bool := fst l + len (snd l) <=? fst r.
Definition lm_ok (m : linemap) : Prop :=
  ksorted m /\ windows_all apart_chk m = true /\ forallb (fun b => windows_all Z.leb (snd b)) m = true.

Lemma lm_ok_tail x m : lm_ok (x :: m) -> lm_ok m.
Proof.
  intros [S [W F]]. split; [exact (proj1 (ksorted_inv _ _ S))|]. split.
  - destruct m; [reflexivity|]. cbn [windows_all] in W. apply andb_prop in W. exact (proj2 W).
  - cbn [forallb] in F. apply andb_prop in F. exact (proj2 F).
Qed.
Lemma apart_adj (m : linemap) : windows_all apart_chk m = true -> adj_disjoint m.
Proof.
  induction m as [|[k r] m IH]; [intros _; exact Logic.I|]. destruct m as [|[k' r'] m']; [intros _; exact Logic.I|].
  cbn [windows_all adj_disjoint]. intros W. apply andb_prop in W. destruct W as [W1 W2].
  split; [apply Z.leb_le; exact W1 | exact (IH W2)].
Qed.
Lemma lm_run_sorted m k r : lm_ok m -> In (k, r) m -> sorted_nth r.
Proof.
  intros [_ [_ F]] H. rewrite forallb_forall in F. apply windows_sorted. exact (F _ H).
Qed.

Lemma lsm_iter_in m n a : In (n, a) (lsm_iter m) <-> exists k r, In (k, r) m /\ k <= n /\ nth_z r (n - k) = Some a.
Proof.
  unfold lsm_iter. rewrite in_flat_map. split.
  - intros [[k r] [H1 H2]]. cbn [fst snd] in H2. apply enum_from_in in H2. exists k, r. tauto.
  - intros [k [r [H1 H2]]]. exists (k, r). split; [exact H1|]. cbn [fst snd]. apply enum_from_in. exact H2.
Qed.

Theorem lsm_get_iter m n a : lm_ok m -> (lsm_get m n = Some a <-> In (n, a) (lsm_iter m)).
Proof.
  intros [S [W _]]. rewrite lsm_iter_in. unfold lsm_get. split.
  - destruct (bt_le n m) as [[k r]|] eqn:B; [|discriminate]. intros H.
    destruct (block_le_in _ _ _ B) as [I1 I2]. exists k, r. repeat split; assumption.
  - intros [k [r [H1 [H2 H3]]]]. pose proof (nth_z_len _ _ _ H3) as R3. assert (R : k <= n < k + len r) by lia.
    rewrite (block_le_found n m k r (proj2 (ksorted_bool m) S) (apart_adj m W) H1 R : bt_le n m = Some (k, r)). exact H3.
Qed.

Lemma lsm_find_sound m x n : lsm_find m x = Some n -> In (n, x) (lsm_iter m).
Proof.
  induction m as [|[k r] m IH]; cbn [lsm_find]; [discriminate|].
  destruct (binary_search r x) as [o|] eqn:B.
  - intros [= <-]. apply binary_search_sound in B. pose proof (nth_z_len _ _ _ B). apply lsm_iter_in. exists k, r.
    split; [left; reflexivity|]. split; [lia|]. replace (k + o - k) with o by lia. exact B.
  - intros H. specialize (IH H). apply lsm_iter_in in IH. destruct IH as [k' [r' [H1 H2]]]. apply lsm_iter_in. exists k', r'. split; [right; exact H1 | exact H2].
Qed.
Lemma lsm_find_complete m x n : lm_ok m -> In (n, x) (lsm_iter m) -> lsm_find m x <> None.
Proof.
  induction m as [|[k r] m IH]; intros OK H; apply lsm_iter_in in H; destruct H as [k' [r' [H1 [H2 H3]]]]; [contradiction|].
  cbn [lsm_find]. destruct (binary_search r x) as [o|] eqn:B; [discriminate|].
  destruct H1 as [H1|H1].
  - injection H1 as -> ->. exfalso. apply (binary_search_complete r' x); [apply (lm_run_sorted _ k' r' OK); left; reflexivity | exact (nth_z_in _ _ _ H3) | exact B].
  - apply (IH (lm_ok_tail _ _ OK)). apply lsm_iter_in. exists k', r'. repeat split; assumption.
Qed.
Theorem lsm_find_iter m x n : lm_ok m ->
  (forall n1 n2, In (n1, x) (lsm_iter m) -> In (n2, x) (lsm_iter m) -> n1 = n2) ->
  (lsm_find m x = Some n <-> In (n, x) (lsm_iter m)).
Proof.
  intros OK U. split; [apply lsm_find_sound|]. intros H.
  destruct (lsm_find m x) as [n'|] eqn:F.
  - f_equal. apply U; [apply lsm_find_sound; exact F | exact H].
  - exfalso. exact (lsm_find_complete m x n OK H F).
Qed.

(* [lsm_runs] without the accumulator *)
Fixpoint runs' (lines : list (option Z)) (i : Z) (cur : option (list Z)) : linemap :=
  match lines with
  | [] => []
  | Some a :: r => runs' r (i + 1) (Some (match cur with Some c => snoc c a | None => [a] end))
  | None :: r =>
      match cur with
      | Some bl => (i - len bl, bl) :: runs' r (i + 1) None
      | None => runs' r (i + 1) None
      end
  end.
Definition len_opt (cur : option (list Z)) : Z := match cur with Some c => len c | None => 0 end.

(* the keys arrive in increasing order, so each insert is an append *)
Lemma lsm_runs_eq lines : forall i cur acc,
  (forall x, In x acc -> fst x < i - len_opt cur) ->
  lsm_runs lines i cur acc = acc ++ runs' lines i cur.
Proof.
  induction lines as [|[a|] lines IH]; intros i cur acc H; cbn [lsm_runs runs'].
  - rewrite app_nil_r. reflexivity.
  - apply IH. intros x Hx. specialize (H x Hx). destruct cur as [c|]; cbn [len_opt] in *.
    + rewrite len_snoc. lia.
    + unfold len. cbn. lia.
  - destruct cur as [bl|]; cbn [len_opt] in *.
    + rewrite bt_insert_last by (apply Forall_forall; exact H). rewrite IH.
      * rewrite <- app_assoc. reflexivity.
      * intros x Hx. cbn [len_opt]. pose proof (len_nonneg bl). apply in_app_or in Hx. destruct Hx as [Hx|[<-|[]]]; [specialize (H x Hx); lia | cbn; lia].
    + apply IH. intros x Hx. specialize (H x Hx). cbn [len_opt]. lia.
Qed.

Lemma runs'_struct lines : forall i cur,
  let m := runs' lines i cur in
  ksorted m /\ windows_all apart_chk m = true /\ (forall x, In x m -> i - len_opt cur <= fst x).
Proof.
  induction lines as [|[a|] lines IH]; intros i cur; cbn [runs'].
  - split; [constructor|]. split; [reflexivity|]. intros x [].
  - specialize (IH (i + 1) (Some (match cur with Some c => snoc c a | None => [a] end))). cbn zeta in IH.
    destruct IH as [I1 [I2 I3]]. split; [exact I1|]. split; [exact I2|].
    intros x Hx. specialize (I3 x Hx). destruct cur as [c|]; cbn [len_opt] in *; [rewrite len_snoc in I3; lia | unfold len in I3; cbn in I3; lia].
  - specialize (IH (i + 1) None). cbn zeta in IH. cbn [len_opt] in IH. destruct IH as [I1 [I2 I3]].
    destruct cur as [bl|]; cbn [len_opt].
    + pose proof (len_nonneg bl) as LB. split; [|split].
      * constructor; [exact I1|]. apply Forall_forall. intros x Hx. specialize (I3 x Hx). unfold key_lt. cbn. lia.
      * destruct (runs' lines (i + 1) None) as [|y m'] eqn:EM; [reflexivity|]. cbn [windows_all] in *. rewrite I2, andb_true_r.
        unfold apart_chk. cbn [fst snd]. specialize (I3 y (or_introl eq_refl)). apply Z.leb_le. lia.
      * intros x [<-|Hx]; [cbn; lia|]. specialize (I3 x Hx). lia.
    + split; [exact I1|]. split; [exact I2|]. intros x Hx. specialize (I3 x Hx). lia.
Qed.

Fixpoint enum_some (lines : list (option Z)) (i : Z) : list (Z * Z) :=
  match lines with
  | [] => []
  | Some a :: r => (i, a) :: enum_some r (i + 1)
  | None :: r => enum_some r (i + 1)
  end.
(* every run is followed by a line without address: the Rust loop drops a run that reaches the end *)
Fixpoint closed (lines : list (option Z)) (open : bool) : Prop :=
  match lines with
  | [] => open = false
  | Some _ :: r => closed r true
  | None :: r => closed r false
  end.

Definition open_enum (i : Z) (cur : option (list Z)) : list (Z * Z) :=
  match cur with Some c => enum_from (i - len c) c | None => [] end.
Lemma open_enum_snoc i cur a :
  open_enum (i + 1) (Some (match cur with Some c => snoc c a | None => [a] end)) = open_enum i cur ++ [(i, a)].
Proof.
  destruct cur as [c|]; cbn [open_enum].
  - unfold snoc. rewrite enum_from_app, len_app. cbn [enum_from]. assert (L1 : len [a] = 1) by reflexivity. rewrite L1.
    replace (i + 1 - (len c + 1)) with (i - len c) by lia. replace (i - len c + len c) with i by lia. reflexivity.
  - cbn [enum_from]. unfold len. cbn. replace (i + 1 - 1) with i by lia. reflexivity.
Qed.
(* [tl]: the run still open at the end, which the Rust loop drops; AsmLines.runs'_elems needs the inclusion without [closed] *)
Lemma iter_runs'_gen lines : forall i cur, exists tl,
  open_enum i cur ++ enum_some lines i = lsm_iter (runs' lines i cur) ++ tl /\
  (closed lines (match cur with Some _ => true | None => false end) -> tl = []).
Proof.
  induction lines as [|[a|] lines IH]; intros i cur; cbn [runs' enum_some closed].
  - exists (open_enum i cur). split; [apply app_nil_r|]. destruct cur; [discriminate|reflexivity].
  - destruct (IH (i + 1) (Some (match cur with Some c => snoc c a | None => [a] end))) as (tl & E & C).
    exists tl. split; [|exact C]. rewrite <- E, open_enum_snoc, <- app_assoc. reflexivity.
  - destruct (IH (i + 1) None) as (tl & E & C). exists tl. split; [|exact C]. cbn [open_enum app] in E.
    destruct cur as [bl|]; cbn [open_enum]; [|exact E].
    unfold lsm_iter. cbn [flat_map fst snd]. fold (lsm_iter (runs' lines (i + 1) None)). rewrite <- app_assoc, <- E. reflexivity.
Qed.
Lemma iter_runs' lines i cur : closed lines (match cur with Some _ => true | None => false end) ->
  lsm_iter (runs' lines i cur) = open_enum i cur ++ enum_some lines i.
Proof. intros C. destruct (iter_runs'_gen lines i cur) as (tl & E & T). rewrite (T C), app_nil_r in E. symmetry. exact E. Qed.

Lemma stable_insert_last x acc : Forall (fun y => fst y < fst x) acc -> stable_insert x acc = acc ++ [x].
Proof.
  induction 1 as [|y acc Hy _ IH]; [reflexivity|]. cbn [stable_insert app].
  destruct (Z.ltb_spec (fst x) (fst y)); [lia|]. rewrite IH. reflexivity.
Qed.
Lemma stable_sort_sorted (m : linemap) : ksorted m -> stable_sort m = m.
Proof.
  unfold stable_sort. change m with ([] ++ m) at 1 3. generalize (@nil (Z * list Z)).
  induction m as [|x m IH]; intros acc S; cbn [fold_left]; [rewrite app_nil_r; reflexivity|].
  rewrite (stable_insert_last x acc (ksorted_app_lt acc x m S)), IH; rewrite <- app_assoc; [reflexivity|exact S].
Qed.
Lemma lsm_sort_sorted (m : linemap) : ksorted m -> lsm_sort m = m.
Proof. intros S. exact (fold_bt_append m [] S (fun p q F _ => match F with end)). Qed.

Definition runs_sorted (m : linemap) : bool := forallb (fun b => windows_all Z.leb (snd b)) m.

Theorem lsm_new_spec lines :
  lsm_new lines = if runs_sorted (runs' lines 0 None) then Some (runs' lines 0 None) else None.
Proof.
  unfold lsm_new. rewrite (lsm_runs_eq lines 0 None []) by (intros x []). cbn [app].
  destruct (runs'_struct lines 0 None) as [S [W _]]. unfold lsm_from_blocks.
  rewrite (stable_sort_sorted _ S). fold apart_chk. rewrite W. fold (runs_sorted (runs' lines 0 None)).
  rewrite (lsm_sort_sorted _ S). reflexivity.
Qed.
Lemma enum_some_in lines : forall i n a, In (n, a) (enum_some lines i) <-> i <= n /\ nth_z lines (n - i) = Some (Some a).
Proof.
  intros i n a. rewrite <- enum_from_in. revert i.
  induction lines as [|[b|] lines IH]; intros i; cbn [enum_some enum_from In]; [tauto| |].
  - rewrite IH. split; (intros [H|H]; [left; congruence | right; exact H]).
  - rewrite IH. split; [intros H; right; exact H | intros [H|H]; [discriminate H | exact H]].
Qed.

Theorem lsm_new_ok lines m : lsm_new lines = Some m -> closed lines false ->
  lm_ok m /\ forall n a, In (n, a) (lsm_iter m) <-> nth_z lines n = Some (Some a).
Proof.
  rewrite lsm_new_spec. destruct (runs_sorted (runs' lines 0 None)) eqn:R; [|discriminate]. intros [= <-] C.
  destruct (runs'_struct lines 0 None) as [S [W _]]. split; [split; [exact S | split; [exact W | exact R]]|].
  intros n a. rewrite (iter_runs' lines 0 None C). cbn [open_enum app]. rewrite enum_some_in, Z.sub_0_r.
  split; [intros [_ H]; exact H|]. intros H. split; [apply nth_z_some in H; lia | exact H].
Qed.
