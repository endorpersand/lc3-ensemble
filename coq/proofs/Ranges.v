(* Ranges.v — finite integer ranges; a computed [forallb] over one as a bounded [forall].  [seqz] of
   model/Sim.v and model/ObjText.v has the same body as [zrange]: these lemmas apply to it by conversion. *)
From Coq Require Import ZArith List Lia.
Import ListNotations.
Open Scope Z_scope.

Fixpoint zrange (lo : Z) (n : nat) : list Z :=
  match n with O => [] | S k => lo :: zrange (lo + 1) k end.

Lemma zrange_In n : forall lo v, In v (zrange lo n) <-> lo <= v < lo + Z.of_nat n.
Proof. induction n as [|n IH]; intros lo v; cbn [zrange In]; [lia|]. rewrite IH. lia. Qed.
Lemma zrange_length lo n : length (zrange lo n) = n.
Proof. revert lo. induction n as [|n IH]; intro lo; [reflexivity|]. cbn [zrange length]. rewrite IH. reflexivity. Qed.
Lemma zrange_app lo n m : zrange lo (n + m) = zrange lo n ++ zrange (lo + Z.of_nat n) m.
Proof.
  revert lo. induction n as [|n IH]; intro lo; [cbn [zrange Nat.add app]; f_equal; lia|].
  cbn [Nat.add zrange app]. rewrite IH. f_equal. f_equal. f_equal. lia.
Qed.

Lemma forall_range (P : Z -> bool) lo n :
  forallb P (zrange lo n) = true -> forall v, lo <= v < lo + Z.of_nat n -> P v = true.
Proof.
  intros H v Hv. rewrite forallb_forall in H. apply H. apply zrange_In. exact Hv.
Qed.

Lemma forall_range' (P : Z -> bool) lo hi :
  forallb P (zrange lo (Z.to_nat (hi - lo))) = true -> forall v, lo <= v < hi -> P v = true.
Proof.
  intros H v Hv. apply (forall_range P lo (Z.to_nat (hi - lo))); [exact H|]. lia.
Qed.
