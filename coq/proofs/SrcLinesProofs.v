(* SrcLinesProofs.v — the raw lines of a source text (SourceInfo::raw_line_span) concatenate to the text:
   what the text object format relies on when it writes one row per line and the reader glues the SOURCE
   column back together. *)
From Coq Require Import ZArith List Bool Lia.
From Model Require Import Text SourceInfo ObjBin ObjText.
From Spec Require Import SourcePos.
From Proofs Require Import Ranges SourceInfoProofs.
Import ListNotations.
Open Scope Z_scope.

Definition span_from (s : str) (off line : Z) : option (Z * Z) :=
  let nl := nl_from s off in
  if (0 <=? line) && (line <? len nl) then
    let start := if line =? 0 then off else match nth_z nl (line - 1) with Some i => i + 1 | None => 0 end in
    let eof := off + byte_len s in
    let e := match nth_z nl line with Some i => Z.min (i + 1) eof | None => eof end in
    Some (start, e)
  else None.
Definition line_from (s : str) (off k : Z) : str :=
  match span_from s off k with Some (a, b) => sub_from s off a b | None => [] end.

Lemma src_line_from s k : src_line s k = line_from s 0 k.
Proof. reflexivity. Qed.

Lemma src_line_eq s l : 0 <= l <= count_nl s ->
  src_line s l = line s l ++ (if l <? count_nl s then [10] else []).
Proof.
  intros Hl. destruct (raw_line_cut s l Hl) as (x & y & z & Hs & Hy & _ & Hraw).
  unfold src_line. rewrite Hraw. rewrite Hs at 1. rewrite substr_mid. exact Hy.
Qed.

(* [join_nl] = each piece with a newline, the last one without *)
Lemma join_nl_flat (ls : list str) : forall i,
  flat_map (fun k => nth (Z.to_nat (k - i)) ls [] ++ (if k - i + 1 <? Z.of_nat (length ls) then [10] else []))
           (seqz i (length ls)) = join_nl ls.
Proof.
  induction ls as [|p ps IH]; intro i; [reflexivity|].
  cbn [seqz flat_map length]. rewrite Z.sub_diag. cbn [Z.to_nat nth].
  (* on the remaining indices the pieces and the tests are those of the tail *)
  replace (flat_map _ (seqz (i + 1) (length ps))) with (join_nl ps).
  - destruct ps as [|q qs]; cbn [length].
    + cbn. rewrite !app_nil_r. reflexivity.
    + rewrite join_nl_cons_cons, <- app_assoc. destruct (Z.ltb_spec (0 + 1) (Z.of_nat (S (S (length qs))))); [reflexivity|lia].
  - rewrite <- (IH (i + 1)), !flat_map_concat_map. f_equal. apply map_ext_in. intros k Hk. apply zrange_In in Hk.
    assert (Z.to_nat (k - i) = S (Z.to_nat (k - (i + 1)))) as -> by lia.
    destruct (Z.ltb_spec (k - (i + 1) + 1) (Z.of_nat (length ps))), (Z.ltb_spec (k - i + 1) (Z.of_nat (S (length ps))));
      reflexivity || lia.
Qed.

Theorem src_lines_concat s : flat_map (src_line s) (seqz 0 (List.length (nl_indices s))) = s.
Proof.
  pose proof (length_lines_of s) as Hn.
  rewrite nl_indices_ends, length_ends_of. rewrite <- (join_lines_of s) at 3. rewrite <- (join_nl_flat _ 0).
  rewrite !flat_map_concat_map. f_equal. apply map_ext_in. intros k Hk. apply zrange_In in Hk.
  rewrite src_line_eq by lia. rewrite Z.sub_0_r. unfold line.
  destruct (Z.ltb_spec (k + 1) (Z.of_nat (length (lines_of s)))), (Z.ltb_spec k (count_nl s)); reflexivity || lia.
Qed.
