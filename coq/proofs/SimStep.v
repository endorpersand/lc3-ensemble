(* SimStep.v — [Sim.step_in] on machines with quiet devices (keyboard with interrupts off, display), non-strict,
   default internal registers, written [st K m rs pc psr F T q buf]: a step is a fetch ([step_in_fetch]) and the
   effect of the instruction ([exec_*], for the kinds src/os.asm uses; the device rules for LDI / STI). *)
From Coq Require Import ZArith List Bool Lia FMapPositive.
From Gen Require Import Constants.
From Model Require Import Tree Bits Word Instr Sim Load.
From Proofs Require Import SimHoare PsrBits SimAccess SimObsEntry IrqProofs.
Import ListNotations.
Open Scope Z_scope.

(* [Pos.to_nat] is `simpl never`: literal register indices are turned into numerals of nat by hand *)
Ltac reg_eval :=
  unfold rget, rset; cbn [Z.to_nat];
  repeat match goal with
         | |- context [Pos.to_nat ?p] => let n := eval compute in (Pos.to_nat p) in change (Pos.to_nat p) with n
         end;
  cbn [nth set_nth].

(* [konst]: what no instruction changes (strict is off); [frm]: saved SP, frame depth, frames, MCR; [trc]: the
   bookkeeping nobody reads (count, prefetch, observer); keyboard in slot 1, display in slot 2 as [port_dev] has them *)
Record konst := mkK { k_srd : list (Z * plist); k_al : list (Z * Z); k_real : bool; k_dbg : bool; k_ign : bool }.
Definition kflags (K : konst) : flags := mkFlags false (k_real K) (k_dbg K) (k_ign K).
Definition kdevs (q buf : list Z) : list dev := [DNull; DKb q false; DDs buf].
Record frm := FR { f_ssp : word; f_fno : Z; f_frs : option (list frame); f_mcr : bool }.
Record trc := TR { t_ins : Z; t_pf : bool; t_obs : list (Z * Z) }.
Definition st (K : konst) (m : mem) (rs : regs) (pc psr : Z) (F : frm) (T : trc) (q buf : list Z) : sim :=
  mkSim m rs pc psr (f_ssp F) (f_fno F) (f_frs F) (k_srd K) (k_al K) (t_ins T) (t_pf T) (t_obs T) (f_mcr F)
        (kflags K) default_ireg (kdevs q buf).

Definition next_ins (ins : Z) : Z := (ins + 1) mod 18446744073709551616.
Definition may_access (K : konst) (psr a : Z) : bool := psr_privileged psr || k_ign K || in_user a.

Lemma poll_quiet e q buf dr : poll_all e (kdevs q buf) dr None = (kdevs q buf, None, dr).
Proof. cbn. rewrite andb_false_r. reflexivity. Qed.

Lemma read_mem_may e a c s :
  a < IO_START -> (c_priv c || in_user a) = true -> c_track c = true ->
  read_mem e a c s = (upd_obs s (obs_update (s_obs s) a OBS_READ), inl (mget (s_mem s) a)).
Proof.
  intros Ha Hp Ht. rewrite read_mem_plain, Ht; [reflexivity | | apply Z.leb_gt; exact Ha].
  destruct (c_priv c), (in_user a); cbn in *; congruence.
Qed.
Lemma write_mem_may e a data c s :
  a < IO_START -> (c_priv c || in_user a) = true -> c_track c = true -> c_strict c = false ->
  write_mem e a data c s =
  (upd_mem (upd_obs s (wmark (s_obs s) a (mget (s_mem s) a) data)) (mset (s_mem s) a data), inl tt).
Proof.
  intros Ha Hp Ht Hs. rewrite write_mem_plain, Ht, Hs; [reflexivity | | apply Z.leb_gt; exact Ha].
  destruct (c_priv c), (in_user a); cbn in *; congruence.
Qed.

Lemma bind_ok {A B} (m : M A) (k : A -> M B) s s' a : m s = (s', inl a) -> bind m k s = k a s'.
Proof. intros H. unfold bind. rewrite H. reflexivity. Qed.
Lemma bind_fail {A B} (m : M A) (k : A -> M B) s s' b : m s = (s', inr b) -> bind m k s = (s', inr b).
Proof. intros H. unfold bind. rewrite H. reflexivity. Qed.
Lemma bind_get {B} (k : sim -> M B) s : bind get k s = k s s.
Proof. reflexivity. Qed.
Lemma bind_ret {A B} (a : A) (k : A -> M B) s : bind (ret a) k s = k a s.
Proof. reflexivity. Qed.

Ltac rsimpl :=
  cbn [upd_mem upd_regs upd_pc upd_psr upd_saved_sp upd_frames upd_instrs upd_prefetch upd_obs upd_mcr upd_devs upd_alloca
       s_mem s_regs s_pc s_psr s_saved_sp s_frame_no s_frames s_sr_defns s_alloca s_instrs s_prefetch s_obs s_mcr s_flags s_ireg s_devs
       fl_strict fl_real fl_debug_frames fl_ignore_priv kflags strict default_ctx c_priv c_strict c_io c_track
       f_ssp f_fno f_frs f_mcr t_ins t_pf t_obs].

Ltac is_upd t :=
  lazymatch t with
  | upd_mem _ _ => idtac | upd_regs _ _ => idtac | upd_pc _ _ => idtac | upd_psr _ _ => idtac
  | upd_saved_sp _ _ => idtac | upd_frames _ _ _ => idtac | upd_instrs _ _ => idtac | upd_prefetch _ _ => idtac
  | upd_obs _ _ => idtac | upd_mcr _ _ => idtac | upd_devs _ _ => idtac | upd_alloca _ _ => idtac
  | ireg_write _ _ _ => idtac
  end.
Ltac nstate1 :=
  match goal with
  | |- context [?u] =>
      lazymatch type of u with sim => idtac end; is_upd u;
      let u' := eval cbv beta iota delta [upd_mem upd_regs upd_pc upd_psr upd_saved_sp upd_frames upd_instrs upd_prefetch upd_obs upd_mcr upd_devs upd_alloca ireg_write
         s_mem s_regs s_pc s_psr s_saved_sp s_frame_no s_frames s_sr_defns s_alloca s_instrs s_prefetch s_obs s_mcr s_flags s_ireg s_devs] in u in
      change u with u'
  end.
(* every [upd_* (mkSim …)] in the goal becomes a literal [mkSim …], an [st] term again; [cbn] would also unfold the
   memory and register operations *)
Ltac nstate := repeat nstate1; rsimpl.

Lemma step_in_fetch K e m rs pc psr F T q buf w i :
  pc < IO_START -> may_access K psr pc = true ->
  mget m pc = new_init w -> decode w = DOk i ->
  step_in e (st K m rs pc psr F T q buf) =
  finish e (counted (exec e i (st K m rs (wrap16 (pc + 1)) psr F (TR (t_ins T) false [(pc, OBS_READ)]) q buf))).
Proof.
  intros Hpc Hacc Hw Hd.
  assert (P : pending e (upd_obs (st K m rs pc psr F T q buf) []) = None)
    by (unfold pending, st; cbn [upd_obs s_devs]; rewrite poll_quiet; reflexivity).
  rewrite step_in_eq, step_inner_cases, P.
  rewrite fetch_exec_eq. unfold after_poll, st. rsimpl. fold (kdevs q buf).
  rewrite read_mem_may by (first [reflexivity | exact Hacc | exact Hpc]). rsimpl. rewrite Hw.
  unfold fetched_instr. cbn [negb orb new_init w_data]. rewrite Hd. reflexivity.
Qed.

Lemma exec_BR K e m rs pc psr F ins obs q buf cc off :
  exec e (SBR cc off) (st K m rs pc psr F (TR ins false obs) q buf) =
  (st K m rs (if negb (Z.land cc (psr_cc psr) =? 0) then wrap16 (pc + off) else pc) psr F (TR ins false obs) q buf, inl tt).
Proof.
  unfold exec, st. rewrite bind_get. nstate.
  destruct (negb (Z.land cc (psr_cc psr) =? 0)).
  - rewrite offset_pc_lax by reflexivity. nstate. reflexivity.
  - reflexivity.
Qed.

Definition operand_of (rs : regs) (o : imm_or_reg) : word :=
  match o with Imm v => new_init (to_u16 v) | RegOp r => rget rs r end.

Lemma exec_ADD K e m rs pc psr F ins obs q buf dr sr o :
  exec e (SADD dr sr o) (st K m rs pc psr F (TR ins false obs) q buf) =
  (st K m (rset rs dr (w_add (rget rs sr) (operand_of rs o))) pc (psr_set_cc psr (cc_of (w_data (w_add (rget rs sr) (operand_of rs o))))) F (TR ins false obs) q buf, inl tt).
Proof.
  reflexivity.
Qed.

Lemma exec_AND K e m rs pc psr F ins obs q buf dr sr o :
  exec e (SAND dr sr o) (st K m rs pc psr F (TR ins false obs) q buf) =
  (st K m (rset rs dr (w_and (rget rs sr) (operand_of rs o))) pc (psr_set_cc psr (cc_of (w_data (w_and (rget rs sr) (operand_of rs o))))) F (TR ins false obs) q buf, inl tt).
Proof.
  reflexivity.
Qed.

Lemma exec_LEA K e m rs pc psr F ins obs q buf dr off :
  exec e (SLEA dr off) (st K m rs pc psr F (TR ins false obs) q buf) =
  (st K m (rset rs dr (new_init (wrap16 (pc + off)))) pc psr F (TR ins false obs) q buf, inl tt).
Proof. reflexivity. Qed.

Lemma exec_LD K e m rs pc psr F ins obs q buf dr off :
  wrap16 (pc + off) < IO_START -> may_access K psr (wrap16 (pc + off)) = true ->
  exec e (SLD dr off) (st K m rs pc psr F (TR ins false obs) q buf) =
  (st K m (rset rs dr (mget m (wrap16 (pc + off)))) pc (psr_set_cc psr (cc_of (w_data (mget m (wrap16 (pc + off)))))) F (TR ins false (obs_update obs (wrap16 (pc + off)) OBS_READ)) q buf, inl tt).
Proof.
  intros Hio Hacc. unfold exec, st. rewrite bind_get. nstate.
  erewrite bind_ok by (apply read_mem_may; [exact Hio | exact Hacc | reflexivity]). nstate.
  reflexivity.
Qed.

Lemma exec_LDR K e m rs pc psr F ins obs q buf dr br off :
  let ea := wrap16 (w_data (rget rs br) + off) in
  ea < IO_START -> may_access K psr ea = true ->
  exec e (SLDR dr br off) (st K m rs pc psr F (TR ins false obs) q buf) =
  (st K m (rset rs dr (mget m ea)) pc (psr_set_cc psr (cc_of (w_data (mget m ea)))) F (TR ins false (obs_update obs ea OBS_READ)) q buf, inl tt).
Proof.
  intros ea Hio Hacc. unfold exec, st. rewrite bind_get. nstate.
  cbn [get_if_init negb orb of_opt]. rewrite bind_ret. fold ea.
  erewrite bind_ok by (apply read_mem_may; [exact Hio | exact Hacc | reflexivity]). nstate.
  reflexivity.
Qed.

Lemma exec_STR K e m rs pc psr F ins obs q buf sr br off :
  let ea := wrap16 (w_data (rget rs br) + off) in
  ea < IO_START -> may_access K psr ea = true ->
  exec e (SSTR sr br off) (st K m rs pc psr F (TR ins false obs) q buf) =
  (st K (mset m ea (rget rs sr)) rs pc psr F (TR ins false (wmark obs ea (mget m ea) (rget rs sr))) q buf, inl tt).
Proof.
  intros ea Hio Hacc. unfold exec, st. rewrite bind_get. nstate.
  cbn [get_if_init negb orb of_opt]. rewrite bind_ret. fold ea.
  rewrite write_mem_may; [nstate; reflexivity | exact Hio | exact Hacc | reflexivity | reflexivity].
Qed.

Definition is_nil {A} (l : list A) : bool := match l with [] => true | _ => false end.
Definition kbsr_val (e : env) (q : list Z) : Z := if negb (e_kb_locked e) && negb (is_nil q) then 32768 else 0.
Definition dsr_val (e : env) : Z := if e_ds_locked e then 0 else 32768.

(* a device port: an I/O address that is no internal register *)
Lemma read_port K e c m rs pc psr F T q buf a :
  (IO_START <=? a) = true -> assoc default_ireg a = None -> c_priv c = true -> c_track c = true ->
  read_mem e a c (st K m rs pc psr F T q buf) =
  let r := dev_read e (nth_dev (kdevs q buf) (port_dev a)) a (c_io c) in
  (upd_devs (st K (match snd r with Some x => mset m a (new_init x) | None => m end) rs pc psr F
                (TR (t_ins T) (t_pf T) (obs_update (t_obs T) a OBS_READ)) q buf)
            (set_nth (kdevs q buf) (Z.to_nat (port_dev a)) (fst r)),
   inl (match snd r with Some x => new_init x | None => mget m a end)).
Proof.
  intros Hio Hir Hp Ht. rewrite read_mem_eq, Hp. unfold read_state, io_read, st. rsimpl. rewrite Hio, Ht, Hir.
  destruct (dev_read e _ a (c_io c)) as [d' [x|]]; nstate; rewrite ?mget_mset_same; reflexivity.
Qed.
Lemma write_port K e c data m rs pc psr F T q buf a :
  (IO_START <=? a) = true -> assoc default_ireg a = None -> c_priv c = true -> c_track c = true -> c_strict c = false ->
  write_mem e a data c (st K m rs pc psr F T q buf) =
  let r := dev_write e (nth_dev (kdevs q buf) (port_dev a)) a (w_data data) in
  (upd_devs (if snd r then st K (mset m a data) rs pc psr F (TR (t_ins T) (t_pf T) (wmark (t_obs T) a (mget m a) data)) q buf
             else st K m rs pc psr F T q buf)
            (set_nth (kdevs q buf) (Z.to_nat (port_dev a)) (fst r)), inl tt).
Proof.
  intros Hio Hir Hp Ht Hs. rewrite write_mem_eq, Hp, Hio. unfold may_store, io_write, mark_write, put, st. rsimpl. rewrite Hs, Ht, Hir.
  cbn [negb orb andb]. destruct (dev_write e _ a (w_data data)) as [d' [|]]; nstate; [|destruct T; reflexivity].
  unfold wmark. destruct (word_eqb (mget m a) data); reflexivity.
Qed.

Lemma read_kbsr K e c m rs pc psr F ins pf obs q buf :
  c_priv c = true -> c_track c = true ->
  read_mem e KBSR c (st K m rs pc psr F (TR ins pf obs) q buf) =
  (st K (mset m KBSR (new_init (kbsr_val e q))) rs pc psr F (TR ins pf (obs_update obs KBSR OBS_READ)) q buf,
   inl (new_init (kbsr_val e q))).
Proof.
  intros Hp Ht. rewrite read_port by (reflexivity || assumption). unfold kbsr_val, dev_read. destruct (e_kb_locked e), q; reflexivity.
Qed.

Lemma read_dsr K e c m rs pc psr F ins pf obs q buf :
  c_priv c = true -> c_track c = true ->
  read_mem e DSR c (st K m rs pc psr F (TR ins pf obs) q buf) =
  (st K (mset m DSR (new_init (dsr_val e))) rs pc psr F (TR ins pf (obs_update obs DSR OBS_READ)) q buf,
   inl (new_init (dsr_val e))).
Proof. intros Hp Ht. rewrite read_port by (reflexivity || assumption). reflexivity. Qed.

(* KBDR: locked or empty queue -> the stale mirror word; otherwise the head of the queue is taken *)
Lemma read_kbdr K e c m rs pc psr F ins pf obs q buf :
  c_priv c = true -> c_track c = true -> c_io c = true ->
  read_mem e KBDR c (st K m rs pc psr F (TR ins pf obs) q buf) =
  match (if e_kb_locked e then [] else q) with
  | [] => (st K m rs pc psr F (TR ins pf (obs_update obs KBDR OBS_READ)) q buf, inl (mget m KBDR))
  | ch :: r => (st K (mset m KBDR (new_init ch)) rs pc psr F (TR ins pf (obs_update obs KBDR OBS_READ)) r buf, inl (new_init ch))
  end.
Proof.
  intros Hp Ht Hi. rewrite read_port by (reflexivity || assumption). rewrite Hi. unfold dev_read.
  destruct (e_kb_locked e); [reflexivity | destruct q; reflexivity].
Qed.

(* DDR write: dropped (and the memory mirror skipped) while the display lock is held *)
Lemma write_ddr K e c data m rs pc psr F ins pf obs q buf :
  c_priv c = true -> c_track c = true -> c_strict c = false ->
  write_mem e DDR data c (st K m rs pc psr F (TR ins pf obs) q buf) =
  if e_ds_locked e then (st K m rs pc psr F (TR ins pf obs) q buf, inl tt)
  else (st K (mset m DDR data) rs pc psr F (TR ins pf (wmark obs DDR (mget m DDR) data)) q (buf ++ [w_data data mod 256]), inl tt).
Proof.
  intros Hp Ht Hs. rewrite write_port by (reflexivity || assumption). unfold dev_write. destruct (e_ds_locked e); reflexivity.
Qed.

(* 65534 = sim.MCR_ADDR, an internal register; bit 15 is the clock-enable flag *)
Lemma write_mcr K e c data m rs pc psr F ins pf obs q buf :
  c_priv c = true -> c_track c = true -> c_strict c = false ->
  write_mem e 65534 data c (st K m rs pc psr F (TR ins pf obs) q buf) =
  (st K (mset m 65534 data) rs pc psr (FR (f_ssp F) (f_fno F) (f_frs F) (32768 <=? w_data data))
      (TR ins pf (wmark obs 65534 (mget m 65534) data)) q buf, inl tt).
Proof.
  intros Hp Ht Hs. rewrite write_mem_eq, Hp. unfold may_store, io_write, mark_write, put, st. rsimpl. rewrite Hs, Ht.
  change (assoc default_ireg 65534) with (Some RegMCR). cbn [negb orb andb]. nstate.
  unfold wmark. destruct (word_eqb (mget m 65534) data); reflexivity.
Qed.

Lemma may_access_priv K psr a : psr_privileged psr = true -> may_access K psr a = true.
Proof. intros H. unfold may_access. rewrite H. reflexivity. Qed.
Lemma may_access_user K psr a : 12288 <= a < 65024 -> may_access K psr a = true.
Proof.
  intros H. unfold may_access, in_user, USER_START, IO_START, sim.USER_START, sim.IO_START.
  replace (12288 <=? a) with true by (symmetry; apply Z.leb_le; lia). replace (a <? 65024) with true by (symmetry; apply Z.ltb_lt; lia).
  cbn. rewrite !orb_true_r. reflexivity.
Qed.

Ltac ctx_tac H :=
  unfold default_ctx, st;
  cbn [c_priv c_track c_io c_strict s_psr s_flags kflags fl_ignore_priv fl_strict];
  rewrite ?H; reflexivity.

(* m2, obs2, q2, v (F2, buf2) are outputs: used as [erewrite … by eauto using read_kbsr], with the access rule for [a] *)
Lemma exec_LDI_io K e m rs pc psr F ins obs q buf dr off a m2 obs2 q2 v :
  let p := wrap16 (pc + off) in
  p < IO_START -> psr_privileged psr = true -> mget m p = new_init a ->
  (forall c, c_priv c = true -> c_track c = true -> c_io c = true ->
     read_mem e a c (st K m rs pc psr F (TR ins false (obs_update obs p OBS_READ)) q buf) =
     (st K m2 rs pc psr F (TR ins false obs2) q2 buf, inl v)) ->
  exec e (SLDI dr off) (st K m rs pc psr F (TR ins false obs) q buf) =
  (st K m2 (rset rs dr v) pc (psr_set_cc psr (cc_of (w_data v))) F (TR ins false obs2) q2 buf, inl tt).
Proof.
  intros p Hio Hpriv Hp Hrd. unfold exec, st. rewrite bind_get. nstate. fold p.
  erewrite bind_ok by (apply read_mem_may; [exact Hio | ctx_tac Hpriv | reflexivity]).
  nstate. rewrite Hp. cbn [get_if_init negb orb of_opt new_init w_data]. rewrite bind_ret, bind_get.
  nstate.
  erewrite bind_ok by (apply Hrd; ctx_tac Hpriv).
  reflexivity.
Qed.

Lemma exec_STI_io K e m rs pc psr F ins obs q buf sr off a m2 obs2 F2 buf2 :
  let p := wrap16 (pc + off) in
  p < IO_START -> psr_privileged psr = true -> mget m p = new_init a ->
  (forall c, c_priv c = true -> c_track c = true -> c_strict c = false ->
     write_mem e a (rget rs sr) c (st K m rs pc psr F (TR ins false (obs_update obs p OBS_READ)) q buf) =
     (st K m2 rs pc psr F2 (TR ins false obs2) q buf2, inl tt)) ->
  exec e (SSTI sr off) (st K m rs pc psr F (TR ins false obs) q buf) =
  (st K m2 rs pc psr F2 (TR ins false obs2) q buf2, inl tt).
Proof.
  intros p Hio Hpriv Hp Hwr. unfold exec, st. rewrite bind_get. nstate. fold p.
  erewrite bind_ok by (apply read_mem_may; [exact Hio | ctx_tac Hpriv | reflexivity]).
  nstate. rewrite Hp. cbn [get_if_init negb orb of_opt new_init w_data]. rewrite bind_ret, bind_get.
  nstate.
  apply Hwr; cbn [c_priv c_track c_strict andb]; rewrite ?Hpriv; reflexivity.
Qed.

Definition sup_sp (psr : Z) (rs : regs) (ssp : word) : word := if psr_privileged psr then rget rs 6 else ssp.
Definition obs_trap (obs : list (Z * Z)) (m : mem) (sp psr pc v : Z) : list (Z * Z) :=
  obs_update (wmark (wmark obs (wrap16 (sp - 1)) (mget m (wrap16 (sp - 1))) (new_init psr))
                    (wrap16 (sp - 2)) (mget m (wrap16 (sp - 2))) (new_init pc)) v OBS_READ.
Definition in_trap (psr : Z) (r6 : word) (F : frm) (frs1 : option (list frame)) : frm :=
  FR (if psr_privileged psr then f_ssp F else r6) (f_fno F + 1) frs1 (f_mcr F).

(* for any prefetch flag: an exception can be raised before or after the PC increment *)
Lemma trap_entry_st K e m r0 r1 r2 r3 r4 r5 r6 r7 pc psr F ins pf obs q buf v :
  let spw := if psr_privileged psr then r6 else f_ssp F in
  let sp := w_data spw in
  let m' := mset (mset m (wrap16 (sp - 1)) (new_init psr)) (wrap16 (sp - 2)) (new_init pc) in
  let rs' := [r0; r1; r2; r3; r4; r5; w_sub spw (new_init 2); r7] in
  (if k_real K then None else real_int_vect v) = None ->
  wrap16 (sp - 1) < IO_START -> wrap16 (sp - 2) < IO_START -> v < IO_START ->
  handle_interrupt e v None (st K m [r0; r1; r2; r3; r4; r5; r6; r7] pc psr F (TR ins pf obs) q buf) =
  (st K m' rs' (w_data (mget m' v)) (psr_set_cc (psr_set_privileged psr true) 2)
      (in_trap psr r6 F (push_frs FTrap (k_srd K) rs' m' (wrap16 (pc - (if pf then 0 else 1))) v (f_frs F)))
      (TR ins pf (obs_trap obs m sp psr pc v)) q buf, inl tt).
Proof.
  intros spw sp m' rs' Hv H1 H2 H3. rewrite handle_interrupt_eq. cbn [st s_flags kflags fl_real]. rewrite Hv.
  subst rs' m' sp spw. apply Z.leb_gt in H1, H2, H3.
  destruct (psr_privileged psr) eqn:Hpriv;
    (rewrite entry_body_lax;
     [unfold entry_pushed, entry_swap, SimObsEntry.entry_sp, obs_trap, in_trap, st; cbn [s_psr s_regs s_saved_sp]; rewrite Hpriv; reflexivity
     | reflexivity | reflexivity
     | unfold SimObsEntry.entry_sp; cbn [st s_psr s_regs s_saved_sp]; rewrite Hpriv; assumption
     | unfold SimObsEntry.entry_sp; cbn [st s_psr s_regs s_saved_sp]; rewrite Hpriv; assumption
     | exact H3 | apply psr_priv_set_cc, psr_priv_set]).
Qed.

Lemma exec_TRAP K e m r0 r1 r2 r3 r4 r5 r6 r7 pc psr F ins obs q buf v :
  let spw := if psr_privileged psr then r6 else f_ssp F in
  let sp := w_data spw in
  let m' := mset (mset m (wrap16 (sp - 1)) (new_init psr)) (wrap16 (sp - 2)) (new_init pc) in
  let rs' := [r0; r1; r2; r3; r4; r5; w_sub spw (new_init 2); r7] in
  (if k_real K then None else real_int_vect v) = None ->
  wrap16 (sp - 1) < IO_START -> wrap16 (sp - 2) < IO_START -> v < IO_START ->
  exec e (STRAP v) (st K m [r0; r1; r2; r3; r4; r5; r6; r7] pc psr F (TR ins false obs) q buf) =
  (st K m' rs' (w_data (mget m' v)) (psr_set_cc (psr_set_privileged psr true) 2)
      (in_trap psr r6 F (push_frs FTrap (k_srd K) rs' m' (wrap16 (pc - 1)) v (f_frs F)))
      (TR ins false (obs_trap obs m sp psr pc v)) q buf, inl tt).
Proof. intros spw sp m' rs' Hv H1 H2 H3. unfold exec. rewrite bind_get. apply (trap_entry_st K); assumption. Qed.

Lemma exec_TRAP_halt_virtual K e m rs pc psr F ins obs q buf :
  k_real K = false ->
  exec e (STRAP 37) (st K m rs pc psr F (TR ins false obs) q buf) =
  (st K m rs (wrap16 (pc + -1)) psr F (TR ins true obs) q buf, inr BHalt).
Proof.
  intros Hr. unfold exec. rewrite bind_get, handle_interrupt_eq. cbn [st s_flags kflags fl_real]. rewrite Hr.
  change (real_int_vect 37) with (Some BHalt). cbv iota. apply shortcut_eq.
Qed.

Lemma exec_RTI K e m r0 r1 r2 r3 r4 r5 r6 r7 pc psr F ins obs q buf :
  let sp := w_data r6 in
  let npc := w_data (mget m sp) in
  let npsr := w_data (mget m (wrap16 (sp + 1))) in
  let r6' := w_add r6 (new_init 2) in
  psr_privileged psr = true -> sp < IO_START -> wrap16 (sp + 1) < IO_START ->
  exec e SRTI (st K m [r0; r1; r2; r3; r4; r5; r6; r7] pc psr F (TR ins false obs) q buf) =
  (st K m [r0; r1; r2; r3; r4; r5; if psr_privileged npsr then r6' else f_ssp F; r7] npc npsr
      (FR (if psr_privileged npsr then f_ssp F else r6') (Z.max 0 (f_fno F - 1)) (pop_frs (f_frs F)) (f_mcr F))
      (TR ins false (obs_update (obs_update obs sp OBS_READ) (wrap16 (sp + 1)) OBS_READ)) q buf, inl tt).
Proof.
  intros sp npc npsr r6' Hpriv H1 H2. apply Z.leb_gt in H1, H2. rewrite exec_rti_lax by assumption || reflexivity.
  unfold rti_state, st. cbn [upd_obs s_mem s_regs s_saved_sp s_frame_no s_frames s_sr_defns s_alloca s_instrs s_prefetch s_obs s_mcr s_flags s_ireg s_devs].
  reg_eval. fold sp npc npsr. destruct (psr_privileged npsr); destruct (f_frs F) as [[|f fs]|]; reflexivity.
Qed.

Lemma finish_counted_ok e K m rs pc psr F T q buf :
  finish e (counted (st K m rs pc psr F T q buf, inl tt)) =
  (st K m rs pc psr F (TR (next_ins (t_ins T)) (t_pf T) (t_obs T)) q buf, OOk).
Proof. unfold finish, counted, st. rsimpl. destruct (k_real K); reflexivity. Qed.

Lemma step_in_ok K e m rs pc psr F T q buf w i m' rs' pc' psr' F' obs' q' buf' :
  pc < IO_START -> may_access K psr pc = true -> mget m pc = new_init w -> decode w = DOk i ->
  exec e i (st K m rs (wrap16 (pc + 1)) psr F (TR (t_ins T) false [(pc, OBS_READ)]) q buf) =
    (st K m' rs' pc' psr' F' (TR (t_ins T) false obs') q' buf', inl tt) ->
  step_in e (st K m rs pc psr F T q buf) =
  (st K m' rs' pc' psr' F' (TR (next_ins (t_ins T)) false obs') q' buf', OOk).
Proof.
  intros Hpc Hacc Hw Hd He. erewrite step_in_fetch by eassumption. rewrite He. apply finish_counted_ok.
Qed.

Lemma halt_virtual K e m rs pc psr F T q buf :
  k_real K = false -> 0 <= pc < IO_START -> may_access K psr pc = true -> mget m pc = new_init 61477 ->
  step_in e (st K m rs pc psr F T q buf) = (st K m rs pc psr F (TR (t_ins T) true [(pc, OBS_READ)]) q buf, OHalt).
Proof.
  intros Hr Hpc Hacc Hw.
  erewrite step_in_fetch; [ | apply Hpc | exact Hacc | exact Hw | reflexivity ].
  rewrite exec_TRAP_halt_virtual by exact Hr.
  replace (wrap16 (wrap16 (pc + 1) + -1)) with pc
    by (unfold IO_START, sim.IO_START in Hpc; unfold wrap16; Z.div_mod_to_equations; lia).
  unfold counted, finish, st. rsimpl. rewrite Hr. reflexivity.
Qed.

Lemma psr_cc_set_cc_of p x : psr_cc (psr_set_cc p (cc_of x)) = cc_of x.
Proof. rewrite psr_cc_set_cc. apply cc_norm_cc_of. Qed.
