(* ObjTextLemmas.v — the building blocks of the text round trip (model/ObjText.v): a formatted number
   parses back (any radix up to 16, also behind zeros as in `{:04X}`), unescape undoes escape on scalar
   values, fields without " |" survive splitn, and lines joined by "\n" come back after trim and lines. *)
From Coq Require Import ZArith List Bool Lia String.
From Model Require Import Tree Text Obj SourceInfo ObjBin ObjText.
From Proofs Require Import ListFacts TextFacts ObjBytesProofs SourceInfoProofs.
Import ListNotations.
Open Scope Z_scope.

Definition is_digit_char (upper : bool) (c : Z) : bool :=
  ((48 <=? c) && (c <=? 57)) || (if upper then (65 <=? c) && (c <=? 70) else (97 <=? c) && (c <=? 102)).

Lemma digit_char_val radix upper d : 0 <= d < radix -> radix <= 16 -> digit_val radix (digit_char upper d) = Some d.
Proof.
  intros Hd Hr. unfold digit_char, digit_val.
  destruct (d <? 10) eqn:E.
  - rewrite between_true by lia. replace (48 + d - 48) with d by lia. rewrite ltb_true by lia. reflexivity.
  - destruct upper.
    + rewrite !between_false, between_true by lia. replace (55 + d - 55) with d by lia. rewrite ltb_true by lia. reflexivity.
    + rewrite between_false, between_true by lia. replace (87 + d - 87) with d by lia. rewrite ltb_true by lia. reflexivity.
Qed.
Lemma digit_char_is upper d : 0 <= d < 16 -> is_digit_char upper (digit_char upper d) = true.
Proof.
  intros Hd. unfold digit_char, is_digit_char. destruct (d <? 10) eqn:E, upper; lia.
Qed.

Lemma digits_of_spec radix upper : 2 <= radix <= 16 -> forall fuel n acc v,
  0 <= n < 2 ^ Z.of_nat fuel -> (1 <= fuel)%nat ->
  exists ds, digits_of fuel radix upper n acc = ds ++ acc /\ ds <> [] /\ forallb (is_digit_char upper) ds = true /\
             forall rest, digits_val radix (ds ++ rest) v = digits_val radix rest (v * radix ^ len ds + n).
Proof.
  intros Hr. induction fuel as [|f IH]; intros n acc v Hn Hf; [lia|].
  cbn [digits_of].
  assert (Hm : 0 <= n mod radix < radix) by (apply Z.mod_pos_bound; lia).
  destruct (n <? radix) eqn:E.
  - exists [digit_char upper (n mod radix)]. split; [reflexivity|]. split; [discriminate|].
    split; [cbn [forallb]; rewrite digit_char_is by lia; reflexivity|].
    intros rest. cbn [app digits_val]. rewrite digit_char_val by lia.
    f_equal. rewrite Z.mod_small by lia. unfold len. cbn [List.length]. change (Z.of_nat 1) with 1. rewrite Z.pow_1_r. reflexivity.
  - assert (Hq : 1 <= n / radix) by (apply Z.div_le_lower_bound; lia).
    rewrite Nat2Z.inj_succ in Hn.
    pose proof (proj2 (div_radix_bits radix n (Z.of_nat f) ltac:(lia) ltac:(lia) Hn)) as Hq2.
    assert (Hf1 : (1 <= f)%nat).
    { destruct f; [cbn in Hq2; lia|lia]. }
    destruct (IH (n / radix) (digit_char upper (n mod radix) :: acc) v ltac:(lia) Hf1) as (ds & E1 & E2 & E3 & E4).
    exists (ds ++ [digit_char upper (n mod radix)]). split; [rewrite E1, <- app_assoc; reflexivity|].
    split; [destruct ds; discriminate|].
    split; [rewrite forallb_app, E3; cbn [forallb]; rewrite digit_char_is by lia; reflexivity|].
    intros rest. rewrite <- app_assoc. cbn [app]. rewrite E4. cbn [digits_val]. rewrite digit_char_val by lia.
    f_equal. rewrite len_app. change (len [digit_char upper (n mod radix)]) with 1.
    rewrite Z.pow_add_r by (pose proof (len_nonneg ds); lia). rewrite Z.pow_1_r.
    rewrite (Z.div_mod n radix) at 3 by lia. ring.
Qed.

Lemma fmt_radix_spec radix upper n : 2 <= radix <= 16 -> 0 <= n ->
  fmt_radix radix upper n <> [] /\ forallb (is_digit_char upper) (fmt_radix radix upper n) = true /\
  digits_val radix (fmt_radix radix upper n) 0 = Some n.
Proof.
  intros Hr Hn. unfold fmt_radix.
  assert (Hb : 0 <= n < 2 ^ Z.of_nat (S (Z.to_nat (Z.log2 n)))).
  { rewrite Nat2Z.inj_succ, Z2Nat.id by apply Z.log2_nonneg. exact (log2_bits n Hn). }
  destruct (digits_of_spec radix upper Hr _ n [] 0 Hb ltac:(lia)) as (ds & E1 & E2 & E3 & E4).
  rewrite E1, app_nil_r. repeat split; try assumption.
  specialize (E4 []). rewrite app_nil_r in E4. rewrite E4. cbn [digits_val]. f_equal; try lia.
Qed.
Lemma fmt_radix_digits radix upper n : 2 <= radix <= 16 -> 0 <= n -> forallb (is_digit_char upper) (fmt_radix radix upper n) = true.
Proof. intros Hr Hn. apply (fmt_radix_spec radix upper n Hr Hn). Qed.

Lemma digit_char_range u c : is_digit_char u c = true -> 48 <= c <= 57 \/ 65 <= c <= 70 \/ 97 <= c <= 102.
Proof. unfold is_digit_char. destruct u; lia. Qed.
Lemma digit_char_digit_val radix upper c : is_digit_char upper c = true -> 16 <= radix -> exists d, digit_val radix c = Some d.
Proof.
  intros H Hr. apply digit_char_range in H. unfold digit_val. destruct H as [R|[R|R]].
  - rewrite between_true by lia. exists (c - 48). rewrite ltb_true by lia. reflexivity.
  - rewrite !between_false, between_true by lia. exists (c - 55). rewrite ltb_true by lia. reflexivity.
  - rewrite between_false, between_true by lia. exists (c - 87). rewrite ltb_true by lia. reflexivity.
Qed.

Lemma parse_uint_digits radix upper max s n : s <> [] -> forallb (is_digit_char upper) s = true ->
  digits_val radix s 0 = Some n -> n <= max -> parse_uint radix max s = Some n.
Proof.
  intros H1 H2 H3 Hn. unfold parse_uint. destruct s as [|c [|c2 r]]; [contradiction| |].
  - cbn [digits_val] in H3. destruct (digit_val radix c) as [d|]; [|discriminate].
    assert (d = n) by (inversion H3; lia). subst d.
    replace (n <=? max) with true by lia. reflexivity.
  - cbn [forallb] in H2. apply andb_true_iff in H2. destruct H2 as [Hc _].
    apply digit_char_range in Hc. replace (c =? 43) with false by lia. rewrite H3.
    replace (n <=? max) with true by lia. reflexivity.
Qed.
Theorem parse_fmt_radix radix upper max n : 2 <= radix <= 16 -> 0 <= n <= max ->
  parse_uint radix max (fmt_radix radix upper n) = Some n.
Proof.
  intros Hr Hn. destruct (fmt_radix_spec radix upper n Hr ltac:(lia)) as (H1 & H2 & H3).
  apply (parse_uint_digits radix upper); [exact H1|exact H2|exact H3|lia].
Qed.
Theorem parse_fmt_dec max n : 0 <= n <= max -> parse_uint 10 max (fmt_dec n) = Some n.
Proof. intro H. apply parse_fmt_radix; [lia|exact H]. Qed.

Lemma digit_val_range radix c d : digit_val radix c = Some d -> 0 <= d < radix.
Proof.
  unfold digit_val. intros H.
  destruct ((48 <=? c) && (c <=? 57)) eqn:E1; [|destruct ((97 <=? c) && (c <=? 122)) eqn:E2; [|destruct ((65 <=? c) && (c <=? 90)) eqn:E3]].
  - destruct (c - 48 <? radix) eqn:E; [|discriminate]. inversion H; subst. lia.
  - destruct (c - 87 <? radix) eqn:E; [|discriminate]. inversion H; subst. lia.
  - destruct (c - 55 <? radix) eqn:E; [|discriminate]. inversion H; subst. lia.
  - rewrite Z.ltb_irrefl in H. discriminate.
Qed.
Lemma digits_val_nonneg radix s : forall acc v, 0 <= radix -> 0 <= acc -> digits_val radix s acc = Some v -> 0 <= v.
Proof.
  induction s as [|c s IH]; intros acc v Hr Ha H; cbn [digits_val] in H; [inversion H; subst; exact Ha|].
  destruct (digit_val radix c) as [d|] eqn:E; [|discriminate].
  apply digit_val_range in E. eapply IH; [exact Hr| |exact H]. nia.
Qed.
Lemma parse_uint_range radix max s v : 0 <= radix -> parse_uint radix max s = Some v -> 0 <= v <= max.
Proof.
  intros Hr. unfold parse_uint. destruct s as [|c [|c2 r]]; [discriminate| |].
  - destruct (digit_val radix c) as [d|] eqn:E; [|discriminate]. apply digit_val_range in E.
    destruct (d <=? max) eqn:E2; [|discriminate]. intro H. inversion H; subst. lia.
  - destruct (digits_val radix (if c =? 43 then c2 :: r else c :: c2 :: r) 0) as [w|] eqn:E; [|discriminate].
    apply digits_val_nonneg in E; [|exact Hr|lia].
    destruct (w <=? max) eqn:E2; [|discriminate]. intro H. inversion H; subst. lia.
Qed.
Lemma hex2u16_range s v : hex2u16 s = Some v -> 0 <= v <= 65535.
Proof. unfold hex2u16. destruct (byte_len s =? 4); [|discriminate]. apply parse_uint_range. lia. Qed.

Lemma digits_of_len radix upper : 2 <= radix -> forall fuel n acc k, 1 <= k -> 0 <= n < radix ^ k ->
  len (digits_of fuel radix upper n acc) <= k + len acc.
Proof.
  intros Hr. induction fuel as [|f IH]; intros n acc k Hk Hn; cbn [digits_of]; [lia|].
  destruct (n <? radix) eqn:E; [rewrite len_cons; lia|].
  assert (Hk2 : 2 <= k) by (destruct (Z.eq_dec k 1) as [->|]; [rewrite Z.pow_1_r in Hn; lia|lia]).
  replace k with (Z.succ (k - 1)) in Hn by lia. rewrite Z.pow_succ_r in Hn by lia.
  specialize (IH (n / radix) (digit_char upper (n mod radix) :: acc) (k - 1) ltac:(lia)).
  rewrite len_cons in IH. etransitivity; [apply IH|lia].
  split; [apply Z.div_pos; lia|apply Z.div_lt_upper_bound; lia].
Qed.

Lemma digits_val_zeros radix k s : 0 < radix -> digits_val radix (repeat 48 k ++ s) 0 = digits_val radix s 0.
Proof.
  intro Hr. induction k as [|k IH]; [reflexivity|]. cbn [repeat app digits_val].
  change (digit_val radix 48) with (if 0 <? radix then Some 0 else None).
  replace (0 <? radix) with true by lia. exact IH.
Qed.

Lemma digits_byte_len u s : forallb (is_digit_char u) s = true -> byte_len s = len s.
Proof.
  induction s as [|c s IH]; intro H; [reflexivity|]. apply andb_true_iff in H. destruct H as [Hc Hs].
  apply digit_char_range in Hc. cbn [byte_len]. rewrite len_cons, (IH Hs). unfold utf8_len.
  replace (c <? 128) with true by lia. reflexivity.
Qed.

Lemma hex4_props v : 0 <= v < 65536 ->
  hex2u16 (hex4 v) = Some v /\ len (hex4 v) = 4 /\ forallb (is_digit_char true) (hex4 v) = true
  /\ str_eqb (hex4 v) TFMT_UNINIT = false.
Proof.
  intro Hv. destruct (fmt_radix_spec 16 true v ltac:(lia) ltac:(lia)) as (Hne & Hd & Hval).
  assert (Hl : 1 <= len (fmt_radix 16 true v) <= 4).
  { split; [destruct (fmt_radix 16 true v) as [|c l]; [contradiction|rewrite len_cons; pose proof (len_nonneg l); lia]|].
    apply (digits_of_len 16 true ltac:(lia) _ v [] 4); [lia|exact Hv]. }
  unfold hex4, pad_left. set (ds := fmt_radix 16 true v) in *. set (k := Z.to_nat (4 - len ds)).
  assert (Hlen : len (repeat 48 k ++ ds) = 4) by (rewrite len_app; unfold len at 1; rewrite repeat_length; unfold k; lia).
  assert (Hdig : forallb (is_digit_char true) (repeat 48 k ++ ds) = true).
  { rewrite forallb_app, Hd, andb_true_r. apply forallb_repeat. reflexivity. }
  split; [|split; [exact Hlen|split; [exact Hdig|]]].
  - unfold hex2u16. rewrite (digits_byte_len true) by exact Hdig. rewrite Hlen. cbn [Z.eqb Pos.eqb].
    apply (parse_uint_digits 16 true); [destruct k; [exact Hne|discriminate]|exact Hdig| |lia].
    rewrite digits_val_zeros by lia. exact Hval.
  - destruct (repeat 48 k ++ ds) as [|c t]; [discriminate|]. cbn [forallb] in Hdig. apply andb_true_iff in Hdig.
    destruct Hdig as [Hc _]. apply digit_char_range in Hc. cbn [TFMT_UNINIT s2z str_eqb].
    replace (c =? _) with false by (cbn; lia). reflexivity.
Qed.
Theorem hex2u16_hex4 v : 0 <= v < 65536 -> hex2u16 (hex4 v) = Some v.
Proof. intro H. apply (hex4_props v H). Qed.
Lemma maybe_hex2u16_tword w : word_ok w -> maybe_hex2u16 (tword w) = Some w.
Proof.
  destruct w as [v|]; cbn [word_ok tword]; intro H; [|reflexivity].
  destruct (hex4_props v H) as (H1 & _ & _ & H4). unfold maybe_hex2u16. rewrite H4, H1. reflexivity.
Qed.
Lemma hex4_digits v : 0 <= v < 65536 -> forallb (is_digit_char true) (hex4 v) = true.
Proof. intro H. apply (hex4_props v H). Qed.

Lemma urun_brace ds : forall acc rest, forallb (fun c => negb (c =? 125)) ds = true ->
  urun (UBrace acc) (ds ++ 125 :: rest)
  = match finish_unicode (rev ds ++ acc) with
    | Some ch => option_map (cons ch) (urun UN rest)
    | None => None
    end.
Proof.
  induction ds as [|c ds IH]; intros acc rest H.
  - cbn [app rev urun ustep]. rewrite Z.eqb_refl. destruct (finish_unicode acc); cbn [option_map]; [|reflexivity].
    apply option_map_app_one.
  - cbn [forallb] in H. apply andb_true_iff in H. destruct H as [Hc Hds]. apply negb_true_iff in Hc.
    cbn [app urun ustep]. rewrite Hc. rewrite option_map_app_nil. rewrite IH by exact Hds.
    cbn [rev]. rewrite <- app_assoc. reflexivity.
Qed.

Lemma urun_u_prefix r : urun UN (92 :: 117 :: 123 :: r) = urun (UBrace []) r.
Proof. cbn. rewrite !option_map_app_nil. reflexivity. Qed.

Lemma unescape_esc_char c rest : is_scalar c = true ->
  urun UN (esc_char c ++ rest) = option_map (cons c) (urun UN rest).
Proof.
  intro Hs. unfold esc_char.
  destruct (c =? 9) eqn:E9; [apply Z.eqb_eq in E9; subst; cbn; destruct (urun UN rest); reflexivity|].
  destruct (c =? 13) eqn:E13; [apply Z.eqb_eq in E13; subst; cbn; destruct (urun UN rest); reflexivity|].
  destruct (c =? 10) eqn:E10; [apply Z.eqb_eq in E10; subst; cbn; destruct (urun UN rest); reflexivity|].
  destruct ((c =? 39) || (c =? 34) || (c =? 92)) eqn:Eq.
  { apply orb_true_iff in Eq. destruct Eq as [Eq|Eq]; [apply orb_true_iff in Eq; destruct Eq as [Eq|Eq]|];
      apply Z.eqb_eq in Eq; subst; cbn; destruct (urun UN rest); reflexivity. }
  apply orb_false_iff in Eq. destruct Eq as [Eq E92]. 
  destruct ((32 <=? c) && (c <=? 126)) eqn:Ep.
  { cbn [app urun ustep]. unfold ustep_normal. rewrite E92. apply option_map_app_one. }
  rewrite <- !app_assoc. cbn [app]. rewrite urun_u_prefix.
  assert (Hc : 0 <= c <= U32_MAX) by (unfold is_scalar in Hs; unfold U32_MAX; lia).
  rewrite urun_brace.
  2:{ generalize (fmt_radix_digits 16 false c ltac:(lia) ltac:(lia)). apply forallb_impl. intros x H2. apply digit_char_range in H2. lia. }
  unfold finish_unicode. rewrite app_nil_r, rev_involutive.
  rewrite parse_fmt_radix by lia. rewrite Hs. reflexivity.
Qed.

Theorem unescape_escape s : valid_str s = true -> unescape (escape s) = Some s.
Proof.
  unfold unescape, escape, valid_str. induction s as [|c s IH]; intro H; [reflexivity|].
  cbn [forallb] in H. apply andb_true_iff in H. destruct H as [Hc Hs].
  cbn [flat_map]. rewrite unescape_esc_char by exact Hc. rewrite IH by exact Hs. reflexivity.
Qed.

Definition printable (c : Z) : bool := (32 <=? c) && (c <=? 126).
Lemma digit_printable u c : is_digit_char u c = true -> printable c = true.
Proof. intro H. apply digit_char_range in H. unfold printable. lia. Qed.
Lemma esc_char_printable c : 0 <= c -> forallb printable (esc_char c) = true.
Proof.
  intro Hc. unfold esc_char.
  destruct (c =? 9); [reflexivity|]. destruct (c =? 13); [reflexivity|]. destruct (c =? 10); [reflexivity|].
  destruct ((c =? 39) || (c =? 34) || (c =? 92)) eqn:Eq.
  { apply orb_true_iff in Eq. destruct Eq as [Eq|Eq]; [apply orb_true_iff in Eq; destruct Eq as [Eq|Eq]|];
      apply Z.eqb_eq in Eq; subst; reflexivity. }
  destruct ((32 <=? c) && (c <=? 126)) eqn:Ep; [cbn [forallb]; unfold printable; rewrite Ep; reflexivity|].
  cbn [app forallb]. change (printable 92 && (printable 117 && (printable 123 && forallb printable (fmt_radix 16 false c ++ [125])))) 
    with (forallb printable (fmt_radix 16 false c ++ [125])).
  rewrite forallb_app. cbn [forallb]. change (printable 125 && true) with true. rewrite andb_true_r.
  generalize (fmt_radix_digits 16 false c ltac:(lia) Hc). apply forallb_impl. apply digit_printable.
Qed.
Lemma escape_printable s : valid_str s = true -> forallb printable (escape s) = true.
Proof.
  unfold valid_str, escape. induction s as [|c s IH]; intro H; [reflexivity|].
  cbn [forallb] in H. apply andb_true_iff in H. destruct H as [Hc Hs]. cbn [flat_map]. rewrite forallb_app.
  rewrite esc_char_printable by (unfold is_scalar in Hc; lia). rewrite IH by exact Hs. reflexivity.
Qed.

Fixpoint no_sp_bar (a : str) : bool :=
  match a with
  | c :: ((d :: _) as r) => negb ((c =? 32) && (d =? 124)) && no_sp_bar r
  | _ => true
  end.

Lemma split_div_field a : forall b, no_sp_bar a = true -> split_div (a ++ TABLE_DIV ++ b) = Some (a, b).
Proof.
  induction a as [|c a IH]; intros b H.
  - cbn. reflexivity.
  - assert (Hn : strip_prefix TABLE_DIV ((c :: a) ++ TABLE_DIV ++ b) = None).
    { unfold TABLE_DIV. cbn [app strip_prefix]. destruct (32 =? c) eqn:E1; [|reflexivity]. apply Z.eqb_eq in E1. subst c.
      destruct a as [|d a'].
      - cbn [app]. reflexivity.
      - cbn [app]. cbn [no_sp_bar] in H. apply andb_true_iff in H. destruct H as [H _].
        apply negb_true_iff in H. rewrite Z.eqb_refl in H. cbn [andb] in H.
        cbn [strip_prefix]. rewrite (Z.eqb_sym 124 d), H. reflexivity. }
    assert (Hr : no_sp_bar a = true).
    { destruct a as [|d a']; [reflexivity|]. cbn [no_sp_bar] in H. apply andb_true_iff in H. apply H. }
    change (split_div ((c :: a) ++ TABLE_DIV ++ b))
      with (match strip_prefix TABLE_DIV ((c :: a) ++ TABLE_DIV ++ b) with
            | Some rest => Some ([], rest)
            | None => match split_div (a ++ TABLE_DIV ++ b) with Some (x, y) => Some (c :: x, y) | None => None end
            end).
    rewrite Hn, IH by exact Hr. reflexivity.
Qed.

Theorem row_split3 f1 f2 f3 : no_sp_bar f1 = true -> no_sp_bar f2 = true ->
  splitn 3 (f1 ++ TABLE_DIV ++ f2 ++ TABLE_DIV ++ f3) = [f1; f2; f3].
Proof.
  intros H1 H2. cbn [splitn]. rewrite split_div_field by exact H1. rewrite split_div_field by exact H2. reflexivity.
Qed.
Lemma row_split2 f1 f2 : no_sp_bar f1 = true -> splitn 2 (f1 ++ TABLE_DIV ++ f2) = [f1; f2].
Proof. intros H1. cbn [splitn]. rewrite split_div_field by exact H1. reflexivity. Qed.

Lemma no_bar_no_sp_bar a : forallb (fun c => negb (c =? 124)) a = true -> no_sp_bar a = true.
Proof.
  induction a as [|c [|d a] IH]; intro H; try reflexivity.
  cbn [forallb] in H. apply andb_true_iff in H. destruct H as [_ H]. cbn [no_sp_bar]. apply andb_true_iff. split.
  - cbn [forallb] in H. apply andb_true_iff in H. destruct H as [Hd _]. apply negb_true_iff in Hd. rewrite Hd, andb_false_r. reflexivity.
  - apply IH. exact H.
Qed.
Lemma digits_no_bar u s : forallb (is_digit_char u) s = true -> forallb (fun c => negb (c =? 124)) s = true.
Proof. apply forallb_impl. intros x H. apply digit_char_range in H. lia. Qed.

Definition no_ws (s : str) : bool := forallb (fun c => negb (is_ws c)) s.

Lemma no_ws_pad_no_sp_bar l k : no_ws l = true -> no_sp_bar (l ++ repeat 32 k) = true.
Proof.
  induction l as [|c l IH]; intro H.
  - cbn [app]. apply no_bar_no_sp_bar, forallb_repeat. reflexivity.
  - apply forallb_cons_iff in H. destruct H as [Hc Hl].
    specialize (IH Hl). cbn [app]. destruct (l ++ repeat 32 k) as [|d r] eqn:E; [reflexivity|].
    cbn [no_sp_bar]. replace (c =? 32) with false by (unfold is_ws in Hc; lia). exact IH.
Qed.
Lemma no_ws_edges s : no_ws s = true -> edges s.
Proof.
  intros H c Hc. unfold no_ws in H. rewrite forallb_forall in H. apply negb_true_iff, H.
  destruct Hc as [Hc|Hc]; [destruct s; inversion Hc; left; reflexivity|].
  apply in_rev. destruct (rev s); inversion Hc. left; reflexivity.
Qed.
Lemma spaces_ws k : forallb is_ws (repeat 32 k) = true.
Proof. apply forallb_repeat. reflexivity. Qed.
Lemma trim_pad_left s k : no_ws s = true -> trim (repeat 32 k ++ s) = s.
Proof. intro H. rewrite <- (app_nil_r s) at 1. exact (trim_core _ s [] (spaces_ws k) eq_refl (no_ws_edges s H)). Qed.
Lemma trim_pad_right s k : no_ws s = true -> trim (s ++ repeat 32 k) = s.
Proof. intro H. exact (trim_core [] s _ eq_refl (spaces_ws k) (no_ws_edges s H)). Qed.

Lemma is_ws_graph c : 33 <= c <= 126 -> is_ws c = false.
Proof.
  intro H. unfold is_ws. lia.
Qed.
Lemma digits_no_ws u s : forallb (is_digit_char u) s = true -> no_ws s = true.
Proof. apply forallb_impl. intros x H. apply digit_char_range in H. apply negb_true_iff. apply is_ws_graph. lia. Qed.

Lemma keep_line_intro l c : In c l -> is_ws c = false -> starts_with 35 l = false -> keep_line l = true.
Proof.
  intros Hin Hc Hs. unfold keep_line. rewrite Hs. cbn [negb andb].
  destruct (trim l) as [|x r] eqn:E; [|reflexivity]. exfalso. unfold trim in E.
  destruct (trim_start_spec l) as (pre & E1 & Hpre & Hhd). destruct (trim_end_spec (trim_start l)) as (post & E2 & Hpost & _).
  rewrite E in E2. cbn [app] in E2. rewrite E1 in Hin. apply in_app_or in Hin.
  destruct Hin as [Hin|Hin]; [rewrite (Hpre c Hin) in Hc|rewrite E2 in Hin; rewrite (Hpost c Hin) in Hc]; discriminate.
Qed.

Definition nl_free (l : str) : bool := forallb (fun c => negb (c =? 10) && negb (c =? 13)) l.

(* [split_nl] has the body of [SourcePos.lines_of], not of [ObjText.lines_of] *)
Lemma split_nl_nonempty s : split_nl s <> [].
Proof. exact (lines_of_nonempty s). Qed.
Lemma split_nl_app a : forall r, nl_free a = true -> split_nl (a ++ 10 :: r) = a :: split_nl r.
Proof.
  induction a as [|c a IH]; intros r H; [reflexivity|].
  unfold nl_free in H. cbn [forallb] in H. apply andb_true_iff in H. destruct H as [Hc Ha].
  apply andb_true_iff in Hc. destruct Hc as [Hc _]. apply negb_true_iff in Hc.
  cbn [app split_nl]. rewrite Hc. rewrite IH by exact Ha. reflexivity.
Qed.
Lemma split_nl_free a : nl_free a = true -> split_nl a = [a].
Proof.
  induction a as [|c a IH]; intro H; [reflexivity|].
  unfold nl_free in H. cbn [forallb] in H. apply andb_true_iff in H. destruct H as [Hc Ha].
  apply andb_true_iff in Hc. destruct Hc as [Hc _]. apply negb_true_iff in Hc.
  cbn [split_nl]. rewrite Hc. rewrite IH by exact Ha. reflexivity.
Qed.
(* [strip_cr] matches on the literal 13, that is on the binary digits of the last character *)
Lemma strip_cr_eq l : strip_cr l = match rev l with c :: a => if c =? 13 then rev a else l | [] => l end.
Proof.
  unfold strip_cr. destruct (rev l) as [|c a]; [reflexivity|]. destruct (Z.eqb_spec c 13) as [->|N]; [reflexivity|].
  destruct c as [|p|p]; try reflexivity.
  destruct p as [p|p|]; try reflexivity; destruct p as [p|p|]; try reflexivity; destruct p as [p|p|]; try reflexivity;
    destruct p as [p|p|]; try reflexivity. contradiction N. reflexivity.
Qed.
Lemma strip_cr_free l : nl_free l = true -> strip_cr l = l.
Proof.
  intro H. rewrite strip_cr_eq. destruct (rev l) as [|c r] eqn:E; [reflexivity|].
  assert (Hin : In c l) by (apply in_rev; rewrite E; left; reflexivity).
  unfold nl_free in H. rewrite forallb_forall in H. specialize (H c Hin). replace (c =? 13) with false by lia. reflexivity.
Qed.

Theorem lines_join Ls : forall Llast, Forall (fun l => nl_free l = true) Ls -> nl_free Llast = true -> Llast <> [] ->
  lines (flat_map ln Ls ++ Llast) = Ls ++ [Llast].
Proof.
  unfold lines. induction Ls as [|l Ls IH]; intros Llast HL Hl Hne.
  - cbn [flat_map app]. rewrite split_nl_free by exact Hl. destruct Llast; [contradiction|reflexivity].
  - inversion HL as [|? ? Hl0 HL']; subst. cbn [flat_map]. unfold ln at 1. rewrite <- !app_assoc. cbn [app].
    rewrite split_nl_app by exact Hl0.
    pose proof (split_nl_nonempty (flat_map ln Ls ++ Llast)) as Hn.
    specialize (IH Llast HL' Hl Hne).
    destruct (split_nl (flat_map ln Ls ++ Llast)) as [|x xs]; [contradiction|].
    change (lines_of (l :: x :: xs)) with (strip_cr l :: lines_of (x :: xs)).
    rewrite IH, strip_cr_free by exact Hl0. reflexivity.
Qed.

Lemma trim_text h x c w : is_ws h = false -> is_ws c = false -> forallb is_ws w = true ->
  trim ((h :: x) ++ [c] ++ w) = (h :: x) ++ [c].
Proof.
  intros Hh Hc Hw. rewrite app_assoc. apply (trim_core [] _ w eq_refl Hw).
  intros d [Hd|Hd]; [inversion Hd; subst; exact Hh|]. rewrite rev_app_distr in Hd. inversion Hd; subst. exact Hc.
Qed.

Lemma nl_free_app a b : nl_free (a ++ b) = nl_free a && nl_free b.
Proof. unfold nl_free. apply forallb_app. Qed.
Lemma nl_free_no_ws s : no_ws s = true -> nl_free s = true.
Proof.
  apply forallb_impl. intros x H. unfold is_ws in H. lia.
Qed.
Lemma nl_free_printable s : forallb printable s = true -> nl_free s = true.
Proof.
  apply forallb_impl. intros x H. unfold printable in H. lia.
Qed.
Lemma nl_free_spaces k : nl_free (repeat 32 k) = true.
Proof. apply forallb_repeat. reflexivity. Qed.

