(* TrapOsProofs.v — C12 at HALT and at exceptions, over today's OS image: the real step at an exception IS the trap
   entry through the exception vector (TrapFlagProofs.v), and the handler is LEA msg ; PUTS ; HALT. *)
From Coq Require Import ZArith List Bool Lia String Ascii FMapPositive.
From Gen Require Import Constants OsImage.
From Model Require Import Tree Bits Word Instr Sim Load.
From Proofs Require Import TextFacts SimHoare PsrBits SimAccess SimStep OsProofs OsContracts TrapFlagProofs.
Import ListNotations.
Open Scope Z_scope.

Definition label_addr (name : string) : option Z :=
  let cps := map (fun c => Z.of_nat (nat_of_ascii c)) (list_ascii_of_string name) in
  option_map snd (find (fun p => if list_eq_dec Z.eq_dec (fst p) cps then true else false) os_labels).

Fixpoint os_chars (fuel : nat) (a : Z) : option (list Z) :=
  match fuel with
  | O => None
  | S k => match os_word a with
           | Some c => if c =? 0 then Some []
                       else if (0 <? c) && (c <? 65536) then option_map (cons c) (os_chars k (a + 1)) else None
           | None => None
           end
  end.
Definition os_string (name : string) : list Z :=
  match label_addr name with
  | Some a => match os_chars 128 a with Some cs => cs | None => [] end
  | None => []
  end.

(* the message the OS prints for an exception: the string at the label the handler loads *)
Definition exc_msg (x : simerr) : list Z :=
  match x with
  | PrivilegeViolation => os_string "S_EXC_PRIVL"
  | IllegalOpcode | InvalidInstrFormat => os_string "S_EXC_ILLOP"
  | AccessViolation => os_string "S_EXC_ACV"
  | _ => []
  end.

Definition kreal (K : konst) : konst := mkK (k_srd K) (k_al K) true (k_dbg K) (k_ign K).
Lemma setr_st K m rs pc psr F T q buf :
  setr true (st K m rs pc psr F T q buf) = st (kreal K) m rs pc psr F T q buf.
Proof. reflexivity. Qed.

Lemma os_str_range cs : forall sa, os_str sa cs = true -> 0 <= sa < 1024 /\ sa + Z.of_nat (List.length cs) < 1024.
Proof.
  induction cs as [|x r IH]; intros sa Hs; cbn [os_str List.length] in *;
    destruct (os_word sa) as [w|] eqn:Hw; try discriminate; pose proof (os_word_range _ _ Hw).
  - lia.
  - apply andb_prop in Hs. destruct Hs as [_ Hs]. specialize (IH _ Hs). lia.
Qed.

(* h: LEA R0,msg ; PUTS ; HALT *)
Lemma handler_at K sc t kd h sa cs m r0 r1 r2 r3 r4 r5 r7 P c F T q buf sp Post :
  os_at h (OLea 0 sa) (h + 1) -> os_word (h + 1) = Some 61474 -> os_word (h + 2) = Some 61477 -> os_str sa cs = true ->
  k_real K = true -> psr_privileged P = true -> 1033 <= sp <= 12288 -> 0 <= f_fno F ->
  ds_free_from sc t (13 * List.length cs + 17) ->
  (forall t' r0' r6' r7' psr' F', t' = (t + (13 * List.length cs + 17))%nat -> f_mcr F' = false ->
     aruns sc t' sp kd (st K m [r0'; r1; r2; r3; r4; r5; r6'; r7'] 673 psr' F' T q (buf ++ low8 cs)) Post) ->
  aruns sc t sp kd (st K m [r0; r1; r2; r3; r4; r5; new_init sp; r7] h (psr_set_cc P c) F T q buf) Post.
Proof.
  intros H0 H1 H2 Hs Hr HP Hsp Hfno Hdf Hk. apply a_os. intros Hos.
  pose proof (os_word_range _ _ H1) as R1. pose proof (os_word_range _ _ H2) as R2. pose proof (os_str_range cs sa Hs) as Rs.
  destruct (os_str_at m cs sa Hos Hs) as [Hstr Hok].
  eapply a_step; [exact HP | exact H0 | exact Logic.I | ]. anorm.
  apply puts_call with (sp := sp) (cs := cs); try assumption; cbn [w_data new_init]; try lia;
    [apply at_trap_sup; assumption | apply (ds_free_sub _ _ _ _ _ Hdf); lia | ].
  intros t2 Ht2. rewrite (wrap16_small (h + 1 + 1)) by lia.
  apply halt_real with (sp := sp); try assumption;
    [replace (h + 1 + 1) with (h + 2) by lia; apply at_trap_sup; assumption | lia | ].
  intros r6' r7' psr' F' Hmcr. apply Hk; [lia | exact Hmcr].
Qed.

Definition exc_handler_addr (x : simerr) : Z :=
  match exc_vector x with Some v => match os_word v with Some a => a | None => 0 end | None => 0 end.
Lemma handler_run K sc t kd x vect m r0 r1 r2 r3 r4 r5 r7 P c F T q buf sp Post :
  exc_vector x = Some vect ->
  k_real K = true -> psr_privileged P = true -> 1033 <= sp <= 12288 -> 0 <= f_fno F ->
  ds_free_from sc t (13 * List.length (exc_msg x) + 17) ->
  (forall t' r0' r6' r7' psr' F', t' = (t + (13 * List.length (exc_msg x) + 17))%nat -> f_mcr F' = false ->
     aruns sc t' sp kd (st K m [r0'; r1; r2; r3; r4; r5; r6'; r7'] 673 psr' F' T q (buf ++ low8 (exc_msg x))) Post) ->
  aruns sc t sp kd (st K m [r0; r1; r2; r3; r4; r5; new_init sp; r7] (exc_handler_addr x) (psr_set_cc P c) F T q buf) Post.
Proof.
  intros Hx Hr HP Hsp Hfno Hdf Hk.
  destruct x; try discriminate Hx; set (h := exc_handler_addr _); vm_compute in h; subst h;
    (eapply handler_at; [reflexivity | reflexivity | reflexivity | | eassumption ..]; vm_compute; reflexivity).
Qed.

(* the state in which the machine under virtual traps stopped: [user_ready] but for the PC, which may be anywhere (a
   jump out of user space faults at the fetch) *)
Record stop_ready (s : sim) (sp : Z) (q buf : list Z) : Prop := mkSR {
  sr_os : os_mem (s_mem s);
  sr_strict : fl_strict (s_flags s) = false;
  sr_ireg : s_ireg s = default_ireg;
  sr_devs : s_devs s = kdevs q buf;
  sr_regs : List.length (s_regs s) = 8%nat;
  sr_user : psr_privileged (s_psr s) = false;
  sr_ssp : s_saved_sp s = new_init sp;
  sr_fno : 0 <= s_frame_no s }.

Theorem exception_prints sc t s s' x vect sp q buf :
  step_in (sc t) (setr false s) = (s', OErr x) -> exc_vector x = Some vect ->
  stop_ready s' sp q buf -> OS_END + 11 <= sp <= USER_START ->
  ds_free_from sc (S t) (13 * List.length (exc_msg x) + 17) ->
  exists sf, run sc t (S (13 * List.length (exc_msg x) + 17)) (setr true s) = (sf, OOk) /\
    s_mcr sf = false /\ s_devs sf = kdevs q (buf ++ low8 (exc_msg x)) /\
    (forall a, in_user a = true -> mget (s_mem sf) a = mget (s_mem s') a) /\
    (forall k, 1 <= k <= 5 -> rget (s_regs sf) k = rget (s_regs s') k).
Proof.
  intros Hv Hx [Hos Hst Hir Hdv Hrg Hus Hssp Hfn] Hsp Hdf. unfold OS_END, USER_START, sim.USER_START in Hsp.
  apply step_in_err_inv in Hv.
  pose proof (exception_enters_os (sc t) (upd_obs s []) s' x vect Hv Hx) as Hreal.
  destruct (quiet_st s' sp q buf Hst Hir Hdv Hrg Hssp) as (K & m & r0 & r1 & r2 & r3 & r4 & r5 & r6 & r7 & pc & psr & F & T & -> & HF).
  cbn [s_mem s_psr s_frame_no st] in Hos, Hus, Hfn.
  assert (Hvr : 256 <= vect <= 258) by (destruct x; inversion Hx; lia).
  set (m1 := mset (mset m (sp - 1) (new_init psr)) (sp - 2) (new_init pc)).
  assert (Hos1 : os_mem m1) by (subst m1; apply os_mem_mset; [apply os_mem_mset; [exact Hos|lia]|lia]).
  assert (Hpc1 : w_data (mget m1 vect) = exc_handler_addr x).
  { unfold exc_handler_addr. rewrite Hx.
    destruct (os_word vect) as [a|] eqn:Hw.
    - rewrite (Hos1 vect a Hw). reflexivity.
    - exfalso. assert (vect = 256 \/ vect = 257 \/ vect = 258) as [->|[->| ->]] by lia; vm_compute in Hw; discriminate Hw. }
  destruct T as [ins pf obs].
  apply t_exact. eapply t_step.
  { unfold step_in at 1. change (upd_obs (setr true s) []) with (setr true (upd_obs s [])). rewrite Hreal, setr_st.
    rewrite <- handle_none_real by reflexivity.
    rewrite trap_entry_st; [ | reflexivity | | | unfold IO_START, sim.IO_START; lia ];
      rewrite Hus, HF; cbn [w_data new_init]; rewrite ?wrap16_small by lia; unfold IO_START, sim.IO_START; [ | lia | lia ].
    rewrite w_sub_new by lia. rewrite (wrap16_small (sp - 2)) by lia. fold m1. rewrite Hpc1. reflexivity. }
  pose proof (psr_priv_set psr) as HP.
  apply (a_run _ _ (sp - 2)); [exact Hos1|].
  apply (handler_run (kreal K)) with (vect := vect); try assumption; try reflexivity; try lia; [cbn [in_trap f_fno]; lia|].
  intros t' r0' r6' r7' psr' F' Ht' Hmcr. apply a_0. intros mf T' Hmf.
  split; [lia|]. split; [exact Hmcr|]. split; [reflexivity|]. split.
  - intros a Ha. cbn [s_mem retrace st]. rewrite (ms_user (sp - 2) _ _ _ ltac:(lia) Hmf a Ha). apply in_user_range in Ha.
    subst m1. cbn [s_mem st]. rewrite !mget_mset_other by lia. reflexivity.
  - intros k Hk.
    assert (k = 1 \/ k = 2 \/ k = 3 \/ k = 4 \/ k = 5) as [->|[->|[->|[->| ->]]]] by lia; reflexivity.
Qed.

Theorem halt_agrees sc t s sp q buf :
  user_ready s sp q buf -> OS_END + 2 <= sp <= USER_START ->
  mget (s_mem s) (s_pc s) = new_init 61477 ->
  (exists sv, step_in (sc t) (setr false s) = (sv, OHalt) /\
     s_pc sv = s_pc s /\ s_regs sv = s_regs s /\ s_psr sv = s_psr s /\ s_mem sv = s_mem s /\ s_devs sv = s_devs s /\
     s_mcr sv = s_mcr s /\ s_instrs sv = s_instrs s) /\
  (exists sf, run sc t 3 (setr true s) = (sf, OOk) /\
     s_mcr sf = false /\ s_devs sf = s_devs s /\
     (forall k, 0 <= k <= 5 -> rget (s_regs sf) k = rget (s_regs s) k) /\
     (forall a, in_user a = true -> mget (s_mem sf) a = mget (s_mem s) a)).
Proof.
  intros Hready Hsp Hw.
  assert (Hset : forall b, user_ready (setr b s) sp q buf) by (intro b; destruct Hready; constructor; assumption).
  split.
  - rewrite (halt_virtual_ready _ sp q buf _ (Hset false) eq_refl Hw). eexists. split; [reflexivity|]. repeat split.
  - destruct (halt_real_ready (setr true s) sp q buf sc t (Hset true) Hsp eq_refl Hw) as (sf & Hrun & A & B & C & D).
    exists sf. repeat split; try assumption. intros k Hk. apply C. lia.
Qed.
