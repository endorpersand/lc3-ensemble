(* RunProofs.v — the loop of model/Run.v against spec/RunSpec.v (C13).  Every induction over the
   loop goes through one unfolding equation, [run_loop_cons], whose body [iter_head] is
   characterised once in the vocabulary of the specification. *)
From Coq Require Import ZArith List Lia.
From Model Require Import Sim Run.
From Spec Require Import RunSpec.
From Proofs Require Import StepFrame.
Import ListNotations.
Open Scope Z_scope.

Lemma clear_if_frame_no b s : s_frame_no (clear_if b s) = s_frame_no s.
Proof. destruct b; reflexivity. Qed.
Lemma clear_if_instrs b s : s_instrs (clear_if b s) = s_instrs s.
Proof. destruct b; reflexivity. Qed.
Lemma clear_if_mcr_off b s : s_mcr s = false -> s_mcr (clear_if b s) = false.
Proof. destruct b; [reflexivity | auto]. Qed.
Lemma clear_if_true_mcr s : s_mcr (clear_if true s) = false.
Proof. reflexivity. Qed.
Lemma clear_if_obs b s o : clear_if b (upd_obs s o) = upd_obs (clear_if b s) o.
Proof. destruct b; reflexivity. Qed.

(* one pass under the tripwire [tw]: the call is left, with the state, the reason and the number
   (0 or 1) of instructions attempted, or the loop goes on from the state after the instruction *)
Definition iter_head (bps : list bp) (tw : sim -> bool) (it : iter) (s : sim) : (sim * stop * nat) + sim :=
  if negb (s_mcr (pre_state it s)) then inl (pre_state it s, SPause PMcrOff, O)
  else if negb (tw (pre_state it s)) then inl (pre_state it s, SPause PTripwire, O)
  else match exec_iter it s with
       | (s2, inl _) => if any_bp bps s2 then inl (s2, SPause PBreakpoint, 1%nat) else inr s2
       | (s2, inr BHalt) => inl (s2, SPause PHalt, 1%nat)
       | (s2, inr (BErr e)) => inl (s2, SErr e, 1%nat)
       | (s2, inr BPanic) => inl (s2, SPanic, 1%nat)
       end.

Lemma run_loop_cons bps T k it rest s :
  run_loop bps T k (it :: rest) s =
  match iter_head bps (T k) it s with
  | inl (s', st, d) => (s', st, (d + k)%nat)
  | inr s2 => run_loop bps T (S k) rest s2
  end.
Proof.
  cbn [run_loop]. unfold iter_head, exec_iter, pre_state.
  destruct (negb (s_mcr (clear_if (it_pre it) s))); [reflexivity|].
  destruct (negb (T k (clear_if (it_pre it) s))); [reflexivity|].
  destruct (step (it_env it) (clear_if (it_mid it) (clear_if (it_pre it) s))) as [s2 [[]|[| e |]]];
    try reflexivity.
  destruct (any_bp bps s2); reflexivity.
Qed.

Lemma iter_head_ext bps tw tw' it s :
  tw (pre_state it s) = tw' (pre_state it s) -> iter_head bps tw it s = iter_head bps tw' it s.
Proof. unfold iter_head. intros ->. reflexivity. Qed.

(* going on is the body of [quiet_at] *)
Lemma iter_head_go bps tw it s s2 :
  iter_head bps tw it s = inr s2 <->
  s_mcr (pre_state it s) = true /\ tw (pre_state it s) = true /\
  exec_iter it s = (s2, inl tt) /\ any_bp bps s2 = false.
Proof.
  unfold iter_head. split.
  - destruct (s_mcr (pre_state it s)); [|discriminate].
    destruct (tw (pre_state it s)); [|discriminate]. cbn [negb].
    destruct (exec_iter it s) as [s3 [[]|[| e |]]]; try discriminate.
    destruct (any_bp bps s3) eqn:Hb; [discriminate|]. intro H. injection H as <-. auto.
  - intros (-> & -> & -> & ->). reflexivity.
Qed.

(* leaving is [stop_here] *)
Lemma stop_here_iff bps T j it s s' st n :
  stop_here bps T j it s s' st n <->
  exists d, iter_head bps (T j) it s = inl (s', st, d) /\ n = (d + j)%nat.
Proof.
  unfold iter_head. split.
  - intro H.
    destruct H as [Hm|Hm Ht|s' Hm Ht He|s' e Hm Ht He|s' Hm Ht He|s' Hm Ht He Hb]; rewrite Hm; cbn [negb];
      try (rewrite Ht; cbn [negb]; try rewrite He; try rewrite Hb); eexists; split; reflexivity.
  - intros (d & E & ->).
    destruct (s_mcr (pre_state it s)) eqn:Hm; cbn [negb] in E.
    2:{ injection E as <- <- <-. apply SH_mcr, Hm. }
    destruct (T j (pre_state it s)) eqn:Ht; cbn [negb] in E.
    2:{ injection E as <- <- <-. apply SH_trip; assumption. }
    destruct (exec_iter it s) as [s2 [[]|[| e |]]] eqn:He.
    + destruct (any_bp bps s2) eqn:Hb; [|discriminate]. injection E as <- <- <-. apply SH_bp; assumption.
    + injection E as <- <- <-. apply SH_halt; assumption.
    + injection E as <- <- <-. apply SH_err; assumption.
    + injection E as <- <- <-. apply SH_panic; assumption.
Qed.

Lemma iter_head_mcr_off bps tw it s :
  s_mcr (pre_state it s) = false -> iter_head bps tw it s = inl (pre_state it s, SPause PMcrOff, O).
Proof. unfold iter_head. intros ->. reflexivity. Qed.

Lemma iter_head_left bps tw it s s1 st d :
  iter_head bps tw it s = inl (s1, st, d) ->
  (d = O /\ s1 = pre_state it s /\ (st = SPause PTripwire -> s_mcr s1 = true /\ tw s1 = false)) \/
  (d = 1%nat /\ st <> SPause PTripwire /\ tw (pre_state it s) = true /\ exists r, exec_iter it s = (s1, r)).
Proof.
  unfold iter_head. intro E.
  destruct (s_mcr (pre_state it s)) eqn:Hm; cbn [negb] in E.
  2:{ injection E as <- <- <-. left. split; [reflexivity|]. split; [reflexivity | discriminate]. }
  destruct (tw (pre_state it s)) eqn:Ht; cbn [negb] in E.
  2:{ injection E as <- <- <-. left. auto. }
  right. destruct (exec_iter it s) as [s2 [[]|[| e |]]].
  1: destruct (any_bp bps s2); [|discriminate].
  all: injection E as <- <- <-; (split; [reflexivity|]); (split; [discriminate|]); eauto.
Qed.

Lemma quiet_at_S bps T it rest s s2 i :
  exec_iter it s = (s2, inl tt) ->
  (quiet_at bps T (it :: rest) s (S i) <-> quiet_at bps (fun j => T (S j)) rest s2 i).
Proof. intro He. unfold quiet_at. cbn [nth_error iter_steps]. rewrite He. reflexivity. Qed.

Lemma stop_here_S bps T j it b s' st n :
  stop_here bps T (S j) it b s' st n <->
  exists m, n = S m /\ stop_here bps (fun j => T (S j)) j it b s' st m.
Proof.
  rewrite stop_here_iff. split.
  - intros (d & E & ->). exists (d + j)%nat. split; [lia|]. apply stop_here_iff. eauto.
  - intros (m & -> & H). apply stop_here_iff in H. destruct H as (d & E & ->). exists d. split; [exact E | lia].
Qed.

Lemma run_loop_shift bps T : forall its k s,
  run_loop bps T (S k) its s =
  let '(s', st, n) := run_loop bps (fun j => T (S j)) k its s in (s', st, S n).
Proof.
  induction its as [|it rest IH]; intros k s; [reflexivity|].
  rewrite !run_loop_cons. destruct (iter_head bps (T (S k)) it s) as [[[s1 st] d]|s2]; [|apply IH].
  rewrite Nat.add_succ_r. reflexivity.
Qed.

(* [first_stop] unfolds along the list exactly as the loop does *)
Lemma first_stop_cons bps T it rest s s' st n :
  first_stop bps T (it :: rest) s s' st n <->
  match iter_head bps (T O) it s with
  | inl r => r = (s', st, n)
  | inr s2 => exists m, n = S m /\ first_stop bps (fun j => T (S j)) rest s2 s' st m
  end.
Proof.
  split.
  - intros (j & it' & b & Hq & Hn & Hi & Hs). destruct j as [|j].
    + cbn in Hn, Hi. injection Hn as <-. injection Hi as <-.
      apply stop_here_iff in Hs. destruct Hs as (d & -> & ->). rewrite Nat.add_0_r. reflexivity.
    + destruct (Hq O ltac:(lia)) as (it0 & b0 & s2 & Hn0 & Hi0 & Hgo).
      cbn in Hn0, Hi0. injection Hn0 as <-. injection Hi0 as <-.
      rewrite (proj2 (iter_head_go bps (T O) it s s2) Hgo). destruct Hgo as (_ & _ & He & _).
      apply stop_here_S in Hs. destruct Hs as (m & -> & Hs). exists m. split; [reflexivity|].
      cbn [nth_error iter_steps] in Hn, Hi. rewrite He in Hi.
      exists j, it', b. repeat split; try assumption.
      intros i Hlt. apply (quiet_at_S bps T it rest s s2 i He), Hq. lia.
  - destruct (iter_head bps (T O) it s) as [r|s2] eqn:E.
    + intros ->. exists O, it, s. repeat split; [intros i Hi; lia|].
      apply stop_here_iff. exists n. rewrite Nat.add_0_r. auto.
    + intros (m & -> & j & it' & b & Hq & Hn & Hi & Hs).
      apply iter_head_go in E. pose proof E as (_ & _ & He & _).
      exists (S j), it', b. repeat split.
      * intros [|i] Hlt; [exists it, s, s2; auto|]. apply (quiet_at_S bps T it rest s s2 i He), Hq. lia.
      * exact Hn.
      * cbn [iter_steps]. rewrite He. exact Hi.
      * apply stop_here_S. eauto.
Qed.

Lemma run_loop_iff bps T its s s' st n : st <> SFuel ->
  (run_loop bps T O its s = (s', st, n) <-> first_stop bps T its s s' st n).
Proof.
  intro Hf. revert T s n. induction its as [|it rest IH]; intros T s n.
  - cbn [run_loop]. split.
    + intro H. injection H as _ <- _. congruence.
    + intros (j & it & b & _ & Hn & _). destruct j; discriminate.
  - rewrite run_loop_cons, first_stop_cons.
    destruct (iter_head bps (T O) it s) as [[[s1 st1] d]|s2]; [rewrite Nat.add_0_r; reflexivity|].
    rewrite run_loop_shift.
    destruct (run_loop bps (fun j => T (S j)) 0 rest s2) as [[s3 st3] m] eqn:E. split.
    + intro H. injection H as -> -> <-. exists m. split; [reflexivity|]. apply IH, E.
    + intros (m' & -> & Hfs). apply IH in Hfs. rewrite E in Hfs. injection Hfs as -> -> ->. reflexivity.
Qed.

Lemma first_stop_not_fuel bps T its s s' st n : first_stop bps T its s s' st n -> st <> SFuel.
Proof. intros (j & it & b & _ & _ & _ & Hs). destruct Hs; discriminate. Qed.

Lemma run_while_finish bps T its sp :
  run_while bps T its sp =
  (let '(s1, st, n) := run_loop bps T O its (start (fst sp)) in (finish s1 st, n)).
Proof.
  unfold run_while, start. destruct (run_loop bps T 0 its (upd_mcr (upd_obs (fst sp) []) true)) as [[s1 st] n].
  destruct st; reflexivity.
Qed.

Lemma run_while_loop bps T its sp sp' r n :
  run_while bps T its sp = (sp', r, n) <->
  exists s1 st, run_loop bps T O its (start (fst sp)) = (s1, st, n) /\ finish s1 st = (sp', r).
Proof.
  rewrite run_while_finish. destruct (run_loop bps T 0 its (start (fst sp))) as [[s1 st] n0]. split.
  - intro H. injection H as H <-. eauto.
  - intros (s1' & st' & E & F). injection E as -> -> ->. rewrite F. reflexivity.
Qed.

Lemma finish_fuel s1 st x : finish s1 st = (x, RFuel) -> st = SFuel.
Proof. destruct st; cbn; intro H; inversion H; reflexivity. Qed.

Lemma run_while_is_iter bps T its sp sp' r n :
  r <> RFuel ->
  (run_while bps T its sp = (sp', r, n) <->
   exists s1 st, first_stop bps T its (start (fst sp)) s1 st n /\ finish s1 st = (sp', r)).
Proof.
  intro Hr. rewrite run_while_loop.
  assert (Hf : forall s1 st, finish s1 st = (sp', r) -> st <> SFuel).
  { intros s1 st Hfin ->. apply Hr. cbn in Hfin. congruence. }
  split; intros (s1 & st & H & Hfin); exists s1, st;
    (split; [apply (run_loop_iff _ _ _ _ _ _ _ (Hf _ _ Hfin)), H | exact Hfin]).
Qed.

Lemma first_stop_count bps T its s s' st n :
  first_stop bps T its s s' st n ->
  exists j, (forall i, (i < j)%nat -> quiet_at bps T its s i) /\ (n = j \/ n = S j).
Proof.
  intros (j & it & b & Hq & _ & _ & Hs). exists j. split; [exact Hq|].
  destruct Hs; auto.
Qed.

Lemma first_stop_tripwire bps T its s s' n :
  first_stop bps T its s s' (SPause PTripwire) n ->
  exists it b, nth_error its n = Some it /\ iter_steps its n s = Some b /\ s' = pre_state it b /\
    s_mcr s' = true /\ T n s' = false /\ (forall i, (i < n)%nat -> quiet_at bps T its s i).
Proof.
  intros (j & it & b & Hq & Hn & Hi & Hs). inversion Hs; subst.
  exists it, b. repeat split; assumption.
Qed.

(* [p] is the depth test of step_over (deeper than at the start) / step_out (at least as deep) *)
Lemma depth_tripwire_call bps T p its sp sp' r n :
  (forall s, T O s = true) -> (forall k s, T (S k) s = p (s_frame_no s)) ->
  run_while bps T its sp = (sp', r, n) -> r <> RFuel ->
  exists s1 st, first_stop bps T its (start (fst sp)) s1 st n /\ finish s1 st = (sp', r) /\
    (st = SPause PTripwire ->
       (1 <= n)%nat /\ p (s_frame_no s1) = false /\
       forall i b, (1 <= i < n)%nat -> iter_steps its i (start (fst sp)) = Some b -> p (s_frame_no b) = true).
Proof.
  intros T0 TS H Hr. apply (run_while_is_iter _ _ _ _ _ _ _ Hr) in H.
  destruct H as (s1 & st & Hfs & Hfin). exists s1, st. split; [exact Hfs|]. split; [exact Hfin|].
  intros ->. destruct (first_stop_tripwire _ _ _ _ _ _ Hfs) as (it & b & Hn & Hi & Es & Hm & Ht & Hq).
  destruct n as [|n]; [rewrite T0 in Ht; discriminate|]. rewrite TS in Ht.
  split; [lia|]. split; [exact Ht|].
  intros i bi [Hi1 Hi2] Hbi. destruct (Hq i Hi2) as (iti & b0 & b0' & _ & Hb0 & _ & Hti & _).
  rewrite Hbi in Hb0. injection Hb0 as <-.
  destruct i as [|i]; [lia|]. rewrite TS in Hti. unfold pre_state in Hti.
  rewrite clear_if_frame_no in Hti. exact Hti.
Qed.

Lemma run_loop_mcr_off bps T k its s : s_mcr s = false -> snd (run_loop bps T k its s) = k.
Proof.
  intro Hm. destruct its as [|it rest]; [reflexivity|].
  rewrite run_loop_cons, iter_head_mcr_off; [reflexivity | apply clear_if_mcr_off, Hm].
Qed.

Lemma mcr_pre_zero_more bps T : forall its k s j it,
  nth_error its j = Some it -> it_pre it = true -> (snd (run_loop bps T k its s) <= k + j)%nat.
Proof.
  induction its as [|i0 rest IH]; intros k s j it Hn Hp; [destruct j; discriminate|].
  rewrite run_loop_cons. destruct j as [|j]; cbn [nth_error] in Hn.
  - injection Hn as ->. rewrite iter_head_mcr_off; [cbn; lia | unfold pre_state; rewrite Hp; apply clear_if_true_mcr].
  - destruct (iter_head bps (T k) i0 s) as [[[s1 st] d]|s2] eqn:E.
    + destruct (iter_head_left _ _ _ _ _ _ _ E) as [(-> & _)|(-> & _)]; cbn; lia.
    + specialize (IH (S k) s2 j it Hn Hp). lia.
Qed.

Lemma mcr_mid_one_more bps T : forall its k s j it,
  nth_error its j = Some it ->
  (forall b b', iter_steps its j s = Some b -> exec_iter it b = (b', inl tt) -> s_mcr b' = false) ->
  (snd (run_loop bps T k its s) <= S (k + j))%nat.
Proof.
  induction its as [|i0 rest IH]; intros k s j it Hn Hoff; [destruct j; discriminate|].
  rewrite run_loop_cons. destruct (iter_head bps (T k) i0 s) as [[[s1 st] d]|s2] eqn:E.
  - destruct (iter_head_left _ _ _ _ _ _ _ E) as [(-> & _)|(-> & _)]; cbn; lia.
  - apply iter_head_go in E. destruct E as (_ & _ & He & _). destruct j as [|j]; cbn [nth_error] in Hn.
    + injection Hn as ->. rewrite (run_loop_mcr_off _ _ _ _ _ (Hoff s s2 eq_refl He)). lia.
    + cbn [iter_steps] in Hoff. rewrite He in Hoff. specialize (IH (S k) s2 j it Hn Hoff). lia.
Qed.

Lemma run_while_mcr_pre bps T its sp sp' r n j it :
  run_while bps T its sp = (sp', r, n) -> nth_error its j = Some it -> it_pre it = true -> (n <= j)%nat.
Proof.
  intros H Hn Hp. apply run_while_loop in H. destruct H as (s1 & st & E & _).
  pose proof (mcr_pre_zero_more bps T its O (start (fst sp)) j it Hn Hp) as B. rewrite E in B. exact B.
Qed.

Lemma run_while_mcr_mid bps T its sp sp' r n j it :
  run_while bps T its sp = (sp', r, n) -> nth_error its j = Some it ->
  (forall b b', iter_steps its j (start (fst sp)) = Some b -> exec_iter it b = (b', inl tt) -> s_mcr b' = false) ->
  (n <= S j)%nat.
Proof.
  intros H Hn Hoff. apply run_while_loop in H. destruct H as (s1 & st & E & _).
  pose proof (mcr_mid_one_more bps T its O (start (fst sp)) j it Hn Hoff) as B. rewrite E in B. exact B.
Qed.

(* instructions completed since the counter stood at i0, as run_with_limit computes it *)
Definition instrs_since (i0 : Z) (s : sim) : Z := (s_instrs s - i0) mod Run.U64.

Lemma instrs_since_pre i0 it s : instrs_since i0 (pre_state it s) = instrs_since i0 s.
Proof. unfold instrs_since, pre_state. rewrite clear_if_instrs. reflexivity. Qed.

Lemma trip_limit_pre i0 max k it s : trip_limit i0 max k (pre_state it s) = (instrs_since i0 s <? max).
Proof. rewrite <- (instrs_since_pre i0 it s). reflexivity. Qed.

Lemma exec_iter_instrs it s s2 r : exec_iter it s = (s2, r) ->
  (forall i0, instrs_since i0 s2 = instrs_since i0 s) \/
  (forall i0, instrs_since i0 s2 = (instrs_since i0 s + 1) mod Run.U64).
Proof.
  unfold exec_iter, pre_state, instrs_since. intro He. apply step_instrs in He. unfold instrs_post in He.
  rewrite !clear_if_instrs in He. destruct He as [->|[_ ->]]; [left; reflexivity | right].
  (* [instrs_post] writes 2^64 out *)
  intro i0. change 18446744073709551616 with Run.U64. rewrite Zminus_mod_idemp_l, Zplus_mod_idemp_l. f_equal. lia.
Qed.

Lemma limit_step i0 max k it s s2 r :
  trip_limit i0 max k (pre_state it s) = true -> exec_iter it s = (s2, r) ->
  instrs_since i0 s2 <= max.
Proof.
  rewrite trip_limit_pre, Z.ltb_lt. intros Ht He. destruct (exec_iter_instrs _ _ _ _ He) as [E|E]; rewrite E; [lia|].
  unfold instrs_since, Run.U64 in *. Z.div_mod_to_equations. lia.
Qed.

Lemma limit_loop bps i0 max : forall its k s s' st n,
  run_loop bps (trip_limit i0 max) k its s = (s', st, n) ->
  instrs_since i0 s <= max ->
  instrs_since i0 s' <= max /\ (st = SPause PTripwire -> instrs_since i0 s' = max).
Proof.
  induction its as [|it rest IH]; intros k s s' st n H Hd.
  - injection H as <- <- _. split; [exact Hd | discriminate].
  - rewrite run_loop_cons in H.
    destruct (iter_head bps (trip_limit i0 max k) it s) as [[[s1 st1] d]|s2] eqn:E.
    + injection H as <- <- _.
      destruct (iter_head_left _ _ _ _ _ _ _ E) as [(_ & -> & Ht)|(_ & Hst & Ht & r & He)].
      * rewrite trip_limit_pre in Ht. rewrite instrs_since_pre. split; [exact Hd|].
        intro Hst. apply Ht in Hst. destruct Hst as [_ Hst]. apply Z.ltb_ge in Hst. lia.
      * split; [exact (limit_step _ _ _ _ _ _ _ Ht He) | intro; contradiction].
    + apply iter_head_go in E. destruct E as (_ & Ht & He & _).
      exact (IH _ _ _ _ _ H (limit_step _ _ _ _ _ _ _ Ht He)).
Qed.

Lemma finish_instrs s1 st : s_instrs (fst (fst (finish s1 st))) = s_instrs s1.
Proof. destruct st; reflexivity. Qed.

Lemma finish_tripwire s1 st sp' :
  finish s1 st = (sp', ROk) -> snd sp' = PTripwire -> st = SPause PTripwire /\ sp' = (upd_mcr s1 false, PTripwire).
Proof. destruct st; cbn; intro H; inversion H; subst. cbn. intros ->. auto. Qed.

Lemma run_with_limit_count bps max its sp sp' r n :
  0 <= max -> run_with_limit bps max its sp = (sp', r, n) ->
  (s_instrs (fst sp') - s_instrs (fst sp)) mod Run.U64 <= max /\
  (r = ROk -> snd sp' = PTripwire -> (s_instrs (fst sp') - s_instrs (fst sp)) mod Run.U64 = max).
Proof.
  intros Hmax H. apply run_while_loop in H. destruct H as (s1 & st & E & F).
  assert (E0 : instrs_since (s_instrs (fst sp)) (start (fst sp)) <= max).
  { unfold instrs_since, start. cbn [s_instrs upd_mcr upd_obs]. rewrite Z.sub_diag. exact Hmax. }
  destruct (limit_loop bps _ max its _ _ _ _ _ E E0) as [A B].
  pose proof (finish_instrs s1 st) as Fi. rewrite F in Fi. cbn [fst] in Fi. rewrite Fi.
  split; [exact A|]. intros -> Hp. apply B, (finish_tripwire _ _ _ F Hp).
Qed.

Lemma any_bp_obs bps s o : any_bp bps (upd_obs s o) = any_bp bps s.
Proof.
  unfold any_bp. induction bps as [|b r IH]; [reflexivity|].
  cbn [existsb]. rewrite IH. destruct b; reflexivity.
Qed.
Lemma pre_state_obs it s o : pre_state it (upd_obs s o) = upd_obs (pre_state it s) o.
Proof. apply clear_if_obs. Qed.
Lemma exec_iter_obs it s o :
  exists o', exec_iter it (upd_obs s o) = (upd_obs (fst (exec_iter it s)) o', snd (exec_iter it s)).
Proof. unfold exec_iter. rewrite pre_state_obs, clear_if_obs. apply step_obs. Qed.

Definition trip_ignores_obs (T : tripwire) : Prop := forall k x o, T k (upd_obs x o) = T k x.

Lemma iter_head_obs bps tw it s o : (forall x o, tw (upd_obs x o) = tw x) ->
  exists o', iter_head bps tw it (upd_obs s o) =
    match iter_head bps tw it s with
    | inl (s1, st, d) => inl (upd_obs s1 o', st, d)
    | inr s2 => inr (upd_obs s2 o')
    end.
Proof.
  intro Htw. unfold iter_head. rewrite pre_state_obs, Htw.
  change (s_mcr (upd_obs (pre_state it s) o)) with (s_mcr (pre_state it s)).
  destruct (negb (s_mcr (pre_state it s))); [exists o; reflexivity|].
  destruct (negb (tw (pre_state it s))); [exists o; reflexivity|].
  destruct (exec_iter_obs it s o) as [o1 E1]. exists o1. rewrite E1.
  destruct (exec_iter it s) as [s2 [[]|[| e |]]]; cbn [fst snd]; try reflexivity.
  rewrite any_bp_obs. destruct (any_bp bps s2); reflexivity.
Qed.

Lemma run_loop_obs bps T : trip_ignores_obs T -> forall its k s o s' st n,
  run_loop bps T k its s = (s', st, n) ->
  exists o', run_loop bps T k its (upd_obs s o) = (upd_obs s' o', st, n).
Proof.
  intro HT. induction its as [|it rest IH]; intros k s o s' st n H.
  - injection H as <- <- <-. exists o. reflexivity.
  - rewrite run_loop_cons in *. destruct (iter_head_obs bps (T k) it s o (HT k)) as [o1 E1]. rewrite E1.
    destruct (iter_head bps (T k) it s) as [[[s1 st1] d]|s2].
    + injection H as <- <- <-. exists o1. reflexivity.
    + exact (IH _ _ o1 _ _ _ H).
Qed.

Lemma trip_limit_ignores_obs i m : trip_ignores_obs (trip_limit i m).
Proof. intros k x o. reflexivity. Qed.
Lemma trip_over_ignores_obs d : trip_ignores_obs (trip_over d).
Proof. intros k x o. destruct k; reflexivity. Qed.
Lemma trip_out_ignores_obs d : trip_ignores_obs (trip_out d).
Proof. intros k x o. destruct k; reflexivity. Qed.
Lemma trip_true_ignores_obs : trip_ignores_obs trip_true.
Proof. intros k x o. reflexivity. Qed.
Lemma tw_eval_ignores_obs t : trip_ignores_obs (tw_eval t).
Proof. intros k x o. destruct t; reflexivity. Qed.

Lemma exec_iter_step_in it s o s' r :
  exec_iter it s = (s', r) ->
  exists o', step_in (it_env it) (clear_if (it_mid it) (pre_state it (upd_obs s o))) = (upd_obs s' o', SimHoare.outcome_of r).
Proof.
  (* step_in clears the observer first *)
  intro H. unfold step_in. rewrite pre_state_obs, clear_if_obs.
  change (upd_obs (upd_obs (clear_if (it_mid it) (pre_state it s)) o) []) with (upd_obs (clear_if (it_mid it) (pre_state it s)) []).
  rewrite <- clear_if_obs, <- pre_state_obs. fold (exec_iter it (upd_obs s [])).
  destruct (exec_iter_obs it s []) as [o' E]. rewrite E, H. cbn [fst snd]. exists o'.
  destruct r as [[]|[| e |]]; reflexivity.
Qed.

Lemma iter_steps_step_in : forall n its s o b,
  iter_steps its n s = Some b -> exists o', step_in_n its n (upd_obs s o) = Some (upd_obs b o').
Proof.
  induction n as [|n IH]; intros its s o b H.
  - cbn in *. inversion H; subst. exists o. reflexivity.
  - cbn [iter_steps step_in_n] in *. destruct its as [|it rest]; [discriminate|].
    destruct (exec_iter it s) as [s1 r] eqn:E. destruct r as [[]|]; [|discriminate].
    destruct (exec_iter_step_in it s o _ _ E) as [o1 E1]. rewrite E1. cbn [SimHoare.outcome_of].
    exact (IH rest s1 o1 b H).
Qed.

Lemma upd_obs_same s : upd_obs s (s_obs s) = s.
Proof. destruct s; reflexivity. Qed.

(* a tripwire T' that, counted c ahead, agrees with T on the states the run passes (of which [I] is
   what is known) gives the same run *)
Lemma run_loop_ext bps T T' c (I : sim -> Prop) :
  (forall j it x, I x -> T' (j + c)%nat (pre_state it x) = T j (pre_state it x)) ->
  (forall j it x x2, I x -> iter_head bps (T j) it x = inr x2 -> I x2) ->
  forall its k s, I s -> forall s' st n, run_loop bps T k its s = (s', st, n) ->
  run_loop bps T' (k + c) its s = (s', st, (n + c)%nat).
Proof.
  intros HT HI. induction its as [|it rest IH]; intros k s Hs s' st n H.
  - injection H as <- <- <-. reflexivity.
  - rewrite run_loop_cons in *. rewrite (iter_head_ext bps (T' (k + c)%nat) (T k) it s (HT k it s Hs)).
    destruct (iter_head bps (T k) it s) as [[[s1 st1] d]|s2] eqn:E.
    + injection H as <- <- <-. rewrite Nat.add_assoc. reflexivity.
    + exact (IH (S k) s2 (HI k it s s2 Hs E) _ _ _ H).
Qed.

(* a run pausing on T1, replayed under a T that lets through what T1 did, reaches the seam and goes on *)
Lemma tripwire_prefix bps T1 T its2 : forall its1 k s s1 n,
  run_loop bps T1 k its1 s = (s1, SPause PTripwire, n) ->
  (forall j x, (k <= j < n)%nat -> T1 j x = true -> T j x = true) ->
  exists m, n = (m + k)%nat /\ s_mcr s1 = true /\
    run_loop bps T k (firstn m its1 ++ its2) s = run_loop bps T n its2 s1.
Proof.
  induction its1 as [|it rest IH]; intros k s s1 n H HT.
  - inversion H.
  - rewrite run_loop_cons in H. destruct (iter_head bps (T1 k) it s) as [[[s' st'] d]|s2] eqn:E.
    + injection H as -> -> <-.
      destruct (iter_head_left _ _ _ _ _ _ _ E) as [(-> & -> & Ht)|(_ & Hst & _)]; [|contradiction].
      destruct (Ht eq_refl) as [Hm _]. exists O. split; [reflexivity|]. split; [exact Hm|].
      unfold pre_state in *. destruct (it_pre it); [discriminate Hm | reflexivity].
    + destruct (IH (S k) s2 s1 n H) as (m & -> & Hm1 & Hrun); [intros; apply HT; [lia | assumption]|].
      exists (S m). split; [lia|]. split; [exact Hm1|].
      cbn [firstn app]. rewrite run_loop_cons, <- Hrun.
      apply iter_head_go in E. pose proof E as (_ & Ht & _).
      rewrite (proj2 (iter_head_go bps (T k) it s s2)); [reflexivity|].
      destruct E as (A & _ & C). split; [exact A|]. split; [apply HT; [lia | exact Ht] | exact C].
Qed.

Lemma start_after_pause s1 : s_mcr s1 = true -> start (upd_mcr s1 false) = upd_obs s1 [].
Proof. destruct s1; cbn. intros ->. reflexivity. Qed.

Lemma finish_obs s o st :
  finish (upd_obs s o) st = let '(x, p, r) := finish s st in (upd_obs x o, p, r).
Proof. destruct st; reflexivity. Qed.

(* pause on T1, then resume under T2, against ONE call under a T that lets through what T1 did and
   from the seam on is T2 counted from 0, on the states the second segment passes ([I]): same end,
   up to the observer, which the resumed call clears at the seam *)
Lemma resume_with bps T T1 T2 (I : sim -> Prop) its1 its2 sp sp1 n1 sp2 r2 n2 :
  trip_ignores_obs T2 ->
  (forall j x, (j < n1)%nat -> T1 j x = true -> T j x = true) ->
  (forall j it x, I x -> T (j + n1)%nat (pre_state it x) = T2 j (pre_state it x)) ->
  (forall j it x x2, I x -> iter_head bps (T2 j) it x = inr x2 -> I x2) ->
  (forall s1, fst sp1 = upd_mcr s1 false -> I s1) ->
  run_while bps T1 its1 sp = (sp1, ROk, n1) -> snd sp1 = PTripwire ->
  run_while bps T2 its2 sp1 = (sp2, r2, n2) ->
  exists sp', run_while bps T (firstn n1 its1 ++ its2) sp = (sp', r2, (n1 + n2)%nat) /\
    snd sp' = snd sp2 /\ same_but_obs (fst sp') (fst sp2).
Proof.
  intros HT2 HT1 HT HI Hseam H1 Hp1 H2.
  apply run_while_loop in H1. destruct H1 as (s1 & st1 & E1 & F1).
  destruct (finish_tripwire _ _ _ F1 Hp1) as [-> ->].
  apply run_while_loop in H2. destruct H2 as (s2 & st2 & E2 & F2). cbn [fst] in *.
  destruct (tripwire_prefix bps T1 T its2 its1 O _ _ _ E1) as (m & En & Hm1 & Hrun).
  { intros j x Hj. apply HT1. lia. }
  rewrite Nat.add_0_r in En. subst m. rewrite (start_after_pause s1 Hm1) in E2.
  destruct (run_loop_obs bps _ HT2 its2 O _ (s_obs s1) _ _ _ E2) as [o' E2'].
  change (upd_obs (upd_obs s1 []) (s_obs s1)) with (upd_obs s1 (s_obs s1)) in E2'. rewrite upd_obs_same in E2'.
  apply (run_loop_ext bps T2 T n1 I HT HI its2 O s1 (Hseam s1 eq_refl)) in E2'.
  destruct sp2 as [x2 p2]. exists (upd_obs x2 o', p2). split; [|split; reflexivity].
  apply run_while_loop. exists (upd_obs s2 o'), st2.
  split; [rewrite Hrun, Nat.add_comm; exact E2' | rewrite finish_obs, F2; reflexivity].
Qed.

Lemma trip_seq_first n1 T1 T2 j x : (j < n1)%nat -> trip_seq n1 T1 T2 j x = T1 j x.
Proof. intro H. unfold trip_seq. apply Nat.ltb_lt in H. rewrite H. reflexivity. Qed.
Lemma trip_seq_second n1 T1 T2 j x : trip_seq n1 T1 T2 (j + n1)%nat x = T2 j x.
Proof.
  unfold trip_seq. assert (H : (j + n1 <? n1)%nat = false) by (apply Nat.ltb_ge; lia).
  rewrite H, Nat.add_sub. reflexivity.
Qed.

Lemma resume_after_tripwire bps T1 T2 its1 its2 sp sp1 n1 sp2 r2 n2 :
  trip_ignores_obs T2 ->
  run_while bps T1 its1 sp = (sp1, ROk, n1) -> snd sp1 = PTripwire ->
  run_while bps T2 its2 sp1 = (sp2, r2, n2) ->
  exists sp', run_while bps (trip_seq n1 T1 T2) (firstn n1 its1 ++ its2) sp = (sp', r2, (n1 + n2)%nat) /\
    snd sp' = snd sp2 /\ same_but_obs (fst sp') (fst sp2).
Proof.
  intro HT2. apply (resume_with bps _ T1 T2 (fun _ => True)); auto.
  - intros j x Hj. rewrite (trip_seq_first _ _ _ _ _ Hj). auto.
  - intros j it x _. apply trip_seq_second.
Qed.

(* along the second segment: the count from the seam (i1) within b, that from the start (i0) a more *)
Definition seam_counts (a b i0 i1 : Z) (s : sim) : Prop :=
  instrs_since i1 s <= b /\ instrs_since i0 s = a + instrs_since i1 s.

Lemma seam_counts_step a b i0 i1 k it s s2 :
  0 <= a -> a + b < Run.U64 -> seam_counts a b i0 i1 s ->
  trip_limit i1 b k (pre_state it s) = true -> exec_iter it s = (s2, inl tt) -> seam_counts a b i0 i1 s2.
Proof.
  unfold seam_counts. rewrite trip_limit_pre, Z.ltb_lt. intros Ha Hab [H1 H0] Ht He.
  destruct (exec_iter_instrs _ _ _ _ He) as [E|E]; rewrite !E; [auto|].
  unfold instrs_since, Run.U64 in *. Z.div_mod_to_equations. lia.
Qed.

(* the a+b tripwire lets through what the first segment's did and agrees with the second's along it *)
Lemma limit_split bps a b its1 its2 sp sp1 n1 sp2 r2 n2 :
  0 <= a -> 0 <= b -> a + b < Run.U64 ->
  run_with_limit bps a its1 sp = (sp1, ROk, n1) -> snd sp1 = PTripwire ->
  run_with_limit bps b its2 sp1 = (sp2, r2, n2) ->
  exists sp', run_with_limit bps (a + b) (firstn n1 its1 ++ its2) sp = (sp', r2, (n1 + n2)%nat) /\
    snd sp' = snd sp2 /\ same_but_obs (fst sp') (fst sp2).
Proof.
  intros Ha Hb Hab H1 Hp1 H2.
  destruct (run_with_limit_count bps a its1 sp sp1 ROk n1 ltac:(lia) H1) as [_ Hcount].
  specialize (Hcount eq_refl Hp1). unfold run_with_limit in *.
  apply (resume_with bps _ (trip_limit (s_instrs (fst sp)) a) (trip_limit (s_instrs (fst sp1)) b)
           (seam_counts a b (s_instrs (fst sp)) (s_instrs (fst sp1))) its1 its2 sp sp1 n1 sp2 r2 n2);
    try assumption; [apply trip_limit_ignores_obs | | | |].
  - intros j x _. unfold trip_limit. rewrite !Z.ltb_lt. lia.
  - intros j it x [_ Hx]. rewrite !trip_limit_pre, Hx.
    destruct (Z.ltb_spec (instrs_since (s_instrs (fst sp1)) x) b); [apply Z.ltb_lt | apply Z.ltb_ge]; lia.
  - intros j it x x2 Hx E'. apply iter_head_go in E'. destruct E' as (_ & Ht & He & _).
    exact (seam_counts_step _ _ _ _ _ _ _ _ Ha Hab Hx Ht He).
  - intros s1 Es. rewrite Es in *. cbn [s_instrs upd_mcr] in *. unfold seam_counts, instrs_since.
    rewrite Hcount, Z.sub_diag. unfold Run.U64. cbn. lia.
Qed.
