(* LinkDebug.v — debug symbols under linking: the two line-text theorems behind C22 (the pieces of
   a ++ "\n" ++ b are those of a followed by those of b), then the line maps: [lines_ok] is a chain
   like [blocks_ok], `DebugSymbols::link` by its outcome, `line_find` on the result. *)
From Coq Require Import ZArith List Bool Lia Sorted.
From Model Require Import Tree Bits Text SourceInfo Obj Link.
From Spec Require Import SourcePos.
From Proofs Require Import SourceInfoProofs TextFacts KeyMaps LinkBlocks.
Import ListNotations.
Open Scope Z_scope.

Theorem lines_append a b k : 0 <= k -> read_line (a ++ [10] ++ b) (count_lines a + k) = read_line b k.
Proof.
  intro Hk. pose proof (count_lines_pos a). rewrite !read_line_nth, count_lines_join by lia.
  rewrite lines_of_join.
  replace (Z.to_nat (count_lines a + k)) with (length (lines_of a) + Z.to_nat k)%nat by (rewrite count_lines_length; lia).
  rewrite app_nth2_plus.
  destruct (Z.ltb_spec k (count_lines b)), (Z.ltb_spec (count_lines a + k) (count_lines a + count_lines b));
    try lia; reflexivity.
Qed.
Theorem lines_prefix a b k : 0 <= k < count_lines a -> read_line (a ++ [10] ++ b) k = read_line a k.
Proof.
  intro Hk. pose proof (count_lines_pos b). rewrite !read_line_nth, count_lines_join by lia.
  rewrite !(proj2 (Z.ltb_lt k _)) by lia.
  rewrite lines_of_join, app_nth1 by (rewrite count_lines_length in Hk; lia). reflexivity.
Qed.

Definition shift_lines (n : Z) (m : linemap) : linemap := map (fun p => (fst p + n, snd p)) m.

Lemma lines_ok_cons lo n bs k ws r : lines_ok lo n bs ((k, ws) :: r) = true <->
  lo <= k /\ 0 < zlen ws /\ k + zlen ws <= n /\ forallb (covered bs) ws = true /\ lines_ok (k + zlen ws) n bs r = true.
Proof. cbn [lines_ok]. rewrite !andb_true_iff, !Z.leb_le, Z.ltb_lt. tauto. Qed.

Lemma lines_ok_bounds lo n bs m k ws : lines_ok lo n bs m = true -> In (k, ws) m -> lo <= k /\ 0 < zlen ws /\ k + zlen ws <= n.
Proof.
  revert lo. induction m as [|(k', ws') r IH]; intros lo H Hin; [contradiction|].
  apply lines_ok_cons in H as (H1 & H2 & H3 & _ & H5). destruct Hin as [E|Hin].
  - inversion E; subst. lia.
  - destruct (IH _ H5 Hin) as (? & ? & ?). lia.
Qed.
Lemma lines_ok_shift lo n bs m d : lines_ok lo n bs m = true -> lines_ok (lo + d) (n + d) bs (shift_lines d m) = true.
Proof.
  revert lo. induction m as [|(k, ws) r IH]; intros lo H; [reflexivity|].
  apply lines_ok_cons in H as (H1 & H2 & H3 & H4 & H5). apply lines_ok_cons. cbn [fst snd].
  repeat split; try assumption; try lia. replace (k + d + zlen ws) with (k + zlen ws + d) by lia. apply IH. exact H5.
Qed.
Lemma lines_ok_mono lo n bs bs' m : (forall x, covered bs x = true -> covered bs' x = true) ->
  lines_ok lo n bs m = true -> lines_ok lo n bs' m = true.
Proof.
  intro Hc. revert lo. induction m as [|(k, ws) r IH]; intros lo H; [reflexivity|].
  apply lines_ok_cons in H as (H1 & H2 & H3 & H4 & H5). apply lines_ok_cons.
  repeat split; try assumption; [|apply IH; exact H5].
  rewrite forallb_forall in *. auto.
Qed.
Lemma lines_ok_weaken lo lo' n bs m : lo' <= lo -> lines_ok lo n bs m = true -> lines_ok lo' n bs m = true.
Proof.
  destruct m as [|(k, ws) r]; [auto|]. intros Hl H. apply lines_ok_cons in H. apply lines_ok_cons. intuition lia.
Qed.
Lemma lines_ok_app lo n bs m1 m2 mid : lines_ok lo mid bs m1 = true -> lines_ok mid n bs m2 = true ->
  lo <= mid -> mid <= n -> lines_ok lo n bs (m1 ++ m2) = true.
Proof.
  revert lo. induction m1 as [|(k, ws) r IH]; cbn [app]; intros lo H1 H2 Hl Hm.
  - eapply lines_ok_weaken; eauto.
  - apply lines_ok_cons in H1 as (K1 & K2 & K3 & K4 & K5). apply lines_ok_cons.
    repeat split; try assumption; try lia. apply IH; [assumption|assumption|lia|assumption].
Qed.

Lemma lines_ok_sorted lo n bs m : lines_ok lo n bs m = true -> StronglySorted (fun x y : Z * list Z => fst x < fst y) m.
Proof.
  revert lo. induction m as [|(k, ws) r IH]; intros lo H; [constructor|].
  apply lines_ok_cons in H as (_ & H2 & _ & _ & H5). constructor; [exact (IH _ H5)|].
  apply Forall_forall. intros (k', ws') Hin. destruct (lines_ok_bounds _ _ _ _ _ _ H5 Hin). cbn [fst]. lia.
Qed.

(* every moved key of the second map lies behind the first, so each insert is an append; a moved
   line number overflows only if the lines do not fit a usize *)
Lemma debug_link_spec a b bsa bsb :
  lines_ok 0 (count_lines (ds_src a)) bsa (ds_lines a) = true ->
  lines_ok 0 (count_lines (ds_src b)) bsb (ds_lines b) = true ->
  match debug_link a b with
  | Some d => d = mkDebug (ds_lines a ++ shift_lines (count_lines (ds_src a)) (ds_lines b)) (ds_src a ++ [10] ++ ds_src b)
  | None => usize_max < count_lines (ds_src a) + count_lines (ds_src b)
  end.
Proof.
  intros Ha Hb. unfold debug_link. set (n := count_lines (ds_src a)).
  destruct (existsb (fun p => usize_max <? fst p + n) (ds_lines b)) eqn:E.
  - apply existsb_exists in E. destruct E as ((k, ws) & Hin & E).
    cbn in E. apply Z.ltb_lt in E. destruct (lines_ok_bounds _ _ _ _ _ _ Hb Hin) as (? & ? & ?). lia.
  - f_equal.
    assert (E' : forall m l0, fold_left (fun acc p => bt_put (fst p + n) (snd p) acc) m l0 =
                   fold_left (fun acc p => bt_put (fst p) (snd p) acc) (shift_lines n m) l0).
    { unfold shift_lines. induction m as [|p r IH]; intro l0; [reflexivity|]. cbn [map fold_left fst snd]. apply IH. }
    rewrite E'. pose proof (lines_ok_shift _ _ _ _ n Hb) as Hs. apply fold_bt_append; [exact (lines_ok_sorted _ _ _ _ Hs)|].
    intros (k, ws) (k', ws') Hp Hq. destruct (lines_ok_bounds _ _ _ _ _ _ Ha Hp) as (_ & ? & ?).
    destruct (lines_ok_bounds _ _ _ _ _ _ Hs Hq). cbn [fst]. lia.
Qed.
Lemma joined_lines_ok la sa lb sb bs :
  lines_ok 0 (count_lines sa) bs la = true -> lines_ok 0 (count_lines sb) bs lb = true ->
  lines_ok 0 (count_lines (sa ++ [10] ++ sb)) bs (la ++ shift_lines (count_lines sa) lb) = true.
Proof.
  intros Ha Hb.
  rewrite count_lines_join. eapply (lines_ok_app _ _ _ _ _ (count_lines sa)).
  - exact Ha.
  - replace (count_lines sa) with (0 + count_lines sa) at 1 by lia.
    replace (count_lines sa + count_lines sb) with (count_lines sb + count_lines sa) by lia.
    apply lines_ok_shift. exact Hb.
  - pose proof (count_lines_pos sa). lia.
  - pose proof (count_lines_pos sb). lia.
Qed.

Lemma index_of_bound x l i o : index_of x l i = Some o -> i <= o < i + zlen l.
Proof.
  revert i. induction l as [|y r IH]; intros i H; cbn in H; [discriminate|].
  rewrite zlen_cons. pose proof (zlen_nonneg r). destruct (x =? y).
  - inversion H; subst. lia.
  - specialize (IH _ H). lia.
Qed.
Lemma index_of_in x l i o : index_of x l i = Some o -> In x l.
Proof.
  revert i. induction l as [|y r IH]; intros i H; cbn in H; [discriminate|].
  destruct (Z.eqb_spec x y) as [->|]; [left; reflexivity|right; eauto].
Qed.
Lemma line_find_app m1 m2 addr :
  line_find (m1 ++ m2) addr = match line_find m1 addr with Some x => Some x | None => line_find m2 addr end.
Proof.
  induction m1 as [|(k, ws) r IH]; cbn; [reflexivity|]. destruct (index_of addr ws 0); [reflexivity|exact IH].
Qed.
Lemma line_find_shift n m addr : line_find (shift_lines n m) addr = option_map (fun x => x + n) (line_find m addr).
Proof.
  induction m as [|(k, ws) r IH]; cbn; [reflexivity|]. destruct (index_of addr ws 0); cbn; [f_equal; lia|exact IH].
Qed.
Lemma line_find_bounds lo n bs m addr ln : lines_ok lo n bs m = true -> line_find m addr = Some ln ->
  lo <= ln < n /\ covered bs addr = true.
Proof.
  revert lo. induction m as [|(k, ws) r IH]; intros lo H Hf; [discriminate|].
  apply lines_ok_cons in H as (H1 & H2 & H3 & H4 & H5). cbn [line_find] in Hf.
  destruct (index_of addr ws 0) as [o|] eqn:E.
  - inversion Hf; subst. pose proof (index_of_bound _ _ _ _ E). split; [lia|].
    rewrite forallb_forall in H4. apply H4. eapply index_of_in; eauto.
  - destruct (IH _ H5 Hf). split; [lia|assumption].
Qed.
Lemma line_find_uncovered lo n bs m addr : lines_ok lo n bs m = true -> img_blocks bs addr = None -> line_find m addr = None.
Proof.
  intros H Hc. destruct (line_find m addr) as [ln|] eqn:E; [|reflexivity].
  destruct (line_find_bounds _ _ _ _ _ _ H E) as (_ & C). unfold covered in C. rewrite Hc in C. discriminate.
Qed.
