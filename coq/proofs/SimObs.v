(* SimObs.v — C28 at the level of whole instructions: which observer entries an instruction adds.
   (After the fetch; the fetch itself is one tracked read of the PC, see [read_obs].) *)
From Coq Require Import ZArith List Bool Lia.
From Gen Require Import Constants.
From Model Require Import Tree Bits Word Instr Sim.
From Proofs Require Import SimHoare SimAccess StepFrame.
Import ListNotations.
Open Scope Z_scope.

Lemma pres_obs_push_frame a b f : pres s_obs (push_frame a b f).
Proof. intro s. rewrite push_frame_run. reflexivity. Qed.
#[export] Hint Resolve pres_obs_push_frame : pres_db.

Definition no_mem_operand (i : sim_instr) : bool :=
  match i with
  | SBR _ _ | SADD _ _ _ | SAND _ _ _ | SNOT _ _ | SJMP _ | SJSR _ | SLEA _ _ => true
  | _ => false
  end.

Theorem exec_obs_neutral e i : no_mem_operand i = true -> pres s_obs (exec e i).
Proof.
  intros N. unfold exec. apply pres_bind; [apply pres_get|intro s]. cbv zeta.
  destruct i; try discriminate N;
    cbv beta delta [call_subroutine set_reg_if_init set_cc pop_frame offset_pc set_pc]; walk pres_db.
Qed.

Lemma read_ok_obs e a c s s' w : read_mem e a c s = (s', inl w) -> c_track c = true ->
  s_obs s' = obs_update (s_obs s) a OBS_READ.
Proof.
  intros E T. pose proof (read_obs e a c s) as O. rewrite E in O. cbn [fst] in O. rewrite O, T.
  rewrite read_mem_eq in E. destruct (negb (c_priv c) && negb (in_user a)); [inversion E|reflexivity].
Qed.
Lemma write_ok_obs e a w c s s' u : write_mem e a w c s = (s', inl u) ->
  (IO_START <=? a) = false -> c_track c = true ->
  s_obs s' = let o := obs_update (s_obs s) a OBS_WRITTEN in
             if word_eqb (mget (s_mem s) a) w then o else obs_update o a OBS_MODIFIED.
Proof.
  intros E IO T.
  assert (P : negb (c_priv c) && negb (in_user a) = false).
  { rewrite write_mem_eq in E. destruct (negb (c_priv c) && negb (in_user a)); [discriminate E|reflexivity]. }
  pose proof (write_obs_plain e a w c s P IO T) as O. rewrite E in O. exact O.
Qed.

(* how LD, LDR and LDI end *)
Lemma load_obs e a c dr ws s s' u :
  (v <- read_mem e a c ;; set_reg_if_init dr v ws ;;; set_cc (w_data v)) s = (s', inl u) -> c_track c = true ->
  s_obs s' = obs_update (s_obs s) a OBS_READ.
Proof.
  intros E T. apply bind_inl in E as (s1 & v & R & E). rewrite <- (read_ok_obs _ _ _ _ _ _ R T).
  revert E. apply pres_run. cbv beta delta [set_reg_if_init set_cc]. walk pres_db.
Qed.

Theorem exec_obs_ld e dr off s s' u :
  exec e (SLD dr off) s = (s', inl u) -> s_obs s' = obs_update (s_obs s) (wrap16 (s_pc s + off)) OBS_READ.
Proof.
  unfold exec. rewrite run_bind, run_get. cbv zeta. intros E. exact (load_obs _ _ _ _ _ _ _ _ E eq_refl).
Qed.

Theorem exec_obs_ldr e dr br off s s' u :
  exec e (SLDR dr br off) s = (s', inl u) ->
  s_obs s' = obs_update (s_obs s) (wrap16 (w_data (rget (s_regs s) br) + off)) OBS_READ.
Proof.
  unfold exec. rewrite run_bind, run_get. cbv zeta. intros E. apply get_if_init_inl in E.
  exact (load_obs _ _ _ _ _ _ _ _ E eq_refl).
Qed.

Theorem exec_obs_st e sr off s s' u :
  exec e (SST sr off) s = (s', inl u) ->
  let ea := wrap16 (s_pc s + off) in
  (IO_START <=? ea) = false ->
  s_obs s' = let o := obs_update (s_obs s) ea OBS_WRITTEN in
             if word_eqb (mget (s_mem s) ea) (rget (s_regs s) sr) then o else obs_update o ea OBS_MODIFIED.
Proof.
  unfold exec. rewrite run_bind, run_get. cbv zeta. intros E IO. exact (write_ok_obs _ _ _ _ _ _ _ E IO eq_refl).
Qed.

Theorem exec_obs_str e sr br off s s' u :
  exec e (SSTR sr br off) s = (s', inl u) ->
  let ea := wrap16 (w_data (rget (s_regs s) br) + off) in
  (IO_START <=? ea) = false ->
  s_obs s' = let o := obs_update (s_obs s) ea OBS_WRITTEN in
             if word_eqb (mget (s_mem s) ea) (rget (s_regs s) sr) then o else obs_update o ea OBS_MODIFIED.
Proof.
  unfold exec. rewrite run_bind, run_get. cbv zeta. intros E. apply get_if_init_inl in E.
  intros IO. exact (write_ok_obs _ _ _ _ _ _ _ E IO eq_refl).
Qed.

Theorem exec_obs_ldi e dr off s s' u :
  exec e (SLDI dr off) s = (s', inl u) ->
  exists s1 w, read_mem e (wrap16 (s_pc s + off)) (default_ctx s) s = (s1, inl w) /\
    s_obs s' = obs_update (obs_update (s_obs s) (wrap16 (s_pc s + off)) OBS_READ) (w_data w) OBS_READ.
Proof.
  unfold exec. rewrite run_bind, run_get. cbv zeta. intros E. apply bind_inl in E as (s1 & w & R1 & E).
  apply get_if_init_inl in E. rewrite run_bind, run_get in E. cbv zeta in E.
  exists s1, w. split; [exact R1|].
  rewrite (load_obs _ _ _ _ _ _ _ _ E eq_refl), (read_ok_obs _ _ _ _ _ _ R1 eq_refl). reflexivity.
Qed.

Theorem exec_obs_sti e sr off s s' u :
  exec e (SSTI sr off) s = (s', inl u) ->
  exists s1 w, read_mem e (wrap16 (s_pc s + off)) (default_ctx s) s = (s1, inl w) /\
    ((IO_START <=? w_data w) = false ->
     s_obs s' = let o := obs_update (obs_update (s_obs s) (wrap16 (s_pc s + off)) OBS_READ) (w_data w) OBS_WRITTEN in
                if word_eqb (mget (s_mem s1) (w_data w)) (rget (s_regs s1) sr) then o else obs_update o (w_data w) OBS_MODIFIED).
Proof.
  unfold exec. rewrite run_bind, run_get. cbv zeta. intros E. apply bind_inl in E as (s1 & w & R1 & E).
  apply get_if_init_inl in E. rewrite run_bind, run_get in E. cbv zeta in E.
  exists s1, w. split; [exact R1|]. intros IO.
  rewrite (write_ok_obs _ _ _ _ _ _ _ E IO eq_refl), (read_ok_obs _ _ _ _ _ _ R1 eq_refl). reflexivity.
Qed.

Theorem exec_obs_rti e s s' u :
  exec e SRTI s = (s', inl u) ->
  let sp := w_data (rget (s_regs s) 6) in
  s_obs s' = obs_update (obs_update (s_obs s) sp OBS_READ) (wrap16 (sp + 1)) OBS_READ.
Proof.
  unfold exec. rewrite run_bind, run_get. cbv zeta.
  destruct (psr_privileged (s_psr s) || fl_ignore_priv (s_flags s)); [|discriminate].
  intros E. apply get_if_init_inl in E. apply bind_inl in E as (s1 & w1 & R1 & E).
  apply get_if_init_inl in E. apply bind_inl in E as (s2 & w2 & R2 & E). apply get_if_init_inl in E.
  apply (pres_run s_obs) in E; [|cbv beta delta [set_pc swap_sp pop_frame]; walk pres_db].
  rewrite E, (read_ok_obs _ _ _ _ _ _ R2 eq_refl), (read_ok_obs _ _ _ _ _ _ R1 eq_refl). reflexivity.
Qed.
