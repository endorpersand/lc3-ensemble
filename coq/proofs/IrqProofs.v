(* IrqProofs.v — C10: arbitration among the polled devices (the last maximum wins); the shape of a step as equations ([step_inner_cases], [fetch_exec_eq]; [step_eq], [step_in_eq] stand in SimHoare.v);
   the entry snapshot, its inverse RTI, and transparency of serviced interrupts ([peq] under [HandlerOK]). *)
From Coq Require Import ZArith List Bool Lia FMapPositive.
From Gen Require Import Constants.
From Model Require Import Tree Bits Word Instr Sim.
From Proofs Require Import Ranges PsrBits StepFrame SimHoare SimAccess SimObsEntry.
Import ListNotations.
Open Scope Z_scope.

Fixpoint polled (e : env) (ds : list dev) (draws : list Z) : list irq :=
  match ds with
  | [] => []
  | d :: r =>
      let '(_, i, draws') := dev_poll e d draws in
      match i with Some x => x :: polled e r draws' | None => polled e r draws' end
  end.
Fixpoint polled_devs (e : env) (ds : list dev) (draws : list Z) : list dev :=
  match ds with
  | [] => []
  | d :: r => let '(d', _, draws') := dev_poll e d draws in d' :: polled_devs e r draws'
  end.

Definition pick_list (best : option irq) (l : list irq) : option irq :=
  fold_left (fun b x => pick_irq b (Some x)) l best.

Lemma poll_all_spec e : forall ds draws best,
  fst (poll_all e ds draws best) = (polled_devs e ds draws, pick_list best (polled e ds draws)).
Proof.
  induction ds as [|d r IH]; intros draws best; cbn [poll_all polled polled_devs].
  - reflexivity.
  - destruct (dev_poll e d draws) as [[d' i] draws'] eqn:Hp.
    specialize (IH draws' (pick_irq best i)).
    destruct (poll_all e r draws' (pick_irq best i)) as [[r' b'] dr'] eqn:Hr.
    cbn [fst] in *. inversion IH; subst. f_equal.
    destruct i as [x|]; [reflexivity|]. destruct best; reflexivity.
Qed.

(* the LAST maximum: `Iterator::max_by_key` keeps the last of equal keys *)
Definition last_max (l : list irq) (x : irq) : Prop :=
  exists l1 l2, l = l1 ++ x :: l2 /\
    (forall y, In y l1 -> irq_key y <= irq_key x) /\
    (forall y, In y l2 -> irq_key y < irq_key x).

Lemma pick_list_snoc b l x : pick_list b (l ++ [x]) = pick_irq (pick_list b l) (Some x).
Proof. unfold pick_list. rewrite fold_left_app. reflexivity. Qed.

Lemma last_max_bound l x y : last_max l x -> In y l -> irq_key y <= irq_key x.
Proof.
  intros (l1 & l2 & -> & H1 & H2) Hy. apply in_app_or in Hy.
  destruct Hy as [Hy|[<-|Hy]]; [apply H1, Hy|lia|specialize (H2 y Hy); lia].
Qed.

Lemma pick_list_spec l : match pick_list None l with Some x => last_max l x | None => l = [] end.
Proof.
  induction l as [|y l IH] using rev_ind; [reflexivity|]. rewrite pick_list_snoc.
  destruct (pick_list None l) as [b|]; cbn [pick_irq].
  - destruct (irq_key b <=? irq_key y) eqn:K.
    + apply Z.leb_le in K. exists l, []. split; [reflexivity|]. split; [|intros ? []].
      intros z Hz. pose proof (last_max_bound l b z IH Hz). lia.
    + apply Z.leb_gt in K. destruct IH as (l1 & l2 & -> & H1 & H2). exists l1, (l2 ++ [y]).
      rewrite <- app_assoc. split; [reflexivity|]. split; [exact H1|].
      intros z Hz. apply in_app_or in Hz. destruct Hz as [Hz|[<-|[]]]; [apply H2, Hz|exact K].
  - subst l. exists [], []. split; [reflexivity|]. split; intros ? [].
Qed.

Lemma pick_list_complete l x : last_max l x -> pick_list None l = Some x.
Proof.
  intros (l1 & l2 & -> & H1 & H2). induction l2 as [|y l2 IH] using rev_ind.
  - rewrite pick_list_snoc. pose proof (pick_list_spec l1) as S.
    destruct (pick_list None l1) as [b|]; cbn [pick_irq]; [|reflexivity].
    destruct S as (a1 & a2 & -> & _). rewrite (proj2 (Z.leb_le _ _)); [reflexivity|].
    apply H1. apply in_or_app. right. left. reflexivity.
  - change (l1 ++ x :: l2 ++ [y]) with (l1 ++ (x :: l2) ++ [y]). rewrite app_assoc, pick_list_snoc, IH.
    + cbn [pick_irq]. rewrite (proj2 (Z.leb_gt _ _)); [reflexivity|]. apply H2. apply in_or_app. right. left. reflexivity.
    + intros z Hz. apply H2. apply in_or_app. left. exact Hz.
Qed.

Definition pending (e : env) (s : sim) : option irq :=
  snd (fst (poll_all e (s_devs s) (e_draws e) None)).

Lemma pending_spec e s : pending e s = pick_list None (polled e (s_devs s) (e_draws e)).
Proof. unfold pending. rewrite poll_all_spec. reflexivity. Qed.

Theorem pending_is_last_max e s x :
  pending e s = Some x <-> last_max (polled e (s_devs s) (e_draws e)) x.
Proof.
  rewrite pending_spec. split; [|apply pick_list_complete].
  intros E. pose proof (pick_list_spec (polled e (s_devs s) (e_draws e))) as S. rewrite E in S. exact S.
Qed.
Theorem pending_none e s : pending e s = None <-> polled e (s_devs s) (e_draws e) = [].
Proof.
  rewrite pending_spec. split; [|intros ->; reflexivity].
  intros E. pose proof (pick_list_spec (polled e (s_devs s) (e_draws e))) as S. rewrite E in S. exact S.
Qed.

Definition same_io_dev (d d' : dev) : Prop :=
  match d, d' with
  | DKb q ie, DKb q' ie' => q = q' /\ ie = ie'
  | DDs b, DDs b' => b = b'
  | DKb _ _, _ | _, DKb _ _ | DDs _, _ | _, DDs _ => False
  | _, _ => True
  end.
Definition same_io (ds ds' : list dev) : Prop := Forall2 same_io_dev ds ds'.

Lemma dev_poll_spec e d dr d' i dr' : dev_poll e d dr = (d', i, dr') ->
  same_io_dev d d' /\ (forall v p, i = Some (IVec v p) -> 0 <= p < 8).
Proof.
  assert (Hc : forall x, 0 <= clamp7 x < 8).
  { intros x. unfold clamp7. destruct (x <? 0) eqn:A; [lia|]. destruct (7 <? x) eqn:B; [lia|].
    apply Z.ltb_ge in A, B. lia. }
  destruct d as [|q ie|b|t|l]; cbn [dev_poll]; intros Hp.
  - inversion Hp. split; [exact Logic.I|discriminate].
  - inversion Hp. split; [split; reflexivity|]. intros v p H. destruct (_ && ie); inversion H.
    vm_compute. split; [discriminate|reflexivity].
  - inversion Hp. split; [reflexivity|discriminate].
  - destruct (negb (t_enabled t)); [inversion Hp; split; [exact Logic.I|discriminate]|].
    destruct (t_time t =? 0).
    { destruct dr as [|x dr0]; inversion Hp; (split; [exact Logic.I|]); [discriminate|].
      intros v p H. destruct (x =? 0); inversion H. apply Hc. }
    destruct (t_time t =? 1); inversion Hp; (split; [exact Logic.I|]); [|discriminate].
    intros v p H. inversion H. apply Hc.
  - destruct l as [|x l]; inversion Hp; (split; [exact Logic.I|]); [discriminate|].
    intros v p H. destruct x as [[v1 p1|]|]; inversion H. apply Hc.
Qed.

Lemma polled_prio_range e : forall ds draws v p, In (IVec v p) (polled e ds draws) -> 0 <= p < 8.
Proof.
  induction ds as [|d r IH]; intros draws v p H; cbn [polled] in H; [destruct H|].
  destruct (dev_poll e d draws) as [[d' i] dr] eqn:Hp. destruct (dev_poll_spec _ _ _ _ _ _ Hp) as [_ Hi].
  destruct i as [x|]; [|eapply IH; exact H].
  destruct H as [->|H]; [eapply Hi; reflexivity|eapply IH; exact H].
Qed.
Lemma same_io_polled e : forall ds dr, same_io ds (polled_devs e ds dr).
Proof.
  induction ds as [|d r IH]; intros dr; cbn [polled_devs]; [constructor|].
  destruct (dev_poll e d dr) as [[d' i] dr'] eqn:Hp. constructor; [exact (proj1 (dev_poll_spec _ _ _ _ _ _ Hp))|apply IH].
Qed.

Lemma pending_prio_range e s v p : pending e s = Some (IVec v p) -> 0 <= p < 8.
Proof.
  intros H. apply pending_is_last_max in H. destruct H as (l1 & l2 & Hl & _).
  eapply polled_prio_range with (ds := s_devs s) (draws := e_draws e) (v := v).
  rewrite Hl. apply in_or_app. right. left. reflexivity.
Qed.

Lemma same_io_dev_refl d : same_io_dev d d.
Proof. destruct d; cbn; auto. Qed.
Lemma same_io_refl ds : same_io ds ds.
Proof. induction ds; constructor; [apply same_io_dev_refl|assumption]. Qed.
Lemma same_io_dev_trans a b c : same_io_dev a b -> same_io_dev b c -> same_io_dev a c.
Proof.
  destruct a, b, c; cbn; try tauto; try (intros [-> ->] [-> ->]; auto); try congruence.
Qed.
Lemma same_io_trans a : forall b c, same_io a b -> same_io b c -> same_io a c.
Proof.
  induction a as [|x a IH]; intros b c H1 H2; inversion H1; subst; inversion H2; subst; constructor.
  - eapply same_io_dev_trans; eassumption.
  - eapply IH; eassumption.
Qed.

Lemma same_io_sym a b : same_io a b -> same_io b a.
Proof.
  induction 1; constructor; [|assumption].
  destruct x, y; cbn in *; try tauto; try (destruct H; subst; auto); congruence.
Qed.

Definition after_poll (e : env) (s : sim) : sim :=
  upd_devs (upd_prefetch s true) (polled_devs e (s_devs s) (e_draws e)).

Definition fetch_exec (e : env) : M unit :=
  s <- get ;;
  w <- read_mem e (s_pc s) (default_ctx s) ;;
  word <- of_opt (get_if_init w (strict s)) StrictPCCurrUninit ;;
  instr <- decode_m word ;;
  offset_pc 1 false ;;;
  modify (fun s => upd_prefetch s false) ;;;
  exec e instr ;;;
  modify (fun s => upd_instrs s ((s_instrs s + 1) mod 18446744073709551616)).

Definition takes_irq (e : env) (s : sim) (v p : Z) : Prop :=
  pending e s = Some (IVec v p) /\ psr_priority (s_psr s) < p.

Lemma step_inner_cases e s :
  step_inner e s =
  match pending e s with
  | Some (IVec v p) =>
      if psr_priority (s_psr s) <? p then handle_interrupt e (256 + v) (Some p) (after_poll e s)
      else fetch_exec e (after_poll e s)
  | Some IExt => (after_poll e s, inr (BErr InterruptErr))
  | None => fetch_exec e (after_poll e s)
  end.
Proof.
  unfold step_inner, pending, after_poll.
  unfold bind at 1. unfold modify at 1. unfold bind at 1. unfold get at 1.
  cbn [s_devs upd_prefetch].
  pose proof (poll_all_spec e (s_devs s) (e_draws e) None) as Hp.
  destruct (poll_all e (s_devs s) (e_draws e) None) as [[ds i] dr]. cbn [fst snd] in *.
  inversion Hp; subst. clear Hp.
  unfold bind at 1. unfold modify at 1. cbn [s_psr upd_prefetch].
  destruct (pick_list None (polled e (s_devs s) (e_draws e))) as [[v p|]|];
    [destruct (psr_priority (s_psr s) <? p)|..]; reflexivity.
Qed.

Definition fetched_instr (st : bool) (w : word) : sim_instr + brk :=
  if negb st || is_init w then
    match decode (w_data w) with
    | DOk i => inl i
    | DIllegalOpcode => inr (BErr IllegalOpcode)
    | DInvalidFormat => inr (BErr InvalidInstrFormat)
    | DPanic => inr BPanic
    end
  else inr (BErr StrictPCCurrUninit).
Lemma fetched_instr_inl st w i : fetched_instr st w = inl i -> decode (w_data w) = DOk i.
Proof.
  unfold fetched_instr. destruct (negb st || is_init w); [|discriminate].
  destruct (decode (w_data w)); try discriminate. intros E. injection E as <-. reflexivity.
Qed.

(* the one place the instruction counter moves *)
Definition counted (r : sim * (unit + brk)) : sim * (unit + brk) :=
  match r with
  | (s3, inl _) => (upd_instrs s3 ((s_instrs s3 + 1) mod 18446744073709551616), inl tt)
  | (s3, inr b) => (s3, inr b)
  end.

Lemma fetch_exec_eq e s :
  fetch_exec e s =
  match read_mem e (s_pc s) (default_ctx s) s with
  | (s1, inl w) => match fetched_instr (strict s) w with
                   | inl i => counted (exec e i (upd_prefetch (upd_pc s1 (wrap16 (s_pc s1 + 1))) false))
                   | inr b => (s1, inr b)
                   end
  | (s1, inr b) => (s1, inr b)
  end.
Proof.
  unfold fetch_exec. rewrite run_bind, run_get, run_bind.
  destruct (read_mem e (s_pc s) (default_ctx s) s) as [s1 [w|b]]; [|reflexivity].
  unfold fetched_instr, get_if_init, decode_m. rewrite run_bind.
  destruct (negb (strict s) || is_init w); [|reflexivity]. cbn [of_opt]. rewrite run_ret, run_bind.
  destruct (decode (w_data w)) as [i| | |]; try reflexivity.
  rewrite run_ret, run_bind, offset_pc_eq, run_bind, run_modify, run_bind.
  destruct (exec e i _) as [s3 [[]|b]]; reflexivity.
Qed.

Theorem gate_taken e s v p : takes_irq e s v p ->
  step_inner e s = handle_interrupt e (256 + v) (Some p) (after_poll e s).
Proof.
  intros [Hp Hg]. rewrite step_inner_cases, Hp. apply Z.ltb_lt in Hg. rewrite Hg. reflexivity.
Qed.
Theorem gate_not_taken e s : (forall v p, ~ takes_irq e s v p) ->
  step_inner e s = match pending e s with
                   | Some IExt => (after_poll e s, inr (BErr InterruptErr))
                   | _ => fetch_exec e (after_poll e s)
                   end.
Proof.
  intros H. rewrite step_inner_cases. destruct (pending e s) as [[v p|]|] eqn:Hp; try reflexivity.
  destruct (psr_priority (s_psr s) <? p) eqn:Hg; [|reflexivity].
  exfalso. apply (H v p). split; [exact Hp|apply Z.ltb_lt; exact Hg].
Qed.

Lemma handle_interrupt_no_early_return (s : sim) (p : Z) : psr_priority (s_psr s) < p ->
  (p <=? psr_priority (s_psr s)) = false.
Proof. intros. apply Z.leb_gt. assumption. Qed.

Definition KI {A} (m : M A) : Prop := forall s, s_instrs (fst (m s)) = s_instrs s.

Lemma KI_set_pc w b : KI (set_pc w b). Proof. exact (pres_instrs_set_pc w b). Qed.
Lemma KI_push_frame a b c : KI (push_frame a b c). Proof. exact (pres_instrs_push_frame a b c). Qed.
Lemma KI_swap_sp : KI swap_sp. Proof. exact pres_instrs_swap_sp. Qed.
Lemma KI_call_interrupt e v ft : KI (call_interrupt e v ft). Proof. exact (pres_instrs_call_interrupt e v ft). Qed.

Theorem boundary e s v p : takes_irq e s v p ->
  step_inner e s = handle_interrupt e (256 + v) (Some p) (after_poll e s) /\
  s_instrs (fst (step_inner e s)) = s_instrs s.
Proof.
  intros Ht. rewrite (gate_taken _ _ _ _ Ht). split; [reflexivity|].
  rewrite (pres_instrs_handle_interrupt e (256 + v) (Some p)). reflexivity.
Qed.

Lemma set_nth_length {A} (l : list A) : forall n x, length (set_nth l n x) = length l.
Proof. exact (SimHoare.set_nth_length l). Qed.

Definition entry_psr (psr p : Z) : Z := psr_set_priority (psr_set_cc (psr_set_privileged psr true) 2) p.

Lemma entry_psr_bits psr p n : 0 <= n < 16 ->
  Z.testbit (entry_psr psr p) n =
  if n <? 3 then n =? 1 else if n <? 8 then Z.testbit psr n else if n <? 11 then Z.testbit p (n - 8)
  else if n <? 15 then Z.testbit psr n else false.
Proof.
  intros Hn. apply (zrange_In 16 0) in Hn. cbn [zrange In Z.add Pos.add Pos.succ] in Hn.
  unfold entry_psr, psr_set_priority, psr_set_cc, psr_set_privileged.
  repeat destruct Hn as [<-|Hn]; [..|contradiction];
    repeat first [rewrite Z.lor_spec | rewrite Z.land_spec | rewrite Z.shiftl_spec by lia]; cbn;
    rewrite ?andb_true_r, ?andb_false_r, ?orb_false_r; reflexivity.
Qed.

(* 30968 = x78F8: the kept bits 3-7 and 11-14 *)
Lemma entry_psr_eq psr p : 0 <= psr < 65536 -> 0 <= p < 8 ->
  entry_psr psr p = Z.land psr 30968 + 256 * p + 2.
Proof.
  intros Hpsr Hp.
  rewrite (bsum16 (entry_psr psr p) (psr_set_priority_lt16 _ p)), (bsum16 (Z.land psr 30968)) by (apply land_lt16; lia).
  rewrite <- (Z.mod_small p 8) at 2 by exact Hp. change 8 with (2 ^ Z.of_nat 3). rewrite <- bsum_mod.
  cbn [bsum Z.of_nat Pos.of_succ_nat Pos.succ]. rewrite !entry_psr_bits, !Z.land_spec by lia.
  (* the bits of psr and p are atoms from here on; what is left is closed or linear *)
  generalize (Z.testbit psr) (Z.testbit p). intros f g. cbn -[Z.add Z.mul Z.pow].
  rewrite ?andb_true_r, ?andb_false_r. cbn [Z.b2z].
  change (8 - 8) with 0. change (9 - 8) with 1. change (10 - 8) with 2. lia.
Qed.

Lemma psr_facts psr p : 0 <= psr < 65536 -> 0 <= p < 8 ->
  psr_privileged (entry_psr psr p) = true /\ psr_priority (entry_psr psr p) = p /\
  psr_cc (entry_psr psr p) = 2 /\ entry_psr psr p = Z.land psr 30968 + 256 * p + 2.
Proof.
  intros Hpsr Hp. pose proof (psr_set_priority_lt16 (psr_set_cc (psr_set_privileged psr true) 2) p : 0 <= entry_psr psr p < 65536) as B.
  split; [|split; [|split; [|apply entry_psr_eq; assumption]]].
  - rewrite psr_privileged_lt by lia. apply Z.ltb_lt. apply Z.nle_gt. intros H. apply Z.leb_le in H.
    rewrite <- bit15, entry_psr_bits in H by lia. discriminate H.
  - unfold psr_priority. change 7 with (Z.ones (Z.of_nat 3)). rewrite Z.land_ones, <- bsum_mod, Z.shiftr_div_pow2 by lia.
    rewrite <- (Z.mod_small p 8) at 2 by exact Hp. change 8 with (2 ^ Z.of_nat 3) at 2. rewrite <- bsum_mod.
    cbn [bsum Z.of_nat Pos.of_succ_nat Pos.succ]. rewrite !Z.div_pow2_bits, !entry_psr_bits by lia. reflexivity.
  - unfold psr_cc. change 7 with (Z.ones (Z.of_nat 3)). rewrite Z.land_ones, <- bsum_mod by lia.
    cbn [bsum Z.of_nat Pos.of_succ_nat Pos.succ]. rewrite !entry_psr_bits by lia. reflexivity.
Qed.

Lemma bind_fail {A B} (m : M A) (k : A -> M B) s s' b : m s = (s', inr b) -> bind m k s = (s', inr b).
Proof. intros H. unfold bind. rewrite H. reflexivity. Qed.

Definition regs8 (rs : regs) : Prop := length rs = 8%nat.

(* the supervisor stack pointer as a word (its mask matters for the -2/+2 round trip); [SimObsEntry.entry_sp] is its data, [entry_sp_data] *)
Definition entry_sp (s : sim) : word :=
  if psr_privileged (s_psr s) then rget (s_regs s) 6 else s_saved_sp s.
Definition entry_mem (s : sim) : mem :=
  let sp := w_data (entry_sp s) in
  mset (mset (s_mem s) (wrap16 (sp - 1)) (new_init (s_psr s))) (wrap16 (sp - 2)) (new_init (s_pc s)).

Record entry_pre (s : sim) (v p : Z) : Prop := {
  ep_strict : fl_strict (s_flags s) = false;
  ep_psr : 0 <= s_psr s < 65536;
  ep_regs : regs8 (s_regs s);
  ep_v : 0 <= v < 256;
  ep_p : 0 <= p < 8;
  ep_gate : psr_priority (s_psr s) < p;
  ep_io1 : (IO_START <=? wrap16 (w_data (entry_sp s) - 1)) = false;
  ep_io2 : (IO_START <=? wrap16 (w_data (entry_sp s) - 2)) = false }.

Record entry_post (s s' : sim) (v p : Z) : Prop := {
  eq_mem : s_mem s' = entry_mem s;
  eq_psr : s_psr s' = entry_psr (s_psr s) p;
  eq_pc : s_pc s' = w_data (mget (entry_mem s) (256 + v));
  eq_regs : s_regs s' = rset (s_regs s) 6 (w_sub (entry_sp s) (new_init 2));
  eq_ssp : s_saved_sp s' = if psr_privileged (s_psr s) then s_saved_sp s else rget (s_regs s) 6;
  eq_instrs : s_instrs s' = s_instrs s;
  eq_frame_no : s_frame_no s' = s_frame_no s + 1;
  eq_flags : s_flags s' = s_flags s;
  eq_devs : s_devs s' = s_devs s;
  eq_mcr : s_mcr s' = s_mcr s;
  eq_prefetch : s_prefetch s' = s_prefetch s;
  eq_ireg : s_ireg s' = s_ireg s;
  eq_alloca : s_alloca s' = s_alloca s;
  eq_srd : s_sr_defns s' = s_sr_defns s }.

Lemma entry_sp_data s : SimObsEntry.entry_sp s = w_data (entry_sp s).
Proof. unfold SimObsEntry.entry_sp, entry_sp. destruct (psr_privileged (s_psr s)); reflexivity. Qed.

Lemma handle_interrupt_entry e s v p : entry_pre s v p ->
  exists s', handle_interrupt e (256 + v) (Some p) s = (s', inl tt) /\ entry_post s s' v p.
Proof.
  intros [Hst Hpsr Hrs Hv Hp Hg Hio1 Hio2].
  destruct (psr_facts (s_psr s) p Hpsr Hp) as (Hpe & _).
  rewrite <- entry_sp_data in Hio1, Hio2.
  rewrite (handle_interrupt_some_is_entry e _ p s Hg).
  rewrite (entry_body_lax e (256 + v) FInterrupt (fun x => psr_set_priority (psr_set_cc x 2) p) s Hst Hrs Hio1 Hio2)
    by (try exact Hpe; unfold IO_START, sim.IO_START; apply Z.leb_gt; lia).
  eexists. split; [reflexivity|].
  constructor; cbn [upd_pc upd_frames upd_obs entry_pushed s_mem s_regs s_pc s_psr s_saved_sp s_frame_no s_frames s_sr_defns
                    s_alloca s_instrs s_prefetch s_obs s_mcr s_flags s_ireg s_devs]; unfold entry_mem; rewrite <- ?entry_sp_data;
    try reflexivity.
  - unfold entry_swap, entry_sp. cbn [upd_saved_sp upd_regs s_regs]. destruct (psr_privileged (s_psr s)); cbn [negb]; [reflexivity|].
    unfold rset at 1 2. rewrite set_nth_twice, rget_rset_same by (exact Hrs || lia). reflexivity.
  - unfold entry_swap. cbn [upd_saved_sp s_saved_sp]. destruct (psr_privileged (s_psr s)); reflexivity.
Qed.

(* s1: state after entry, s2: state at the RTI *)
Record handler_returned (s s1 s2 : sim) : Prop := {
  hr_r6 : rget (s_regs s2) 6 = rget (s_regs s1) 6;
  hr_ssp : s_saved_sp s2 = s_saved_sp s1;
  hr_regs8 : regs8 (s_regs s2);
  hr_pc_slot : mget (s_mem s2) (wrap16 (w_data (entry_sp s) - 2)) = new_init (s_pc s);
  hr_psr_slot : mget (s_mem s2) (wrap16 (w_data (entry_sp s) - 1)) = new_init (s_psr s);
  hr_priv : psr_privileged (s_psr s2) = true;
  hr_strict : fl_strict (s_flags s2) = false }.

Lemma rti_after_entry e s v p s1 s2 :
  entry_pre s v p -> entry_post s s1 v p -> handler_returned s s1 s2 ->
  rget (s_regs s2) 6 = w_sub (entry_sp s) (new_init 2) /\
  s_saved_sp s2 = (if psr_privileged (s_psr s) then s_saved_sp s else rget (s_regs s) 6) /\
  exists o, exec e SRTI s2 = (rti_state (upd_obs s2 o) (s_pc s) (s_psr s), inl tt).
Proof.
  intros [_ _ Hrs _ _ _ Hio1 Hio2] Hpost [Hr6 Hssp Hr8 Hpcs Hpsrs Hpriv Hst].
  rewrite (eq_regs _ _ _ _ Hpost), rget_rset_same in Hr6 by (exact Hrs || lia).
  rewrite (eq_ssp _ _ _ _ Hpost) in Hssp. split; [exact Hr6|]. split; [exact Hssp|].
  pose proof (exec_rti_lax e s2 Hpriv Hst) as X. cbv zeta in X. rewrite Hr6, w_data_sub in X by lia.
  replace (wrap16 (wrap16 (w_data (entry_sp s) - 2) + 1)) with (wrap16 (w_data (entry_sp s) - 1)) in X
    by (unfold wrap16; Z.div_mod_to_equations; lia).
  rewrite Hpcs, Hpsrs in X. eexists. exact (X Hio2 Hio1).
Qed.

Lemma entry_pre_after_poll e s v p : entry_pre s v p -> entry_pre (after_poll e s) v p.
Proof. intros [A B C D E F G H]. constructor; assumption. Qed.

(* what the interrupted program can see *)
Record peq (s s' : sim) : Prop := {
  pq_pc : s_pc s' = s_pc s;
  pq_psr : s_psr s' = s_psr s;
  pq_regs : s_regs s' = s_regs s;
  pq_ssp : s_saved_sp s' = s_saved_sp s;
  pq_umem : forall a, in_user a = true -> mget (s_mem s') a = mget (s_mem s) a;
  pq_io : same_io (s_devs s) (s_devs s');
  pq_mcr : s_mcr s' = s_mcr s;
  pq_flags : s_flags s' = s_flags s;
  pq_ireg : s_ireg s' = s_ireg s;
  pq_alloca : s_alloca s' = s_alloca s }.
Lemma peq_refl s : peq s s.
Proof. constructor; auto. apply same_io_refl. Qed.
Lemma peq_trans a b c : peq a b -> peq b c -> peq a c.
Proof.
  intros [A1 A2 A3 A4 A5 A6 A7 A8 A9 A10] [B1 B2 B3 B4 B5 B6 B7 B8 B9 B10]. constructor; try congruence.
  - intros x Hx. rewrite B5, A5 by exact Hx. reflexivity.
  - eapply same_io_trans; eassumption.
Qed.

Lemma peq_sym a b : peq a b -> peq b a.
Proof.
  intros [A1 A2 A3 A4 A5 A6 A7 A8 A9 A10]. constructor; try congruence.
  - intros x Hx. symmetry. apply A5, Hx.
  - apply same_io_sym, A6.
Qed.

(* the contract of a well-behaved handler between entry (s1) and its RTI (s2) *)
Record HandlerOK (s s1 s2 : sim) : Prop := {
  hk_ret : handler_returned s s1 s2;
  hk_regs : forall k, 0 <= k -> k <> 6 -> rget (s_regs s2) k = rget (s_regs s1) k;
  hk_umem : forall a, in_user a = true -> mget (s_mem s2) a = mget (s_mem s1) a;
  hk_io : same_io (s_devs s1) (s_devs s2);
  hk_mcr : s_mcr s2 = s_mcr s1;
  hk_flags : s_flags s2 = s_flags s1;
  hk_ireg : s_ireg s2 = s_ireg s1;
  hk_alloca : s_alloca s2 = s_alloca s1 }.

Lemma regs8_ext (a b : regs) : regs8 a -> regs8 b -> (forall k, 0 <= k < 8 -> rget a k = rget b k) -> a = b.
Proof.
  unfold regs8. intros Ha Hb H. apply (nth_ext a b (mkWord 0 0) (mkWord 0 0)); [congruence|].
  intros n Hn. specialize (H (Z.of_nat n)). unfold rget in H. rewrite Nat2Z.id in H. apply H. lia.
Qed.

(* The entry stack pointer must be an initialised 16-bit word (the -2/+2 round trip then restores it exactly), at least
   2 (neither slot wraps around) and at most x3000 (the slots are then not user memory). *)
Theorem serviced_once e s v p s1 s2 :
  entry_pre s v p -> entry_post s s1 v p -> HandlerOK s s1 s2 ->
  (exists d, entry_sp s = new_init d /\ 2 <= d <= 12288) ->
  exists s3, exec e SRTI s2 = (s3, inl tt) /\ peq s s3 /\ s_instrs s3 = s_instrs s2.
Proof.
  intros Hpre Hpost [Hret Hregs Humem Hio Hmcr Hfl Hir Hal] (d & Hd & Hdr).
  destruct (rti_after_entry e s v p s1 s2 Hpre Hpost Hret) as (Hr6 & Hssp & o & X).
  eexists. split; [exact X|]. split; [|reflexivity].
  pose proof (ep_regs _ _ _ Hpre) as Hr8. pose proof (hr_regs8 _ _ _ Hret) as Hr8'.
  assert (Hback : w_add (rget (s_regs s2) 6) (new_init 2) = new_init d) by (rewrite Hr6, Hd; apply w_add_sub2_init; lia).
  (* in either mode RTI puts the interrupted R6 back and leaves the other stack pointer as the entry found it *)
  assert (Hsp : s_regs (rti_state (upd_obs s2 o) (s_pc s) (s_psr s)) = rset (s_regs s2) 6 (rget (s_regs s) 6) /\
                s_saved_sp (rti_state (upd_obs s2 o) (s_pc s) (s_psr s)) = s_saved_sp s).
  { cbn [rti_state upd_obs s_regs s_saved_sp]. rewrite Hback, Hssp. unfold entry_sp in Hd.
    destruct (psr_privileged (s_psr s)); cbn [negb]; [rewrite Hd; auto|].
    unfold rset at 1 2. rewrite set_nth_twice, rget_rset_same by (exact Hr8' || lia). auto. }
  destruct Hsp as [Hrs Hss]. constructor; rewrite ?Hrs, ?Hss; cbn [rti_state upd_obs s_mem s_pc s_psr s_mcr s_flags s_ireg s_devs s_alloca];
    try reflexivity.
  - apply regs8_ext; [unfold regs8, rset; rewrite set_nth_length; exact Hr8'|exact Hr8|]. intros k Hk.
    destruct (Z.eq_dec k 6) as [->|Hk6]; [apply rget_rset_same; [exact Hr8'|lia]|].
    rewrite rget_rset_other, Hregs, (eq_regs _ _ _ _ Hpost) by lia. apply rget_rset_other; lia.
  - intros a Ha. rewrite Humem by exact Ha. rewrite (eq_mem _ _ _ _ Hpost). unfold entry_mem. rewrite Hd. cbn [w_data new_init].
    pose proof (in_user_range _ Ha). pose proof (wrap16_range (d - 1)). pose proof (wrap16_range (d - 2)).
    rewrite !mget_mset_other; try lia; try reflexivity; unfold wrap16; Z.div_mod_to_equations; lia.
  - rewrite <- (eq_devs _ _ _ _ Hpost). exact Hio.
  - rewrite Hmcr. apply (eq_mcr _ _ _ _ Hpost).
  - rewrite Hfl. apply (eq_flags _ _ _ _ Hpost).
  - rewrite Hir. apply (eq_ireg _ _ _ _ Hpost).
  - rewrite Hal. apply (eq_alloca _ _ _ _ Hpost).
Qed.

Lemma serviced_step e e' s v p s1 s2 s3 :
  entry_pre s v p -> handle_interrupt e (256 + v) (Some p) s = (s1, inl tt) -> HandlerOK s s1 s2 ->
  (exists d, entry_sp s = new_init d /\ 2 <= d <= 12288) -> exec e' SRTI s2 = (s3, inl tt) -> peq s s3.
Proof.
  intros Hpre Hent Hok Hsp Hrti. destruct (handle_interrupt_entry e s v p Hpre) as (s1' & Hent' & Hpost).
  rewrite Hent in Hent'. injection Hent' as <-.
  destruct (serviced_once e' s v p s1 s2 Hpre Hpost Hok Hsp) as (s3' & Hrti' & Hpeq & _).
  rewrite Hrti in Hrti'. injection Hrti' as <-. exact Hpeq.
Qed.

(* interrupts serviced one after the other at one boundary; that each won the arbitration is asked only by [IrqCongruence.Svc] *)
Inductive Serviced (e : env) : sim -> sim -> Prop :=
| sv_nil s : Serviced e s s
| sv_cons s v p s1 s2 s3 s' :
    entry_pre s v p -> handle_interrupt e (256 + v) (Some p) s = (s1, inl tt) -> HandlerOK s s1 s2 ->
    (exists d, entry_sp s = new_init d /\ 2 <= d <= 12288) ->
    exec e SRTI s2 = (s3, inl tt) -> Serviced e s3 s' -> Serviced e s s'.
