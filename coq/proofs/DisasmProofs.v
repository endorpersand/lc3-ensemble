(* DisasmProofs.v — C07: which words the disassembler returns as `.fill` ([fill_rule]). *)
From Coq Require Import ZArith List Bool Lia.
From Model Require Import Text Instr AsmAst Disasm.
From Proofs Require Import Ranges.
Import ListNotations.
Open Scope Z_scope.

Definition is_fill (s : stmt) : bool := match s_nucleus s with NDir (DFill (POff _)) => true | _ => false end.
Definition decodes (w : Z) : bool := match decode w with DOk _ => true | _ => false end.

Lemma fill_rule w :
  if (w <? 512) || negb (decodes w)
  then s_nucleus (disassemble w) = NDir (DFill (POff w))
  else exists i, s_nucleus (disassemble w) = NInstr i.
Proof.
  unfold disassemble, try_disassemble, decodes. destruct (w <? 512); [reflexivity|].
  destruct (decode w); cbn [orb negb s_nucleus]; try reflexivity. eexists; reflexivity.
Qed.

Definition alias_chk (w : Z) : bool :=
  let t := disasm_text w in
  if w =? 49600 then str_eqb t [82; 69; 84]                       (* RET *)
  else if w =? 61472 then str_eqb t [71; 69; 84; 67]              (* GETC *)
  else if w =? 61473 then str_eqb t [80; 85; 84; 67]              (* PUTC *)
  else if w =? 61474 then str_eqb t [80; 85; 84; 83]              (* PUTS *)
  else if w =? 61475 then str_eqb t [73; 78]                      (* IN *)
  else if w =? 61476 then str_eqb t [80; 85; 84; 83; 80]          (* PUTSP *)
  else if w =? 61477 then str_eqb t [72; 65; 76; 84]              (* HALT *)
  else if w =? 32768 then str_eqb t [82; 84; 73]                  (* RTI *)
  else true.
Lemma alias_chk_all w : alias_chk w = true.
Proof.
  unfold alias_chk.
  repeat (destruct (w =? _) eqn:E; [apply Z.eqb_eq in E; subst w; reflexivity|clear E]).
  reflexivity.
Qed.
Lemma alias_sweep : forallb alias_chk (zrange 0 (Z.to_nat 65536)) = true.
Proof. apply forallb_forall. intros w _. apply alias_chk_all. Qed.
