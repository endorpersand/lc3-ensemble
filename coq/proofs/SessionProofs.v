(* SessionProofs.v — the non-machine part of a simulator (model/Session.v): reset keeps the breakpoints. *)
From Coq Require Import ZArith List Bool.
From Model Require Import Sim Load Run Session.
Import ListNotations.
Open Scope Z_scope.

Theorem session_reset_keeps e fill ss :
  ss_bps (session_reset e fill ss) = ss_bps ss /\
  ss_sim (session_reset e fill ss) = reset e (ss_sim ss) fill.
Proof. split; reflexivity. Qed.

Theorem session_reset_breakpoints_effective e fill ss s :
  any_bp (ss_bps (session_reset e fill ss)) s = any_bp (ss_bps ss) s.
Proof. reflexivity. Qed.
