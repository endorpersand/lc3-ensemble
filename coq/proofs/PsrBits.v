(* PsrBits.v — the PSR as a 16-bit field record: bit 15 is the user-mode bit, so "privileged" is
   "below x8000"; a 16-bit value is the weighted sum of its bits ([bsum]), which turns an identity between masked
   values into a linear one; the setters keep 16 bits; the condition codes a value sets and a branch tests. *)
From Coq Require Import ZArith List Bool Lia.
From Model Require Import Bits Sim.
From Proofs Require Export BitsFacts.
Import ListNotations.
Open Scope Z_scope.

(* for any p: the setters mask it first *)
Lemma psr_set_cc_lt16 p c : 0 <= psr_set_cc p c < 65536.
Proof.
  unfold psr_set_cc. apply lor_lt16; [apply land_lt16; lia|].
  destruct (one_hot3 (Z.land c 7)) eqn:E; [|lia].
  unfold one_hot3 in E. lia.
Qed.
Lemma psr_set_lt16 d : 0 <= psr_set d < 65536.
Proof. apply psr_set_cc_lt16. Qed.
Lemma psr_set_privileged_lt16 p b : 0 <= psr_set_privileged p b < 65536.
Proof. unfold psr_set_privileged. apply lor_lt16; [apply land_lt16; lia|destruct b; lia]. Qed.
Lemma psr_set_priority_lt16 p q : 0 <= psr_set_priority p q < 65536.
Proof.
  unfold psr_set_priority. apply lor_lt16; [apply land_lt16; lia|].
  rewrite Z.shiftl_mul_pow2 by lia. pose proof (land7_range q). change (2 ^ 8) with 256. lia.
Qed.

Lemma bit15 x : 0 <= x < 65536 -> Z.testbit x 15 = (32768 <=? x).
Proof.
  intros H. rewrite Z.testbit_eqb by lia. change (2 ^ 15) with 32768.
  destruct (Z.leb_spec 32768 x); [apply Z.eqb_eq|apply Z.eqb_neq]; Z.div_mod_to_equations; lia.
Qed.

Fixpoint bsum (x : Z) (n : nat) : Z :=
  match n with O => 0 | S m => bsum x m + Z.b2z (Z.testbit x (Z.of_nat m)) * 2 ^ Z.of_nat m end.
Lemma bsum_mod x n : bsum x n = x mod 2 ^ Z.of_nat n.
Proof.
  induction n as [|n IH]; cbn [bsum].
  - rewrite Z.mod_1_r. reflexivity.
  - rewrite IH, Nat2Z.inj_succ, Z.pow_succ_r, (Z.mul_comm 2), Z.rem_mul_r, Z.testbit_spec' by lia. ring.
Qed.
Lemma bsum16 x : 0 <= x < 65536 -> x = bsum x 16.
Proof. intros H. rewrite bsum_mod. symmetry. apply Z.mod_small. exact H. Qed.

Lemma psr_privileged_lt p : 0 <= p -> psr_privileged p = (p <? 32768).
Proof.
  intros H. unfold psr_privileged. rewrite Z.shiftr_div_pow2 by lia. change (2 ^ 15) with 32768.
  destruct (Z.ltb_spec p 32768).
  - rewrite Z.div_small by lia. reflexivity.
  - apply Z.eqb_neq. pose proof (Z.div_le_lower_bound p 32768 1). lia.
Qed.

Lemma psr_set_priv_true p : psr_set_privileged p true = Z.land p 32767.
Proof. unfold psr_set_privileged. apply Z.lor_0_r. Qed.
Lemma psr_priv_set p : psr_privileged (psr_set_privileged p true) = true.
Proof.
  rewrite psr_set_priv_true, psr_privileged_lt by (apply land_lt16; lia).
  change 32767 with (Z.ones 15). rewrite Z.land_ones by lia. apply Z.ltb_lt. apply Z.mod_pos_bound. reflexivity.
Qed.

Lemma psr_set_cc_user p c : 32768 <= p < 65536 -> 32768 <= psr_set_cc p c < 65536.
Proof.
  intros H. unfold psr_set_cc. set (k := if one_hot3 (Z.land c 7) then Z.land c 7 else 2).
  assert (Hk : 0 <= k < 65536).
  { pose proof (land7_range c). unfold k. destruct (one_hot3 (Z.land c 7)); lia. }
  pose proof (lor_lt16 _ k (land_lt16 p 65528 ltac:(lia)) Hk) as B.
  split; [|apply B]. apply Z.leb_le. rewrite <- bit15 by exact B.
  rewrite Z.lor_spec, Z.land_spec, (bit15 p) by lia.
  destruct H as [H _]. apply Z.leb_le in H. rewrite H. reflexivity.
Qed.

Lemma psr_priv_set_cc p c : psr_privileged p = true -> psr_privileged (psr_set_cc p c) = true.
Proof.
  unfold psr_privileged, psr_set_cc. intros H. apply Z.eqb_eq in H. apply Z.eqb_eq.
  rewrite Z.shiftr_lor, Z.shiftr_land, H. rewrite Z.land_0_l, Z.lor_0_l.
  destruct (one_hot3 (Z.land c 7)); [|reflexivity].
  rewrite Z.shiftr_land. change (Z.shiftr 7 15) with 0. apply Z.land_0_r.
Qed.

Lemma one_hot3_cases x : one_hot3 x = true -> x = 1 \/ x = 2 \/ x = 4.
Proof.
  unfold one_hot3. intros H. apply orb_prop in H. destruct H as [H|H]; [apply orb_prop in H; destruct H as [H|H]|];
  apply Z.eqb_eq in H; auto.
Qed.
Definition cc_norm (c : Z) : Z := if one_hot3 (Z.land c 7) then Z.land c 7 else 2.
Lemma cc_norm_cases c : cc_norm c = 1 \/ cc_norm c = 2 \/ cc_norm c = 4.
Proof. unfold cc_norm. destruct (one_hot3 (Z.land c 7)) eqn:E; [apply one_hot3_cases; exact E|auto]. Qed.
Lemma psr_set_cc_idem p a b : psr_set_cc (psr_set_cc p a) b = psr_set_cc p b.
Proof.
  unfold psr_set_cc. fold (cc_norm a) (cc_norm b). f_equal.
  rewrite Z.land_lor_distr_l. rewrite <- Z.land_assoc. change (Z.land 65528 65528) with 65528.
  destruct (cc_norm_cases a) as [-> | [-> | ->]]; cbn; apply Z.lor_0_r.
Qed.
Lemma psr_cc_set_cc p c : psr_cc (psr_set_cc p c) = cc_norm c.
Proof.
  unfold psr_cc, psr_set_cc. fold (cc_norm c). rewrite Z.land_lor_distr_l. rewrite <- Z.land_assoc.
  change (Z.land 65528 7) with 0. rewrite Z.land_0_r, Z.lor_0_l.
  destruct (cc_norm_cases c) as [-> | [-> | ->]]; reflexivity.
Qed.
Lemma cc_of_cases x : cc_of x = 4 \/ cc_of x = 2 \/ cc_of x = 1.
Proof. unfold cc_of. destruct (to_i16 x <? 0); auto. destruct (to_i16 x =? 0); auto. Qed.
Lemma cc_norm_cc_of x : cc_norm (cc_of x) = cc_of x.
Proof. destruct (cc_of_cases x) as [-> | [-> | ->]]; reflexivity. Qed.

Lemma cc_of_spec x : 0 <= x < 65536 -> cc_of x = if x =? 0 then 2 else if x <? 32768 then 1 else 4.
Proof.
  intros H. unfold cc_of, to_i16. rewrite wrap16_small by lia.
  destruct (x =? 0) eqn:E0; [apply Z.eqb_eq in E0; subst x; reflexivity | apply Z.eqb_neq in E0].
  destruct (x <? 32768) eqn:E; [apply Z.ltb_lt in E | apply Z.ltb_ge in E].
  - replace (x <? 0) with false by (symmetry; apply Z.ltb_ge; lia).
    replace (x =? 0) with false by (symmetry; apply Z.eqb_neq; lia). reflexivity.
  - replace (x - 65536 <? 0) with true by (symmetry; apply Z.ltb_lt; lia). reflexivity.
Qed.
Lemma br_spec cc x : 0 <= x < 65536 ->
  negb (Z.land cc (cc_norm (cc_of x)) =? 0) = negb (Z.land cc (if x =? 0 then 2 else if x <? 32768 then 1 else 4) =? 0).
Proof. intros H. rewrite cc_norm_cc_of, cc_of_spec by exact H. reflexivity. Qed.
Lemma br_always x : negb (Z.land 7 (cc_norm (cc_of x)) =? 0) = true.
Proof. rewrite cc_norm_cc_of. destruct (cc_of_cases x) as [-> | [-> | ->]]; reflexivity. Qed.

Lemma psr16_set_cc p c : 0 <= p < 65536 -> psr_privileged p = false ->
  0 <= psr_set_cc p c < 65536 /\ psr_privileged (psr_set_cc p c) = false.
Proof.
  intros Hp Hu. rewrite psr_privileged_lt in Hu by lia. apply Z.ltb_ge in Hu.
  pose proof (psr_set_cc_user p c ltac:(lia)) as H.
  split; [lia|]. rewrite psr_privileged_lt by lia. apply Z.ltb_ge. lia.
Qed.
