(* SimRefineExec.v — [exec] and the trap/interrupt entry refine [execute] / [enter] of the reference semantics,
   in non-strict mode. *)
From Coq Require Import ZArith List Bool Lia.
From Model Require Import Bits Word Instr Sim IsaWire.
From Spec Require Import IsaSpec.
From Proofs Require Import PsrBits SimHoare SimAccess SimObsEntry SimRefinePrims.
Import ListNotations.
Open Scope Z_scope.

Definition sout_of {A} (r : A + brk) : option sout :=
  match r with
  | inl _ => Some SOk | inr BHalt => Some SHalt | inr (BErr e) => Some (SErr e) | inr BPanic => None
  end.

Lemma set_reg_lax dr v s : set_reg_if_init dr v false s = (upd_regs s (rset (s_regs s) dr v), inl tt).
Proof. reflexivity. Qed.
Lemma set_cc_run r s : set_cc r s = (upd_psr s (psr_set_cc (s_psr s) (cc_of r)), inl tt).
Proof. reflexivity. Qed.

Lemma cc_of_nzp v : cc_of v = nzp v. Proof. reflexivity. Qed.
Lemma psr_set_cc_nzp p v : psr_set_cc p (cc_of v) = Z.lor (Z.land p 65528) (nzp v).
Proof.
  unfold psr_set_cc, cc_of, nzp. destruct (to_i16 v <? 0); [reflexivity|]. destruct (to_i16 v =? 0); reflexivity.
Qed.
Lemma abs_set_cc s v : abs (upd_psr s (psr_set_cc (s_psr s) (cc_of v))) = with_cc (abs s) v.
Proof. rewrite psr_set_cc_nzp. reflexivity. Qed.

Lemma abs_swap s : abs (upd_saved_sp (upd_regs s (rset (s_regs s) 6 (s_saved_sp s))) (rget (s_regs s) 6)) = swap_stacks (abs s).
Proof.
  unfold swap_stacks. rewrite abs_upd_saved_sp, abs_upd_regs, areg_abs. reflexivity.
Qed.

Lemma swap_unless_ref (priv : bool) s :
  exists s1, (if negb priv then swap_sp else ret tt) s = (s1, inl tt)
    /\ abs s1 = (if priv then abs s else swap_stacks (abs s)) /\ s_flags s1 = s_flags s.
Proof. destruct priv; eexists; (split; [reflexivity|]); split; try reflexivity. apply abs_swap. Qed.

Lemma w_add_data_2 l : 0 <= w_data l < 65536 -> w_data (w_add l (new_init 2)) = wrap16 (w_data l + 2).
Proof. intros _. apply w_data_add. lia. Qed.

Lemma write_mem_priv_ok e a w c s : c_priv c = true -> c_strict c = false -> snd (write_mem e a w c s) = inl tt.
Proof.
  intros Hp Hs. rewrite write_mem_eq. unfold may_store. rewrite Hp, Hs. cbn [negb andb orb].
  destruct (IO_START <=? a); [destruct (io_write e a (w_data w) s) as [s1 [|]]|]; reflexivity.
Qed.
Lemma read_mem_priv_ok e a c s : c_priv c = true -> exists w, snd (read_mem e a c s) = inl w.
Proof. intros Hp. unfold read_mem. rewrite Hp. cbn [negb andb]. eexists; reflexivity. Qed.

Lemma lax_flags s s' : s_flags s' = s_flags s -> lax s -> lax s'.
Proof. unfold lax, strict. intros ->. auto. Qed.

(* the flags travel with the result: after every access the continuation must have [lax] again ([lax_flags]) *)
Definition refines (x : sim * (unit + brk)) (y : astate * sout) (fl : flags) : Prop :=
  exists o, sout_of (snd x) = Some o /\ y = (abs (fst x), o) /\ s_flags (fst x) = fl.

Lemma refines_ok s (a : astate) fl : a = abs s -> s_flags s = fl -> refines (s, inl tt) (a, SOk) fl.
Proof. intros -> F. exists SOk. repeat split. exact F. Qed.

(* the access violation is dealt with here *)
Lemma ref_read e a c (k : word -> M unit) (K : Z -> astate -> astate * sout) s fl :
  c_io c = true -> s_flags s = fl ->
  (forall w s1, s_flags s1 = fl -> s_psr s1 = s_psr s -> s_regs s1 = s_regs s -> s_pc s1 = s_pc s ->
                refines (k w s1) (K (w_data w) (abs s1)) fl) ->
  refines (bind (read_mem e a c) k s)
          (match load e (c_priv c) a (abs s) with
           | (a', Some v) => K v a'
           | (a', None) => (a', SErr AccessViolation)
           end) fl.
Proof.
  intros Hio F Hk. rewrite run_bind, (read_mem_refines e a c s Hio).
  pose proof (read_mem_fails e a c s) as Hb.
  destruct (read_mem e a c s) as [s1 r] eqn:R. destruct (read_mem_kept e a c s s1 r R) as (Kp & Hc & Hp & _).
  pose proof (kp_flags _ _ Kp) as Hf. destruct r as [w|b]; cbn [fst snd ropt] in *.
  - apply Hk; [congruence|exact Hp|exact (kp_regs _ _ Kp)|exact Hc].
  - rewrite (Hb b eq_refl). exists (SErr AccessViolation). cbn [fst snd]. repeat split. congruence.
Qed.

Lemma ref_write e a w c s fl :
  c_strict c = false -> s_flags s = fl ->
  refines (write_mem e a w c s)
          (match store e (c_priv c) a (w_data w) (abs s) with
           | (a', true) => (a', SOk)
           | (a', false) => (a', SErr AccessViolation)
           end) fl.
Proof.
  intros Hs F. rewrite (write_mem_refines e a w c s Hs).
  pose proof (write_mem_fails e a w c s) as Hb.
  pose proof (write_mem_flags e a w c s) as Hf.
  destruct (write_mem e a w c s) as [s1 [[]|b]]; cbn [fst snd is_inl] in *.
  - apply refines_ok; [reflexivity|congruence].
  - destruct (Hb b eq_refl) as [-> | [Hc _]]; [|congruence].
    exists (SErr AccessViolation). cbn [fst snd]. repeat split. congruence.
Qed.

(* a supervisor push of an initialised word cannot fail; the specification ignores its result *)
Lemma ref_push e a d c (k : unit -> M unit) (K : astate -> astate * sout) s fl :
  c_priv c = true -> c_strict c = false -> s_flags s = fl ->
  (forall s1, s_flags s1 = fl -> refines (k tt s1) (K (abs s1)) fl) ->
  refines (bind (write_mem e a (new_init d) c) k s) (let '(a', _) := store e true a d (abs s) in K a') fl.
Proof.
  intros P S F Hk. rewrite run_bind.
  pose proof (write_mem_refines e a (new_init d) c s S) as W.
  pose proof (write_mem_priv_ok e a (new_init d) c s P S) as O.
  pose proof (write_mem_flags e a (new_init d) c s) as Ff.
  rewrite P in W. cbn [w_data new_init] in W. rewrite W.
  destruct (write_mem e a (new_init d) c s) as [s1 r]. cbn [fst snd] in *. subst r. apply Hk. congruence.
Qed.

Lemma ref_set_reg_cc dr v s fl : s_flags s = fl ->
  refines ((set_reg_if_init dr v false ;;; set_cc (w_data v)) s)
          (with_cc (with_reg (abs s) dr (w_data v)) (w_data v), SOk) fl.
Proof.
  intros F. rewrite run_bind, set_reg_lax, set_cc_run. apply refines_ok; [|exact F].
  rewrite abs_set_cc, abs_upd_regs. reflexivity.
Qed.

Lemma call_interrupt_refines e vect ft s fl :
  lax s -> s_flags s = fl ->
  refines (call_interrupt e vect ft s)
          (let '(a7, target) := load e (may_access_all (abs s)) vect (abs s) in
           match target with Some t => (with_pc a7 t, SOk) | None => (a7, SErr AccessViolation) end) fl.
Proof.
  intros Hlax Fl. unfold call_interrupt. rewrite run_bind, run_get.
  apply (ref_read e vect (default_ctx s) _ (fun t a7 => (with_pc a7 t, SOk))); [reflexivity|exact Fl|].
  intros w s1 F _ _ _. rewrite run_bind, run_get.
  assert (lax s1) as L1 by (eapply lax_flags; [|exact Hlax]; congruence).
  rewrite L1. unfold get_if_init. cbn [negb orb of_opt]. rewrite run_bind, run_ret, run_bind.
  rewrite push_frame_run, set_pc_lax by exact L1. apply refines_ok; [reflexivity|exact F].
Qed.

Definition entry_psr (p : Z) (prio : option Z) : Z :=
  match prio with Some q => psr_set_priority (psr_set_cc p 2) q | None => psr_set_cc p 2 end.

Lemma psr_set_cc_2 p : psr_set_cc p 2 = Z.lor (Z.land p 65528) 2. Proof. reflexivity. Qed.

(* [entry_body] with the two PSR functions of [handle_interrupt_eq] as one [entry_psr] *)
Definition do_entry (e : env) (vect : Z) (prio : option Z) : M unit :=
  s <- get ;;
  (if negb (psr_privileged (s_psr s)) then swap_sp else ret tt) ;;;
  s <- get ;;
  let old_psr := s_psr s in let old_pc := s_pc s in
  modify (fun s => upd_psr s (psr_set_privileged (s_psr s) true)) ;;;
  s <- get ;;
  let mctx := default_ctx s in
  sp <- of_opt (get_if_init (rget (s_regs s) 6) (strict s)) StrictMemAddrUninit ;;
  modify (fun s => upd_regs s (rset (s_regs s) 6 (w_sub (rget (s_regs s) 6) (new_init 2)))) ;;;
  write_mem e (wrap16 (sp - 1)) (new_init old_psr) mctx ;;;
  write_mem e (wrap16 (sp - 2)) (new_init old_pc) mctx ;;;
  modify (fun s => upd_psr s (entry_psr (s_psr s) prio)) ;;;
  call_interrupt e vect (match prio with Some _ => FInterrupt | None => FTrap end).

Lemma do_entry_is_entry_body e v prio s :
  do_entry e v prio s =
  entry_body e v (match prio with Some _ => FInterrupt | None => FTrap end) (fun x => entry_psr x prio) s s.
Proof. reflexivity. Qed.
Lemma do_entry_ref e vect prio s :
  lax s -> refines (do_entry e vect prio s) (enter e vect prio (abs s)) (s_flags s).
Proof.
  intros Hlax. unfold do_entry, enter. rewrite run_bind, run_get, run_bind.
  change (supervisor (abs s)) with (psr_privileged (s_psr s)).
  destruct (swap_unless_ref (psr_privileged (s_psr s)) s) as (s1 & E1 & A1 & F1). rewrite E1, <- A1. clear E1 A1.
  rewrite run_bind, run_get, run_bind, run_modify, run_bind, run_get.
  set (s2 := upd_psr s1 (psr_set_privileged (s_psr s1) true)).
  assert (L2 : lax s2) by (eapply lax_flags; [|exact Hlax]; exact F1).
  rewrite L2. unfold get_if_init. cbn [negb orb of_opt]. rewrite run_bind, run_ret, run_bind, run_modify.
  set (sp := w_data (rget (s_regs s2) 6)).
  set (s3 := upd_regs s2 (rset (s_regs s2) 6 (w_sub (rget (s_regs s2) 6) (new_init 2)))).
  assert (P2 : c_priv (default_ctx s2) = true).
  { unfold default_ctx, s2. cbn [c_priv s_psr upd_psr]. rewrite psr_priv_set. reflexivity. }
  assert (S2 : c_strict (default_ctx s2) = false) by exact L2.
  change (a_psr (abs s1)) with (s_psr s1). change (a_pc (abs s1)) with (s_pc s1).
  assert (A2 : with_psr (abs s1) (Z.land (s_psr s1) 32767) = abs s2).
  { unfold s2. rewrite abs_upd_psr, psr_set_priv_true. reflexivity. }
  rewrite A2. rewrite areg_abs. fold sp.
  assert (A3 : with_reg (abs s2) 6 (wrap16 (sp - 2)) = abs s3).
  { unfold s3. rewrite abs_upd_regs, w_data_sub by lia. reflexivity. }
  rewrite A3.
  assert (F3 : s_flags s3 = s_flags s) by exact F1.
  apply ref_push; [exact P2|exact S2|exact F3|]. intros s4 F4.
  apply ref_push; [exact P2|exact S2|exact F4|]. intros s5 F5.
  rewrite run_bind, run_modify.
  set (s6 := upd_psr s5 (entry_psr (s_psr s5) prio)).
  assert (A6 : with_psr (abs s5) (match prio with
                 | Some p => Z.lor (Z.land (Z.lor (Z.land (a_psr (abs s5)) 65528) 2) 63743) (Z.shiftl (Z.land p 7) 8)
                 | None => Z.lor (Z.land (a_psr (abs s5)) 65528) 2 end) = abs s6).
  { unfold s6. rewrite abs_upd_psr. destruct prio; reflexivity. }
  rewrite A6. apply call_interrupt_refines; [|exact F5]. eapply lax_flags; [exact F5|exact Hlax].
Qed.

(* past the gate: the priority test of an interrupt, the virtual short-cut of a trap or exception *)
Lemma handle_interrupt_ref e v prio s :
  lax s ->
  match prio with
  | Some p => psr_priority (s_psr s) < p
  | None => (if fl_real (s_flags s) then None else real_int_vect v) = None
  end -> refines (handle_interrupt e v prio s) (enter e v prio (abs s)) (s_flags s).
Proof.
  intros L G. replace (handle_interrupt e v prio s) with (do_entry e v prio s); [apply do_entry_ref, L|].
  rewrite do_entry_is_entry_body, handle_interrupt_eq.
  destruct prio as [p|]; [apply Z.leb_gt in G|]; rewrite G; reflexivity.
Qed.

Definition wf_regs (s : sim) : Prop := forall r, 0 <= w_data (rget (s_regs s) r) < 65536.
Lemma wf_regs_forall s : Forall (fun w => 0 <= w_data w < 65536) (s_regs s) -> wf_regs s.
Proof.
  intros F r. unfold rget. destruct (nth_in_or_default (Z.to_nat r) (s_regs s) (mkWord 0 0)) as [Hin|E].
  - rewrite Forall_forall in F. apply F. exact Hin.
  - rewrite E. cbn. lia.
Qed.

Lemma operand_abs s o : operand_value (abs s) o = w_data (operand s o).
Proof. destruct o; cbn [operand_value operand]; [reflexivity | apply areg_abs]. Qed.
Lemma operand_range s o : wf_regs s -> 0 <= w_data (operand s o) < 65536.
Proof. intros W. destruct o; cbn [operand]; [apply wrap16_range | apply W]. Qed.

(* [start H], H : lax s: the instruction's own branch, the strict tests decided by H, [a_pc (abs x)] as [s_pc x] *)
Ltac start H :=
  unfold exec; rewrite run_bind, run_get; cbv zeta; rewrite ?H; cbn [andb execute];
  unfold get_if_init; cbn [negb orb of_opt]; rewrite ?run_bind, ?run_ret;
  repeat match goal with |- context [a_pc (abs ?x)] => change (a_pc (abs x)) with (s_pc x) end.

(* a vector x100-x102 would meet the exceptions' virtual short-cuts, which [execute] has not; [decode] yields none *)
Definition trap_ok (i : sim_instr) : Prop := match i with STRAP v => 0 <= v < 256 | _ => True end.

Theorem exec_ref e i s :
  lax s -> wf_regs s -> s_prefetch s = false -> trap_ok i ->
  refines (exec e i s) (execute e (wrap16 (s_pc s - 1)) i (abs s)) (s_flags s).
Proof.
  intros H W Hpf Hv.
  destruct i as [cc off|dr sr1 o|dr off|sr off|o|dr sr1 o|dr br off|sr br off| |dr sr|dr off|sr off|br|dr off|v]; start H.
  - change (cond_codes (abs s)) with (psr_cc (s_psr s)).
    destruct (Z.land cc (psr_cc (s_psr s)) =? 0); cbn [negb]; [|rewrite offset_pc_lax by exact H]; apply refines_ok; reflexivity.
  - rewrite areg_abs, operand_abs, <- w_add_data by (first [apply W | apply operand_range; exact W]).
    apply ref_set_reg_cc. reflexivity.
  - apply ref_read; [reflexivity|reflexivity|]. intros w s1 F _ _ _. apply ref_set_reg_cc. exact F.
  - rewrite areg_abs. apply ref_write; reflexivity.
  - unfold call_subroutine. rewrite run_bind, run_modify, run_bind, run_get, run_bind.
    rewrite push_frame_run, set_pc_lax by exact H. apply refines_ok; [|reflexivity].
    cbn [w_data new_init]. rewrite abs_upd_pc, abs_upd_frames, abs_upd_regs.
    destruct o; cbn [w_data new_init]; [reflexivity | rewrite areg_abs; reflexivity].
  - rewrite areg_abs, operand_abs. apply (ref_set_reg_cc dr (w_and (rget (s_regs s) sr1) (operand s o))). reflexivity.
  - rewrite areg_abs. apply ref_read; [reflexivity|reflexivity|]. intros w s1 F _ _ _. apply ref_set_reg_cc. exact F.
  - rewrite !areg_abs. apply ref_write; reflexivity.
  - rewrite may_access_abs.
    change (psr_privileged (s_psr s) || fl_ignore_priv (s_flags s)) with (c_priv (default_ctx s)).
    destruct (c_priv (default_ctx s)) eqn:P; cbn [negb]; [|exists (SErr PrivilegeViolation); repeat split].
    rewrite areg_abs, <- P.
    apply ref_read; [reflexivity|reflexivity|]. intros w1 s1 F1 _ _ _. rewrite run_bind, run_ret.
    apply ref_read; [reflexivity|exact F1|]. intros w2 s2 F2 _ _ _.
    rewrite run_bind, run_ret, run_bind, run_modify, run_bind.
    set (s3 := upd_regs s2 (rset (s_regs s2) 6 (w_add (rget (s_regs s2) 6) (new_init 2)))).
    assert (L3 : lax s3) by (eapply lax_flags; [|exact H]; exact F2).
    rewrite set_pc_lax by exact L3. rewrite run_bind, run_modify, run_bind.
    set (s4 := upd_psr (upd_pc s3 (w_data (new_init (w_data w1)))) (w_data w2)).
    change (Z.shiftr (w_data w2) 15 =? 0) with (psr_privileged (w_data w2)).
    assert (A4 : with_psr (with_pc (with_reg (abs s2) 6 (wrap16 (areg (abs s2) 6 + 2))) (w_data w1)) (w_data w2) = abs s4).
    { unfold s4, s3. rewrite abs_upd_psr, abs_upd_pc, abs_upd_regs, areg_abs, w_data_add by lia. reflexivity. }
    rewrite A4.
    destruct (swap_unless_ref (psr_privileged (w_data w2)) s4) as (s5 & E5 & A5 & F5). rewrite E5, <- A5.
    unfold pop_frame. rewrite run_modify. apply refines_ok; [reflexivity|rewrite <- F2; exact F5].
  - rewrite areg_abs. apply (ref_set_reg_cc dr (w_not (rget (s_regs s) sr))). reflexivity.
  - apply ref_read; [reflexivity|reflexivity|]. intros w s1 F P _ _. rewrite run_bind, run_ret, run_bind, run_get. cbv zeta.
    replace (default_ctx s1) with (default_ctx s) by (unfold default_ctx; rewrite P, F; reflexivity).
    apply ref_read; [reflexivity|exact F|]. intros v s2 F2 _ _ _. apply ref_set_reg_cc. exact F2.
  - apply ref_read; [reflexivity|reflexivity|]. intros w s1 F _ _ _. rewrite run_bind, run_ret, run_bind, run_get. cbv zeta.
    rewrite areg_abs. apply ref_write; [reflexivity|exact F].
  - rewrite set_pc_lax by exact H. rewrite areg_abs. destruct (br =? 7).
    + unfold pop_frame. rewrite run_modify. apply refines_ok; reflexivity.
    + rewrite run_ret. apply refines_ok; reflexivity.
  - rewrite run_modify. apply refines_ok; [rewrite abs_upd_regs; reflexivity|reflexivity].
  - cbn [trap_ok] in Hv. change (a_real (abs s)) with (fl_real (s_flags s)).
    destruct (negb (fl_real (s_flags s)) && (v =? 37)) eqn:B.
    + apply andb_prop in B as [R E]. apply negb_true_iff in R.
      rewrite handle_interrupt_eq, R, (real_int_vect_trap v Hv), E, shortcut_eq, Hpf. exists SHalt. repeat split.
    + apply handle_interrupt_ref; [exact H|].
      rewrite (real_int_vect_trap v Hv). destruct (fl_real (s_flags s)); [reflexivity|]. cbn [negb andb] in B. rewrite B. reflexivity.
Qed.
