(* SimFrames.v — C27 at instruction level: the effect of every instruction and of entry on the frame depth, on
   successful paths, and the frame a call and an entry record.  Only push_frame and pop_frame change the depth;
   what surrounds them keeps it on every path, an invariant ([Fn n]) in the sense of SimHoare.v. *)
From Coq Require Import ZArith List Bool Lia.
From Model Require Import Bits Word Instr Sim.
From Proofs Require Import SimHoare SimAccess SimObsEntry.
Import ListNotations.
Open Scope Z_scope.

Definition Fn (n : Z) (s : sim) : Prop := s_frame_no s = n.
(* [DE n m k]: from depth n, whenever m succeeds the depth is k *)
Definition DE {A} (n : Z) (m : M A) (k : Z) : Prop := hoare (Fn n) m (fun _ => Fn k) (fun _ _ => True).

Lemma de_run {A} (m : M A) k s s' a : DE (s_frame_no s) m k -> m s = (s', inl a) -> s_frame_no s' = k.
Proof. intros H E. specialize (H s eq_refl). rewrite E in H. exact H. Qed.

Lemma de_keeps {A} n (m : M A) (Q : A -> Prop) : hoareI (Fn n) m Q anyv -> DE n m n.
Proof. intros H. apply (hoare_conseq _ _ _ _ _ _ _ H); [auto|intros a s [? _]; assumption|auto]. Qed.
Lemma de_bind {A B} n j l (m : M A) (k : A -> M B) : DE n m j -> (forall a, DE j (k a) l) -> DE n (bind m k) l.
Proof. intros Hm Hk. exact (hoare_bind _ m k _ _ _ Hm Hk). Qed.
Lemma de_bind_keeps {A B} n l (m : M A) (k : A -> M B) (Q : A -> Prop) :
  hoareI (Fn n) m Q anyv -> (forall a, DE n (k a) l) -> DE n (bind m k) l.
Proof. intros Hm. apply de_bind. exact (de_keeps n m Q Hm). Qed.
Lemma de_bind_get {B} n l (k : sim -> M B) : (forall s0, DE n (k s0) l) -> DE n (bind get k) l.
Proof. intros Hk. apply (hoare_bind _ get k (fun _ => Fn n)); [|exact Hk]. exact (hoare_get (fun _ => Fn n) _). Qed.
Lemma de_fail {A} n b k : DE n (@fail A b) k.
Proof. intros s _. exact Logic.I. Qed.

Lemma de_push a b f n : DE n (push_frame a b f) (n + 1).
Proof. intros s Hn. rewrite push_frame_run. unfold Fn in *. cbn [upd_frames s_frame_no]. rewrite Hn. reflexivity. Qed.
Lemma de_pop n : DE n pop_frame (Z.max 0 (n - 1)).
Proof. intros s Hn. unfold pop_frame, modify, Fn in *. cbn. rewrite Hn. reflexivity. Qed.

Lemma fn_read n e a c : hoareI (Fn n) (read_mem e a c) anyv anyv.
Proof. apply inv_hi. intros s H. unfold Fn. rewrite read_mem_keeps_field by reflexivity. exact H. Qed.
Lemma fn_write n e a w c : hoareI (Fn n) (write_mem e a w c) anyv anyv.
Proof.
  apply inv_hi. intros s H. unfold Fn.
  rewrite write_mem_keeps_field; [exact H|reflexivity..|intros s0 []; reflexivity].
Qed.
#[export] Hint Resolve fn_read fn_write : hoare.
#[export] Hint Extern 0 (hoareI (Fn _) (modify _) _ _) => apply hi_modify; intros ? Hfn; exact Hfn : hoare.

(* [dstep] goes on while the first half of a bind keeps the depth; it stops at push_frame and pop_frame *)
Ltac dstep :=
  lazymatch goal with
  | |- DE _ (bind get _) _ => apply de_bind_get; intro; cbv beta zeta
  | |- DE _ (bind _ _) _ => eapply de_bind_keeps; [solve [repeat hstep] | intro]
  | |- DE _ (match ?x with _ => _ end) _ => destruct x
  end.
Ltac de_keeps_all := eapply de_keeps; solve [repeat hstep].

Lemma de_call_subroutine addr n : DE n (call_subroutine addr) (n + 1).
Proof.
  unfold call_subroutine. cbv delta [set_pc]. repeat dstep.
  eapply de_bind; [apply de_push|]. intros _. de_keeps_all.
Qed.
Lemma de_call_interrupt e v ft n : DE n (call_interrupt e v ft) (n + 1).
Proof.
  unfold call_interrupt. cbv delta [set_pc]. repeat dstep.
  eapply de_bind; [apply de_push|]. intros _. de_keeps_all.
Qed.

Lemma de_entry_body e v ft psr_f s0 n : DE n (entry_body e v ft psr_f s0) (n + 1).
Proof. unfold entry_body. cbv delta [swap_sp]. repeat dstep. apply de_call_interrupt. Qed.

Lemma fe_handle_interrupt_some e v p s s' u :
  handle_interrupt e v (Some p) s = (s', inl u) -> psr_priority (s_psr s) < p -> s_frame_no s' = s_frame_no s + 1.
Proof.
  intros E Hp. rewrite (handle_interrupt_some_is_entry e v p s Hp) in E.
  exact (de_run _ _ _ _ _ (de_entry_body e v _ _ s _) E).
Qed.

Lemma fe_handle_interrupt_none e v s s' u :
  handle_interrupt e v None s = (s', inl u) -> s_frame_no s' = s_frame_no s + 1.
Proof. intros E. exact (de_run _ _ _ _ _ (de_entry_body e v _ _ s _) (handle_interrupt_none_ok _ _ _ _ _ E)). Qed.

Definition depth_effect (i : sim_instr) (n : Z) : Z :=
  match i with
  | SJSR _ | STRAP _ => n + 1
  | SRTI => Z.max 0 (n - 1)
  | SJMP br => if br =? 7 then Z.max 0 (n - 1) else n
  | _ => n
  end.

Theorem exec_depth e i s s' u : exec e i s = (s', inl u) -> s_frame_no s' = depth_effect i (s_frame_no s).
Proof.
  apply de_run.
  unfold exec. cbv delta [set_reg_if_init set_cc swap_sp offset_pc set_pc]. dstep.
  destruct i as [cc off|dr sr1 o|dr off|sr off|o|dr sr1 o|dr br off|sr br off| |dr sr|dr off|sr off|br|dr off|v];
    cbn [depth_effect]; try de_keeps_all.
  - dstep. apply de_call_subroutine.
  - repeat dstep; [apply de_pop|apply de_fail].
  - dstep. destruct (br =? 7); [apply de_pop|de_keeps_all].
  - intros s1 H1. unfold Fn in *. pose proof (fe_handle_interrupt_none e v s1) as K.
    destruct (handle_interrupt e v None s1) as [s2 [[]|b]]; [|exact Logic.I].
    rewrite (K s2 tt eq_refl), H1. reflexivity.
Qed.

Lemma call_subroutine_ok a s s' u : call_subroutine a s = (s', inl u) ->
  let sg := upd_regs s (rset (s_regs s) 7 (new_init (s_pc s))) in
  s' = upd_pc (upd_frames sg (s_frame_no s + 1)
                 (push_frs FSubroutine (s_sr_defns s) (s_regs sg) (s_mem s) (prefetch_pc sg) a (s_frames s))) a.
Proof.
  unfold call_subroutine. rewrite run_bind, run_modify, run_bind, run_get, run_bind, push_frame_run. intros E.
  apply set_pc_ok in E. exact E.
Qed.

Theorem entry_frame e v ft psr_f s s' u fs :
  entry_body e v ft psr_f s s = (s', inl u) ->
  let a1 := wrap16 (entry_sp s - 1) in let a2 := wrap16 (entry_sp s - 2) in
  length (s_regs s) = 8%nat -> (IO_START <=? a1) = false -> (IO_START <=? a2) = false ->
  s_frames s = Some fs ->
  exists top, s_frames s' = Some (top :: fs) /\
    f_caller top = prefetch_pc s /\ f_callee top = v /\ f_type top = ft.
Proof.
  intros E a1 a2 LEN IO1 IO2 F. rewrite (entry_body_run e v ft psr_f s LEN IO1 IO2) in E.
  destruct (negb (strict s) || is_init (rget (s_regs (entry_swap s)) 6)); [|discriminate].
  destruct (call_interrupt_ok _ _ _ _ _ _ E) as (t1 & w & fr & RV & PF & ->).
  (* PC, prefetch flag and frames after the vector read are those of s *)
  destruct (read_mem_kept _ _ _ _ _ _ RV) as (K & Pk & _).
  rewrite push_frame_run in PF. injection PF as <-. cbn [upd_pc upd_frames s_frames].
  rewrite (kp_frames _ _ K). cbn [entry_pushed s_frames]. rewrite F.
  edestruct push_frs_top as (top & T & C1 & C2 & C3). rewrite T. exists top. repeat split; try assumption.
  rewrite C1. unfold prefetch_pc. rewrite Pk, (kp_prefetch _ _ K). reflexivity.
Qed.
