(* SimWf.v — that the data of a machine state are 16-bit (what Rust's u16/u8 types guarantee of them; the
   initialisation masks are not constrained) is an invariant of the step, so C08's refinement composes to runs. *)
From Coq Require Import ZArith List Bool Lia.
From Model Require Import Bits Word Sim IsaWire.
From Spec Require Import IsaSpec.
From Proofs Require Import PsrBits SimHoare SimObsEntry IrqProofs SimMachine SimNoPanic SimRefinePrims SimRefineExec SimRefineStep.
Import ListNotations.
Open Scope Z_scope.

Definition lt16 (x : Z) : Prop := 0 <= x < 65536.
Definition r16 (w : word) : Prop := lt16 (w_data w).
(* a KBDR read stores the head of the keyboard queue into memory, which must stay 16-bit *)
Definition dev_ok (d : dev) : Prop := match d with DKb q _ => Forall (fun c => 0 <= c < 256) q | _ => True end.

Definition WF (s : sim) : Prop :=
  Forall r16 (s_regs s) /\ lt16 (s_pc s) /\ lt16 (s_psr s) /\ r16 (s_saved_sp s)
  /\ (forall a, r16 (mget (s_mem s) a)) /\ Forall dev_ok (s_devs s).

Lemma lt16_wrap x : lt16 (wrap16 x). Proof. exact (wrap16_range x). Qed.
Lemma r16_new d : lt16 d -> r16 (new_init d). Proof. intros H; exact H. Qed.
Lemma r16_add l r : r16 l -> r16 r -> r16 (w_add l r).
Proof. intros Hl Hr. unfold w_add. destruct (_ && _); [exact Hl|]. destruct (_ && _); [exact Hr|]. apply lt16_wrap. Qed.
Lemma r16_sub l r : r16 l -> r16 r -> r16 (w_sub l r).
Proof. intros Hl Hr. unfold w_sub. destruct (_ && _); [exact Hl|]. apply lt16_wrap. Qed.
Lemma r16_and l r : r16 r -> r16 (w_and l r).
Proof. intros Hr. unfold r16, w_and. cbn [w_data]. apply land_lt16. exact Hr. Qed.
Lemma r16_not w : r16 w -> r16 (w_not w).
Proof. unfold r16, w_not, lt16. cbn [w_data]. lia. Qed.

Lemma WF_put s a w : WF s -> r16 w -> WF (put a w s).
Proof.
  intros (R & P & PS & S & M & D) Hw. do 4 (split; [assumption|]). split; [|assumption]. apply mget_mset_all; assumption.
Qed.
Lemma WF_rset s r w : WF s -> r16 w -> WF (upd_regs s (rset (s_regs s) r w)).
Proof. intros (R & T) Hw. exact (conj (set_nth_Forall _ _ _ _ R Hw) T). Qed.
Lemma WF_rget s r : WF s -> r16 (rget (s_regs s) r).
Proof.
  intros (R & _). exact (wf_regs_forall s R r).
Qed.
Lemma WF_pc s x : WF s -> lt16 x -> WF (upd_pc s x).
Proof. intros W H. unfold WF in *. cbn. tauto. Qed.
Lemma WF_psr s x : WF s -> lt16 x -> WF (upd_psr s x).
Proof. intros W H. unfold WF in *. cbn. tauto. Qed.
Lemma WF_ssp s w : WF s -> r16 w -> WF (upd_saved_sp s w).
Proof. intros W H. unfold WF in *. cbn. tauto. Qed.
Lemma WF_devs s d : WF s -> Forall dev_ok d -> WF (upd_devs s d).
Proof. intros W H. unfold WF in *. cbn. tauto. Qed.
Lemma WF_set_dev s i d : WF s -> dev_ok d -> WF (upd_devs s (set_nth (s_devs s) i d)).
Proof. intros H Hd. apply WF_devs; [exact H|]. apply set_nth_Forall; [apply H|exact Hd]. Qed.
Lemma WF_mget s a : WF s -> r16 (mget (s_mem s) a). Proof. intros (_ & _ & _ & _ & M & _). apply M. Qed.

Lemma nth_dev_ok ds i : Forall dev_ok ds -> dev_ok (nth_dev ds i).
Proof.
  intros F. unfold nth_dev. destruct (nth_in_or_default (Z.to_nat i) ds DNull) as [Hin|E].
  - rewrite Forall_forall in F. apply F. exact Hin.
  - rewrite E. exact Logic.I.
Qed.
Lemma dev_read_ok e d a eff : dev_ok d -> dev_ok (fst (dev_read e d a eff)) /\ (forall v, snd (dev_read e d a eff) = Some v -> lt16 v).
Proof.
  intros H. destruct d as [|q ie|buf|t|l]; cbn [dev_read]; try (split; [exact H|intros v E; discriminate E]).
  - destruct (a =? KBSR).
    + cbn [fst snd]. split; [exact H|]. intros v E. inversion E. unfold lt16.
      destruct (negb (e_kb_locked e) && negb match q with [] => true | _ :: _ => false end); destruct ie; lia.
    + destruct (a =? KBDR); [|split; [exact H|intros v E; discriminate E]].
      destruct (e_kb_locked e); [split; [exact H|intros v E; discriminate E]|].
      destruct q as [|c r]; [split; [exact H|intros v E; discriminate E]|].
      cbn [dev_ok] in H. inversion H; subst.
      destruct eff; cbn [fst snd]; (split; [assumption || (constructor; assumption)|intros v E; inversion E; unfold lt16; lia]).
  - destruct (a =? DSR); cbn [fst snd]; (split; [exact H|]); intros v E; try discriminate E. inversion E. unfold lt16. destruct (e_ds_locked e); lia.
Qed.
Lemma dev_write_ok e d a v : dev_ok d -> dev_ok (fst (dev_write e d a v)).
Proof.
  intros H. destruct d as [|q ie|buf|t|l]; cbn [dev_write]; try exact H.
  - destruct (a =? KBSR); exact H.
  - destruct (a =? DDR); [destruct (e_ds_locked e)|]; exact Logic.I.
Qed.

Lemma WF_pc_lt s : WF s -> lt16 (s_pc s). Proof. intros H. apply H. Qed.
Lemma WF_psr_lt s : WF s -> lt16 (s_psr s). Proof. intros H. apply H. Qed.
Lemma WF_ssp_r16 s : WF s -> r16 (s_saved_sp s). Proof. intros H. apply H. Qed.
Lemma WF_devs_ok s : WF s -> Forall dev_ok (s_devs s). Proof. intros H. apply H. Qed.

Lemma ireg_read_lt16 s r : WF s -> lt16 (ireg_read s r).
Proof.
  intros (R & P & PS & S & M & D). destruct r; cbn [ireg_read]; try assumption.
  - destruct (s_mcr s); unfold lt16; lia.
Qed.

Lemma WF_io_read e a io s : WF s -> WF (io_read e a io s).
Proof.
  intros Hs. unfold io_read. destruct (assoc (s_ireg s) a) as [r|].
  - exact (WF_put s a _ Hs (r16_new _ (ireg_read_lt16 s r Hs))).
  - pose proof (dev_read_ok e (nth_dev (s_devs s) (port_dev a)) a io (nth_dev_ok _ _ (WF_devs_ok s Hs))) as [Hd Hv].
    destruct (dev_read e (nth_dev (s_devs s) (port_dev a)) a io) as [d' [v|]]; cbn [fst snd] in *.
    + exact (WF_put _ a _ (WF_set_dev s _ d' Hs Hd) (r16_new _ (Hv v eq_refl))).
    + exact (WF_set_dev s _ d' Hs Hd).
Qed.

Lemma wf_read e a c : hoareI WF (read_mem e a c) r16 anyv.
Proof. apply hi_read; [intros s o H; exact H|apply WF_io_read|intros s; apply WF_mget|exact Logic.I]. Qed.

Lemma WF_ireg_write s r v : WF s -> lt16 v -> WF (ireg_write s r v).
Proof.
  intros H Hv. destruct r; cbn [ireg_write].
  - apply WF_pc; assumption.
  - apply WF_psr; [exact H|apply psr_set_lt16].
  - exact H.
  - apply WF_ssp; [exact H|exact Hv].
Qed.

Lemma WF_io_write e a v s : WF s -> lt16 v -> WF (fst (io_write e a v s)).
Proof.
  intros Hs Hv. unfold io_write. destruct (assoc (s_ireg s) a) as [r|]; [exact (WF_ireg_write s r v Hs Hv)|].
  pose proof (dev_write_ok e (nth_dev (s_devs s) (port_dev a)) a v (nth_dev_ok _ _ (WF_devs_ok s Hs))) as Hd.
  destruct (dev_write e (nth_dev (s_devs s) (port_dev a)) a v) as [d' ok]. exact (WF_set_dev s _ d' Hs Hd).
Qed.
Lemma wf_write e a w c : r16 w -> hoareI WF (write_mem e a w c) anyv anyv.
Proof.
  intros Hw. apply hi_write; try exact Logic.I; [..|split; exact Logic.I].
  - intros s o H. exact H.
  - intros s H. exact (WF_io_write e a _ s H Hw).
  - intros s H. exact (WF_put s a w H Hw).
Qed.

Lemma wf_get_if_init w st e : r16 w -> hoareI WF (of_opt (get_if_init w st) e) lt16 anyv.
Proof. intros H. unfold get_if_init. destruct (negb st || is_init w); [apply hi_ret; exact H|apply hi_err; exact Logic.I]. Qed.
Lemma wf_set_if_init w st e : r16 w -> hoareI WF (of_opt (set_if_init w st) e) r16 anyv.
Proof. intros H. unfold set_if_init. destruct (negb st || is_init w); [apply hi_ret; exact H|apply hi_err; exact Logic.I]. Qed.

Lemma wf_push a b f : hoareI WF (push_frame a b f) anyv anyv.
Proof. apply hi_push_frame. intros s n fr H. exact H. Qed.

Lemma WF_frames s n f : WF s -> WF (upd_frames s n f). Proof. intros H; exact H. Qed.
Lemma WF_prefetch s b : WF s -> WF (upd_prefetch s b). Proof. intros H; exact H. Qed.
Lemma WF_instrs s n : WF s -> WF (upd_instrs s n). Proof. intros H; exact H. Qed.
Lemma operand_r16 s o : WF s -> r16 (operand s o).
Proof. intros H. destruct o; cbn [operand]; [apply r16_new; apply lt16_wrap | apply WF_rget; exact H]. Qed.

#[export] Hint Resolve wf_read wf_write wf_get_if_init wf_set_if_init wf_push
  lt16_wrap r16_new r16_add r16_sub r16_and r16_not operand_r16 WF_rget WF_pc_lt WF_psr_lt WF_ssp_r16
  WF_rset WF_pc WF_psr WF_ssp WF_frames WF_prefetch WF_instrs : hoare.
(* 2: entry lowers R6 by [new_init 2] and RTI raises it *)
#[export] Hint Extern 0 (lt16 2) => unfold lt16; lia : hoare.
#[export] Hint Extern 0 (lt16 (psr_set_cc _ _)) => apply psr_set_cc_lt16 : hoare.
#[export] Hint Extern 0 (lt16 (psr_set_privileged _ _)) => apply psr_set_privileged_lt16 : hoare.
#[export] Hint Extern 0 (lt16 (psr_set_priority _ _)) => apply psr_set_priority_lt16 : hoare.
#[export] Hint Extern 0 (hoareI WF (modify _) _ _) => apply hi_modify; intros ? ? : hoare.

Lemma wf_handle_interrupt e vect prio : hoareI WF (handle_interrupt e vect prio) anyv anyv.
Proof.
  apply hi_handle_interrupt; [intros; exact Logic.I|intros s H; apply WF_prefetch, WF_pc; [exact H|apply lt16_wrap]|].
  intros ft f s0 Hf.
  assert (L : forall x, lt16 (f x))
    by (intro x; destruct (Hf x) as [->|[p ->]]; [apply psr_set_cc_lt16|apply psr_set_priority_lt16]).
  unfold entry_body. cbv delta [call_interrupt swap_sp set_pc]. repeat hstep.
Qed.
#[export] Hint Resolve wf_handle_interrupt : hoare.

Lemma wf_exec e i : hoareI WF (exec e i) anyv anyv.
Proof.
  unfold exec. cbv delta [call_subroutine set_reg_if_init set_cc swap_sp pop_frame offset_pc set_pc]. hstep.
  destruct i as [cc off|dr sr1 o|dr off|sr off|o|dr sr1 o|dr br off|sr br off| |dr sr|dr off|sr off|br|dr off|v];
    try destruct o; repeat hstep.
Qed.
#[export] Hint Resolve wf_exec : hoare.

Lemma wf_fetch_exec e : hoareI WF (fetch_exec e) anyv anyv.
Proof. unfold fetch_exec. cbv delta [offset_pc set_pc]. repeat hstep. Qed.

Lemma dev_poll_ok e d draws : dev_ok d -> dev_ok (fst (fst (dev_poll e d draws))).
Proof.
  intros H. destruct d as [|q ie|buf|t|l]; cbn [dev_poll]; try exact H.
  - destruct (negb (t_enabled t)); [exact Logic.I|]. destruct (t_time t =? 0); [destruct draws; exact Logic.I|].
    destruct (t_time t =? 1); exact Logic.I.
  - destruct l; exact Logic.I.
Qed.
Lemma polled_devs_ok e ds : forall draws, Forall dev_ok ds -> Forall dev_ok (polled_devs e ds draws).
Proof.
  induction ds as [|d r IH]; intros draws F; cbn [polled_devs]; [constructor|].
  inversion F as [|? ? Hd Hr]; subst.
  pose proof (dev_poll_ok e d draws Hd) as Hp. destruct (dev_poll e d draws) as [[d' i] draws']. cbn [fst] in Hp.
  constructor; [exact Hp|apply IH; exact Hr].
Qed.

Theorem wf_step_in e s : WF s -> WF (fst (step_in e s)).
Proof.
  apply (hi_machine WF anyv e).
  - intros s0 H0. exact H0.
  - intros s0 H0. apply WF_devs; [exact H0|]. apply polled_devs_ok. exact (WF_devs_ok s0 H0).
  - intros v p. apply wf_handle_interrupt.
  - apply wf_fetch_exec.
  - exact Logic.I.
Qed.

Fixpoint spec_run (es : list env) (a : astate) : astate * list sout :=
  match es with
  | [] => (a, [])
  | e :: r => let '(a1, o) := spec_step e a in let '(a2, os) := spec_run r a1 in (a2, o :: os)
  end.

Theorem run_refines es : forall s, lax s -> WF s ->
  let '(s', outs) := run_n es s in
  let '(a', souts) := spec_run es (abs s) in
  a' = abs s' /\ Forall2 out_match outs souts.
Proof.
  induction es as [|e r IH]; intros s L W; cbn [run_n spec_run]; [split; [reflexivity|constructor]|].
  pose proof (step_refines e (upd_obs s []) L (fun r => WF_rget s r W) (WF_pc_lt s W)) as (o & B & S1 & F1).
  pose proof (wf_step_in e s W) as W1.
  unfold step_in in *. destruct (step e (upd_obs s [])) as [s1 r1]. cbn [fst snd] in *.
  rewrite abs_upd_obs in S1. rewrite S1.
  assert (L1 : lax s1) by (eapply lax_flags; [exact F1|exact L]).
  specialize (IH s1 L1 W1). destruct (run_n r s1) as [s2 os]. destruct (spec_run r (abs s1)) as [a2 sos].
  destruct IH as [E F]. split; [exact E|]. constructor; [exact (out_match_of r1 o B)|exact F].
Qed.
