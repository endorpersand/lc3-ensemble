(* LexStepProofs.v — [lex_step] run forwards: maximal-munch lemmas for numerals, registers and
   directives (identifiers: PiecesProofs.ident_res), the comment, the string scanner. *)
From Coq Require Import ZArith List Bool Lia.
From Model Require Import Text Lexer.
From Proofs Require Import TextFacts LexerProofs.
Import ListNotations.
Open Scope Z_scope.

Lemma span_word_exact w rest : forallb is_word w = true -> stops is_word rest -> span_word (w ++ rest) = (w, rest).
Proof. apply span_p_exact. Qed.

Lemma word_tok_exact f pre npre w rest :
  forallb is_word w = true -> stops is_word rest ->
  word_tok f pre npre (w ++ rest) = (f (pre ++ w), npre + byte_len w, rest).
Proof. intros Hw Hr. unfold word_tok. rewrite span_word_exact by assumption. reflexivity. Qed.

Ltac neq_false c k := replace (c =? k) with false by lia.

Lemma lex_step_alpha fx c r : is_alpha_us c = true ->
  lex_step fx c r =
    if is_x c then
      match r with
      | d :: r1 =>
          if d =? 45 then word_tok lex_signed_hex [c; 45] 2 r1
          else if is_dec d || is_hex_letter d then word_tok lex_unsigned_hex [c] 1 r
          else word_tok (fun w => SOk (TIdent (ident_of w))) [c] 1 r
      | [] => (SOk (TIdent (ident_of [c])), 1, r)
      end
    else if is_r c then
      let (w, rest) := span_word r in
      (if negb (is_nil w) && forallb is_dec w then lex_reg (c :: w)
       else SOk (TIdent (ident_of (c :: w))), 1 + byte_len w, rest)
    else word_tok (fun w => SOk (TIdent (ident_of w))) [c] 1 r.
Proof.
  intros H. pose proof (alpha_bounds c H) as Hb. unfold lex_step.
  neq_false c 10. neq_false c 13. neq_false c 59. neq_false c 58. neq_false c 44. neq_false c 34.
  neq_false c 46. neq_false c 35. neq_false c 45. rewrite (alpha_not_dec c H). rewrite H. reflexivity.
Qed.

Lemma word_not_sign d : is_word d = true -> d <> 45 /\ d <> 35.
Proof. unfold is_word, is_digit, is_alpha_us, is_upper, is_lower. destruct (d <? 128) eqn:E; [lia|]. intros _. lia. Qed.
Lemma hexlike_not_minus d : is_dec d || is_hex_letter d = true -> d <> 45.
Proof. intros H ->. discriminate H. Qed.

Lemma step_digit fx c w rest : is_digit c = true -> forallb is_word w = true -> stops is_word rest ->
  lex_step fx c (w ++ rest) = (lex_unsigned_dec (c :: w), byte_len (c :: w), rest).
Proof.
  intros H Hw Hr. pose proof (proj1 (is_digit_bounds c) H) as Hb. unfold lex_step.
  neq_false c 10. neq_false c 13. neq_false c 59. neq_false c 58. neq_false c 44. neq_false c 34.
  neq_false c 46. neq_false c 35. neq_false c 45. rewrite (is_digit_dec c H).
  apply (word_tok_exact lex_unsigned_dec [c]); assumption.
Qed.

Lemma step_hash fx w rest : w <> [] -> forallb is_word w = true -> stops is_word rest ->
  lex_step fx 35 (w ++ rest) = (lex_unsigned_dec (35 :: w), byte_len (35 :: w), rest).
Proof.
  intros Hne Hw Hr. destruct w as [|d w]; [congruence|]. pose proof Hw as Hd. cbn [forallb] in Hd. apply andb_prop in Hd.
  destruct (word_not_sign d (proj1 Hd)) as [H45 H35]. unfold lex_step. cbn [Z.eqb Pos.eqb app].
  neq_false d 45. neq_false d 35. change (d :: w ++ rest) with ((d :: w) ++ rest).
  apply (word_tok_exact lex_unsigned_dec [35]); assumption.
Qed.

Lemma step_hash_minus fx w rest : forallb is_word w = true -> stops is_word rest ->
  lex_step fx 35 ((45 :: w) ++ rest) = (lex_signed_dec (35 :: 45 :: w), byte_len (35 :: 45 :: w), rest).
Proof.
  intros Hw Hr. unfold lex_step. cbn [Z.eqb Pos.eqb app]. rewrite word_tok_exact by assumption.
  cbn [byte_len app]. change (utf8_len 35) with 1. change (utf8_len 45) with 1. f_equal. f_equal. lia.
Qed.

Lemma step_minus fx w rest : w <> [] -> forallb is_word w = true -> stops is_word rest ->
  lex_step fx 45 (w ++ rest) = (lex_signed_dec (45 :: w), byte_len (45 :: w), rest).
Proof.
  intros Hne Hw Hr. destruct w as [|d w]; [congruence|]. pose proof Hw as Hd. cbn [forallb] in Hd. apply andb_prop in Hd.
  destruct (word_not_sign d (proj1 Hd)) as [_ H35]. unfold lex_step. cbn [Z.eqb Pos.eqb app].
  neq_false d 35. change (d :: w ++ rest) with ((d :: w) ++ rest).
  apply (word_tok_exact lex_signed_dec [45]); assumption.
Qed.

Lemma step_x_hex fx c w rest : is_x c = true ->
  match w with d :: _ => is_dec d || is_hex_letter d = true | [] => False end ->
  forallb is_word w = true -> stops is_word rest ->
  lex_step fx c (w ++ rest) = (lex_unsigned_hex (c :: w), byte_len (c :: w), rest).
Proof.
  intros Hx Hd Hw Hr. destruct w as [|d w]; [contradiction|]. rewrite lex_step_alpha by (apply is_x_alpha; exact Hx).
  rewrite Hx. cbn [app]. pose proof (hexlike_not_minus d Hd). neq_false d 45. rewrite Hd.
  change (d :: w ++ rest) with ((d :: w) ++ rest). rewrite word_tok_exact by assumption.
  cbn [byte_len app]. rewrite (is_x_len c Hx). reflexivity.
Qed.

Lemma step_x_minus fx c w rest : is_x c = true -> forallb is_word w = true -> stops is_word rest ->
  lex_step fx c ((45 :: w) ++ rest) = (lex_signed_hex (c :: 45 :: w), byte_len (c :: 45 :: w), rest).
Proof.
  intros Hx Hw Hr. rewrite lex_step_alpha by (apply is_x_alpha; exact Hx). rewrite Hx.
  cbn [Z.eqb Pos.eqb app]. rewrite word_tok_exact by assumption.
  cbn [byte_len app]. rewrite (is_x_len c Hx). change (utf8_len 45) with 1. f_equal. f_equal. lia.
Qed.

Lemma step_reg fx c w rest : is_r c = true -> w <> [] -> forallb is_digit w = true -> stops is_word rest ->
  lex_step fx c (w ++ rest) = (lex_reg (c :: w), byte_len (c :: w), rest).
Proof.
  intros Hr Hne Hw Hs. rewrite lex_step_alpha by (apply is_r_alpha; exact Hr).
  assert (Hx : is_x c = false) by (unfold is_r, is_x in *; lia).
  rewrite Hx, Hr. rewrite span_word_exact by (try apply digits_word; assumption).
  rewrite (digits_dec w Hw). cbn [byte_len]. rewrite (utf8_len_ascii c) by apply (is_r_ascii c Hr).
  destruct w; [congruence|]. reflexivity.
Qed.

Lemma step_directive fx w rest : forallb is_word w = true -> stops is_word rest ->
  lex_step fx 46 (w ++ rest) = (SOk (TDirective w), byte_len (46 :: w), rest).
Proof. intros Hw Hs. unfold lex_step. cbn [Z.eqb Pos.eqb]. apply (word_tok_exact lex_directive [46] 1); assumption. Qed.

Lemma lex_step_comment fx body r : forallb (fun c => negb (c =? 10)) body = true -> stops (fun c => negb (c =? 10)) r ->
  lex_step fx 59 (body ++ r) = (SOk TComment, 1 + byte_len body, r).
Proof.
  intros Hb Hr. unfold lex_step. cbn [Z.eqb Pos.eqb]. rewrite span_p_exact by assumption. reflexivity.
Qed.

Lemma scan_plain fx c r : c <> 10 -> c <> 13 -> c <> 34 -> c <> 92 ->
  scan_str fx (c :: r) = sc_push [c] (utf8_len c) (scan_str fx r).
Proof.
  intros H10 H13 H34 H92. destruct r as [|d r]; unfold scan_str; fold (scan_str fx); unfold at_eol;
    neq_false c 10; neq_false c 13; neq_false c 34; neq_false c 92; reflexivity.
Qed.
Lemma scan_quote fx r : scan_str fx (34 :: r) = ScClosed [] 1 r.
Proof. destruct r; reflexivity. Qed.
Lemma scan_esc e r : e <> 10 -> e <> 13 ->
  scan_str true (92 :: e :: r) = sc_push (unescape e) (1 + utf8_len e) (scan_str true r).
Proof.
  intros H10 H13. unfold scan_str; fold (scan_str true). unfold at_eol. cbn [Z.eqb Pos.eqb orb andb].
  neq_false e 10. neq_false e 13. reflexivity.
Qed.
