(* LinkBlocks.v — the block map of the linker model (model/Link.v): sorted insertion, the
   adjacent-pair overlap check, the image as a map, merging two block maps, `get_mut`.
   Everything is phrased in the chain form [blocks_ok lo l = true]: blocks sorted by start,
   non-empty, each ending (at most at xFFFF) before the next one starts. *)
From Coq Require Import ZArith List Bool Lia.
From Model Require Import Tree Bits Text SourceInfo Obj Link.
From Spec Require Import LinkSpec.
From Proofs Require Import TextFacts.
Import ListNotations.
Open Scope Z_scope.

Lemma zlen_nonneg {A} (l : list A) : 0 <= zlen l.
Proof. unfold zlen. lia. Qed.
Lemma zlen_cons {A} (x : A) l : zlen (x :: l) = 1 + zlen l.
Proof. unfold zlen. cbn [List.length]. lia. Qed.

Lemma nth_error_in_range {A} (l : list A) (i : Z) : 0 <= i < zlen l -> exists x, nth_error l (Z.to_nat i) = Some x.
Proof.
  intro H. destruct (nth_error l (Z.to_nat i)) eqn:E; [eauto|].
  apply nth_error_None in E. unfold zlen in H. lia.
Qed.
Lemma nth_error_some_range {A} (l : list A) (i : Z) x : 0 <= i -> nth_error l (Z.to_nat i) = Some x -> i < zlen l.
Proof.
  intros H E. assert (K : nth_error l (Z.to_nat i) <> None) by congruence.
  apply nth_error_Some in K. unfold zlen. lia.
Qed.

Fixpoint sorted_from (lo : Z) (l : blocks) : Prop :=
  match l with
  | [] => True
  | (s, _) :: r => lo <= s /\ sorted_from (s + 1) r
  end.
(* 65535, not 65536: the model computes block ends with u16 `+` (adj_check panics above xFFFF);
   it is what lets wrap16 drop out *)
Definition sized (b : Z * list (option Z)) : Prop := 0 <= fst b /\ 0 < zlen (snd b) /\ fst b + zlen (snd b) <= 65535.

Lemma sorted_from_weaken lo lo' l : lo' <= lo -> sorted_from lo l -> sorted_from lo' l.
Proof. destruct l as [|(s, ws) r]; cbn; [auto|]. intros H (H1 & H2). split; [lia|assumption]. Qed.
Lemma sorted_from_in lo l s ws : sorted_from lo l -> In (s, ws) l -> lo <= s.
Proof.
  revert lo. induction l as [|(s', ws') r IH]; cbn; intros lo Hs Hin; [contradiction|].
  destruct Hs as (H1 & H2). destruct Hin as [E|Hin].
  - inversion E; subst. exact H1.
  - specialize (IH _ H2 Hin). lia.
Qed.
Lemma sorted_from_key_unique lo l s ws ws' : sorted_from lo l -> In (s, ws) l -> In (s, ws') l -> ws = ws'.
Proof.
  revert lo. induction l as [|(k, v) r IH]; cbn; intros lo Hs H1 H2; [contradiction|].
  destruct Hs as (S1 & S2).
  destruct H1 as [E1|H1], H2 as [E2|H2].
  - congruence.
  - inversion E1; subst. pose proof (sorted_from_in _ _ _ _ S2 H2). lia.
  - inversion E2; subst. pose proof (sorted_from_in _ _ _ _ S2 H1). lia.
  - eauto.
Qed.

Lemma blocks_ok_cons lo s ws r : blocks_ok lo ((s, ws) :: r) = true <->
  lo <= s /\ 0 < zlen ws /\ s + zlen ws <= 65535 /\ blocks_ok (s + zlen ws) r = true.
Proof. cbn [blocks_ok]. rewrite !andb_true_iff, !Z.leb_le, Z.ltb_lt. tauto. Qed.

Lemma blocks_ok_weaken lo lo' bs : lo' <= lo -> blocks_ok lo bs = true -> blocks_ok lo' bs = true.
Proof.
  destruct bs as [|(s, ws) r]; [auto|]. intros Hl H. apply blocks_ok_cons in H. apply blocks_ok_cons.
  intuition lia.
Qed.
Lemma blocks_ok_sorted_from lo bs : blocks_ok lo bs = true -> sorted_from lo bs.
Proof.
  revert lo. induction bs as [|(s, ws) r IH]; intros lo H; [exact Logic.I|].
  apply blocks_ok_cons in H as (H1 & H2 & _ & H4). split; [exact H1|].
  apply (sorted_from_weaken (s + zlen ws)); [lia|auto].
Qed.
Lemma blocks_ok_in lo bs s ws : blocks_ok lo bs = true -> In (s, ws) bs ->
  lo <= s /\ 0 < zlen ws /\ s + zlen ws <= 65535.
Proof.
  revert lo. induction bs as [|(s', ws') r IH]; intros lo H Hin; [contradiction|].
  apply blocks_ok_cons in H as (H1 & H2 & H3 & H4). destruct Hin as [E|Hin].
  - inversion E; subst. auto.
  - destruct (IH _ H4 Hin) as (? & ? & ?). lia.
Qed.
Lemma blocks_ok_head lo s ws r : lo <= s -> 0 < zlen ws -> s + zlen ws <= 65535 ->
  blocks_ok lo ((s, ws) :: r) = blocks_ok (s + zlen ws) r.
Proof.
  intros H1 H2 H3. cbn [blocks_ok].
  rewrite (proj2 (Z.leb_le _ _) H1), (proj2 (Z.ltb_lt _ _) H2), (proj2 (Z.leb_le _ _) H3). reflexivity.
Qed.

Lemma chain_pairs lo l : blocks_ok lo l = true ->
  ForallOrdPairs (fun x y => fst x + zlen (snd x) <= fst y) l.
Proof.
  revert lo. induction l as [|(s, ws) r IH]; intros lo H; [constructor|].
  apply blocks_ok_cons in H as (_ & _ & _ & H). constructor; [|eapply IH; eauto].
  apply Forall_forall. intros (s', ws') Hin. cbn. apply (blocks_ok_in _ _ _ _ H Hin).
Qed.
Lemma chain_of_disjoint lo (l : blocks) : sorted_from lo l -> Forall sized l ->
  (forall x y, In x l -> In y l -> fst x < fst y -> fst x + zlen (snd x) <= fst y) -> blocks_ok lo l = true.
Proof.
  revert lo. induction l as [|(s, ws) r IH]; intros lo Hs Hz Hd; [reflexivity|].
  inversion Hz as [|? ? (Z0 & Z1 & Z2) Hz']; subst. cbn in Z0, Z1, Z2. destruct Hs as (S1 & S2).
  apply blocks_ok_cons. repeat split; try assumption.
  apply IH; [|exact Hz'|intros x y Hx Hy; apply Hd; right; assumption].
  destruct r as [|(s', ws') r']; [exact Logic.I|]. destruct S2 as (T1 & T2). split; [|exact T2].
  apply (Hd (s, ws) (s', ws')); cbn; auto. lia.
Qed.
Lemma ord_pairs_in (l : blocks) x y : ForallOrdPairs (fun x y => fst x + zlen (snd x) <= fst y) l ->
  In x l -> In y l -> fst x < fst y -> fst x + zlen (snd x) <= fst y.
Proof.
  intros H Hx Hy Hlt. pose proof (zlen_nonneg (snd y)).
  destruct (ForallOrdPairs_In H x y Hx Hy) as [E|[K|K]]; [subst|..]; lia.
Qed.
Lemma chain_disjoint lo (l : blocks) x y : blocks_ok lo l = true -> In x l -> In y l -> fst x < fst y ->
  fst x + zlen (snd x) <= fst y.
Proof. intro H. exact (ord_pairs_in l x y (chain_pairs _ _ H)). Qed.

Lemma chain_iff_pairs lo (l : blocks) : sorted_from lo l -> Forall sized l ->
  (blocks_ok lo l = true <-> ForallOrdPairs (fun x y => fst x + zlen (snd x) <= fst y) l).
Proof.
  intros Hs Hz. split; [apply chain_pairs|]. intro H. apply chain_of_disjoint; [exact Hs|exact Hz|].
  intros x y. exact (ord_pairs_in l x y H).
Qed.

Lemma bt_insert_some {V} k (v : V) l l' :
  bt_insert k v l = Some l' -> forall x, In x l' <-> (k, v) = x \/ In x l.
Proof.
  revert l'. induction l as [|(k', v') r IH]; cbn; intros l' H.
  - inversion H; subst. cbn. intro x. tauto.
  - destruct (k <? k') eqn:E1.
    + inversion H; subst. cbn. intro x. tauto.
    + destruct (k =? k') eqn:E2; [discriminate|].
      destruct (bt_insert k v r) as [r'|] eqn:E3; [|discriminate].
      inversion H; subst. intro x. cbn. rewrite (IH _ eq_refl x). tauto.
Qed.
Lemma bt_insert_none {V} k (v : V) l : bt_insert k v l = None -> exists v', In (k, v') l.
Proof.
  induction l as [|(k', v') r IH]; cbn; [discriminate|].
  destruct (k <? k'); [discriminate|]. destruct (Z.eqb_spec k k') as [E|E].
  - intros _. subst. eauto.
  - destruct (bt_insert k v r); [discriminate|]. intros _. destruct (IH eq_refl) as (v'' & H). eauto.
Qed.
Lemma bt_insert_spec k v (l l' : blocks) lo : sorted_from lo l -> lo <= k -> bt_insert k v l = Some l' ->
  sorted_from lo l' /\ forall v', ~ In (k, v') l.
Proof.
  revert l' lo. induction l as [|(k', w) r IH]; cbn; intros l' lo Hs Hk H.
  - injection H as <-. cbn. auto.
  - destruct Hs as (S1 & S2). destruct (Z.ltb_spec k k') as [E1|E1].
    + injection H as <-. split.
      * cbn. repeat split; try lia. apply (sorted_from_weaken (k' + 1)); [lia|exact S2].
      * intros v' [E|Hin]; [inversion E; lia|]. pose proof (sorted_from_in _ _ _ _ S2 Hin). lia.
    + destruct (Z.eqb_spec k k') as [E2|E2]; [discriminate|].
      destruct (bt_insert k v r) as [r'|] eqn:E3; [|discriminate]. injection H as <-.
      destruct (IH r' (k' + 1) S2 ltac:(lia) eq_refl) as (I1 & I2). split; [cbn; auto|].
      intros v' [E|Hin]; [inversion E; congruence|exact (I2 v' Hin)].
Qed.

Lemma insert_blocks_spec bs acc r : sorted_from 0 acc -> (forall s ws, In (s, ws) bs -> 0 <= s) ->
  insert_blocks bs acc = Some r ->
  sorted_from 0 r /\ (forall x, In x r <-> In x bs \/ In x acc) /\
  (forall s ws ws', In (s, ws) bs -> ~ In (s, ws') acc).
Proof.
  revert acc. induction bs as [|(k, v) bs IH]; cbn; intros acc Hs Hk H.
  - injection H as <-. split; [exact Hs|]. split; [tauto|intros s ws ws' []].
  - destruct (bt_insert k v acc) as [acc'|] eqn:E; [|discriminate].
    destruct (bt_insert_spec _ _ _ _ 0 Hs (Hk k v (or_introl eq_refl)) E) as (S' & F').
    destruct (IH acc' S' (fun s ws Hi => Hk s ws (or_intror Hi)) H) as (I1 & I2 & I3).
    pose proof (bt_insert_some _ _ _ _ E) as M.
    split; [exact I1|]. split.
    + intro x. rewrite I2, M. intuition.
    + intros s ws ws' [Eq|Hin] Hacc; [inversion Eq; subst; exact (F' ws' Hacc)|].
      apply (I3 s ws ws' Hin), M. auto.
Qed.
Lemma insert_blocks_total bs acc lo :
  sorted_from lo bs -> (forall s ws ws', In (s, ws) bs -> ~ In (s, ws') acc) ->
  exists r, insert_blocks bs acc = Some r.
Proof.
  revert acc lo. induction bs as [|(k, v) bs IH]; cbn; intros acc lo Hs Hf; [eauto|].
  destruct Hs as (S1 & S2).
  destruct (bt_insert k v acc) as [acc'|] eqn:E.
  2:{ destruct (bt_insert_none _ _ _ E) as (v' & Hin). exfalso. eapply Hf; eauto. }
  eapply IH; [exact S2|].
  intros s ws ws' Hin Hacc. apply (bt_insert_some _ _ _ _ E) in Hacc. destruct Hacc as [Eq|Hacc].
  - inversion Eq; subst. pose proof (sorted_from_in _ _ _ _ S2 Hin). lia.
  - eapply Hf; eauto.
Qed.
Lemma insert_blocks_none bs acc : insert_blocks bs acc = None ->
  exists s ws ws', In (s, ws) bs /\ (In (s, ws') acc \/ In (s, ws') bs).
Proof.
  revert acc. induction bs as [|(k, v) bs IH]; cbn; intros acc H; [discriminate|].
  destruct (bt_insert k v acc) as [acc'|] eqn:E.
  - destruct (IH _ H) as (s & ws & ws' & H1 & H2). exists s, ws, ws'. split; [auto|].
    destruct H2 as [H2|H2]; [|auto]. apply (bt_insert_some _ _ _ _ E) in H2. destruct H2 as [Eq|H2]; [|auto].
    inversion Eq; subst. auto.
  - destruct (bt_insert_none _ _ _ E) as (v' & Hin). exists k, v, v'. auto.
Qed.

Lemma insert_blocks_shape a b bs : blocks_ok 0 a = true -> blocks_ok 0 b = true ->
  insert_blocks b a = Some bs ->
  sorted_from 0 bs /\ Forall sized bs /\ (forall x, In x bs <-> In x b \/ In x a) /\
  (forall s ws ws', In (s, ws) b -> ~ In (s, ws') a).
Proof.
  intros Ha Hb E.
  destruct (insert_blocks_spec b a bs (blocks_ok_sorted_from _ _ Ha)) as (Ss & Hin & Hf); [|exact E|].
  { intros s ws Hi. apply (blocks_ok_in _ _ _ _ Hb Hi). }
  split; [exact Ss|]. split; [|auto].
  apply Forall_forall. intros (s, ws) Hx. apply Hin in Hx.
  destruct Hx as [Hx|Hx]; [exact (blocks_ok_in _ _ _ _ Hb Hx)|exact (blocks_ok_in _ _ _ _ Ha Hx)].
Qed.

Lemma adj_check_step a_st a_bl b_st b_bl r : sized (a_st, a_bl) -> sized (b_st, b_bl) -> a_st < b_st ->
  adj_check ((a_st, a_bl) :: (b_st, b_bl) :: r) =
  if b_st <? a_st + zlen a_bl then AdjOverlap else adj_check ((b_st, b_bl) :: r).
Proof.
  intros (A0 & A1 & A2) (B0 & B1 & B2) Hlt. cbn [fst snd] in *.
  change (adj_check ((a_st, a_bl) :: (b_st, b_bl) :: r)) with
    (if 65535 <? a_st + wrap16 (zlen a_bl) then AdjPanic else
     if 65535 <? b_st + wrap16 (zlen b_bl) then AdjPanic else
     if (a_st <? b_st + wrap16 (zlen b_bl)) && (b_st <? a_st + wrap16 (zlen a_bl)) then AdjOverlap
     else adj_check ((b_st, b_bl) :: r)).
  rewrite !wrap16_small by lia.
  rewrite (proj2 (Z.ltb_ge _ _) A2), (proj2 (Z.ltb_ge _ _) B2), (proj2 (Z.ltb_lt a_st _)) by lia. reflexivity.
Qed.

(* between sorted sized blocks the two-sided overlap test collapses to b_st < a_end *)
Lemma adj_check_sorted lo l : sorted_from lo l -> Forall sized l ->
  adj_check l = if blocks_ok lo l then AdjOk else AdjOverlap.
Proof.
  revert lo. induction l as [|(a_st, a_bl) r IH]; intros lo Hs Hz; [reflexivity|].
  inversion Hz as [|? ? Za Hz']; subst. destruct Hs as (S1 & S2). pose proof Za as (_ & Z1 & Z2). cbn [fst snd] in Z1, Z2.
  rewrite blocks_ok_head by assumption.
  destruct r as [|(b_st, b_bl) r']; [reflexivity|].
  inversion Hz' as [|? ? Zb _]; subst. pose proof S2 as (T1 & T2).
  rewrite adj_check_step by (assumption || lia).
  destruct (Z.ltb_spec b_st (a_st + zlen a_bl)) as [L|L].
  - destruct (blocks_ok _ _) eqn:E; [|reflexivity]. apply blocks_ok_cons in E. lia.
  - apply IH; [split; assumption|exact Hz'].
Qed.
Lemma adj_check_no_panic lo l : sorted_from lo l -> Forall sized l -> adj_check l <> AdjPanic.
Proof. intros Hs Hz. rewrite (adj_check_sorted lo) by assumption. destruct (blocks_ok lo l); discriminate. Qed.

Definition covers (b : Z * list (option Z)) (addr : Z) : Prop := fst b <= addr < fst b + zlen (snd b).

Lemma in_block_reflect {A} s (ws : list A) addr : reflect (s <= addr < s + zlen ws) ((s <=? addr) && (addr <? s + zlen ws)).
Proof. apply iff_reflect. rewrite andb_true_iff, Z.leb_le, Z.ltb_lt. tauto. Qed.

Lemma img_blocks_in bs addr w :
  img_blocks bs addr = Some w -> exists s ws, In (s, ws) bs /\ covers (s, ws) addr /\ nth_error ws (Z.to_nat (addr - s)) = Some w.
Proof.
  induction bs as [|(s, ws) r IH]; cbn [img_blocks]; [discriminate|].
  destruct (in_block_reflect s ws addr) as [C|C]; intro H.
  - exists s, ws. cbn. auto.
  - destruct (IH H) as (s' & ws' & H1 & H2 & H3). exists s', ws'. cbn. auto.
Qed.
Lemma img_blocks_of_in lo bs addr s ws : blocks_ok lo bs = true -> In (s, ws) bs -> covers (s, ws) addr ->
  img_blocks bs addr = nth_error ws (Z.to_nat (addr - s)).
Proof.
  revert lo. induction bs as [|(s', ws') r IH]; cbn [In img_blocks]; intros lo Hok Hin Hc; [contradiction|].
  apply blocks_ok_cons in Hok as (_ & _ & _ & Hok). unfold covers in Hc. cbn [fst snd] in Hc.
  destruct (in_block_reflect s' ws' addr) as [C|C], Hin as [E|Hin]; try (inversion E; subst); try reflexivity; try lia.
  - pose proof (blocks_ok_in _ _ _ _ Hok Hin). lia.
  - eapply IH; eauto.
Qed.
Lemma img_blocks_none bs addr : img_blocks bs addr = None <-> forall s ws, In (s, ws) bs -> ~ covers (s, ws) addr.
Proof.
  unfold covers. induction bs as [|(s, ws) r IH]; cbn [img_blocks In fst snd].
  - split; [intros _ ? ? []|reflexivity].
  - destruct (in_block_reflect s ws addr) as [C|C].
    + split.
      * intro H. destruct (nth_error_in_range ws (addr - s)) as (x & Hx); [lia|]. congruence.
      * intro H. exfalso. apply (H s ws); auto.
    + rewrite IH. split.
      * intros H s' ws' [Eq|Hin]; [inversion Eq; subst; exact C|exact (H _ _ Hin)].
      * intros H s' ws' Hin. apply H. auto.
Qed.
Lemma covered_iff bs addr : covered bs addr = true <-> exists s ws, In (s, ws) bs /\ covers (s, ws) addr.
Proof.
  unfold covered. destruct (img_blocks bs addr) eqn:E.
  - split; [|reflexivity]. intros _. destruct (img_blocks_in _ _ _ E) as (s & ws & H1 & H2 & _). eauto.
  - split; [discriminate|]. intros (s & ws & H1 & H2). rewrite img_blocks_none in E. exfalso. eapply E; eauto.
Qed.
Lemma in_covers_img bs s ws addr : In (s, ws) bs -> covers (s, ws) addr -> img_blocks bs addr <> None.
Proof. intros Hin Hc E. rewrite img_blocks_none in E. eapply E; eauto. Qed.
Lemma block_covers_start lo bs s ws : blocks_ok lo bs = true -> In (s, ws) bs -> covers (s, ws) s.
Proof. intros H Hin. pose proof (blocks_ok_in _ _ _ _ H Hin). unfold covers. cbn. lia. Qed.

Lemma img_blocks_ext lo lo' bs bs' : blocks_ok lo bs = true -> blocks_ok lo' bs' = true ->
  (forall x, In x bs <-> In x bs') -> forall addr, img_blocks bs addr = img_blocks bs' addr.
Proof.
  intros H1 H2 Hin addr. destruct (img_blocks bs addr) eqn:E.
  - destruct (img_blocks_in _ _ _ E) as (s & ws & I1 & I2 & I3).
    rewrite (img_blocks_of_in lo' bs' addr s ws H2); [congruence| |assumption]. apply Hin. assumption.
  - symmetry. apply img_blocks_none. intros s ws Hi. rewrite img_blocks_none in E. apply E. apply Hin. assumption.
Qed.

Lemma merged_img lo a_bs b_bs bs : blocks_ok lo bs = true ->
  (forall x, In x bs <-> In x b_bs \/ In x a_bs) ->
  forall addr, img_blocks bs addr = first_of (img_blocks a_bs addr) (img_blocks b_bs addr).
Proof.
  intros Hs Hin addr. unfold first_of.
  assert (Sub : forall l w, (forall x, In x l -> In x bs) -> img_blocks l addr = Some w -> img_blocks bs addr = Some w).
  { intros l w Hl E. destruct (img_blocks_in _ _ _ E) as (s & ws & I1 & I2 & I3).
    rewrite (img_blocks_of_in lo bs addr s ws Hs); auto. }
  destruct (img_blocks a_bs addr) as [w|] eqn:Ea; [apply (Sub a_bs); [intros; apply Hin|]; auto|].
  destruct (img_blocks b_bs addr) as [w|] eqn:Eb; [apply (Sub b_bs); [intros; apply Hin|]; auto|].
  rewrite img_blocks_none in *. intros s ws Hi. apply Hin in Hi. destruct Hi; auto.
Qed.

Lemma merged_covered bs a_bs b_bs :
  (forall x, img_blocks bs x = first_of (img_blocks a_bs x) (img_blocks b_bs x)) ->
  (forall x, covered a_bs x = true -> covered bs x = true) /\
  (forall x, covered b_bs x = true -> covered bs x = true).
Proof.
  intro Img. split; intro x; unfold covered; rewrite Img; destruct (img_blocks a_bs x); cbn; auto; discriminate.
Qed.

Definition ImgDisjoint (a b : blocks) : Prop := forall x, img_blocks a x = None \/ img_blocks b x = None.

Lemma insert_blocks_chain a b bs : blocks_ok 0 a = true -> blocks_ok 0 b = true ->
  insert_blocks b a = Some bs -> (blocks_ok 0 bs = true <-> ImgDisjoint a b).
Proof.
  intros Ha Hb E. destruct (insert_blocks_shape _ _ _ Ha Hb E) as (Ss & Zs & Hin & Hf). split.
  - intros Hs addr.
    destruct (img_blocks a addr) as [wa|] eqn:Ea; [|auto].
    destruct (img_blocks b addr) as [wb|] eqn:Eb; [|auto]. exfalso.
    destruct (img_blocks_in _ _ _ Ea) as (sa & wsa & A1 & A2 & _).
    destruct (img_blocks_in _ _ _ Eb) as (sb & wsb & B1 & B2 & _).
    unfold covers in A2, B2. cbn [fst snd] in A2, B2.
    assert (Ia : In (sa, wsa) bs) by (apply Hin; auto). assert (Ib : In (sb, wsb) bs) by (apply Hin; auto).
    destruct (Z.lt_total sa sb) as [L|[L|L]].
    + pose proof (chain_disjoint 0 bs (sa, wsa) (sb, wsb) Hs Ia Ib L) as K. cbn [fst snd] in K. lia.
    + subst. exact (Hf _ _ _ B1 A1).
    + pose proof (chain_disjoint 0 bs (sb, wsb) (sa, wsa) Hs Ib Ia L) as K. cbn [fst snd] in K. lia.
  - intro Hd. apply chain_of_disjoint; [exact Ss|exact Zs|].
    (* a block of one file and a later block of the other: the start of the later one is covered
       by its own file, so not by the earlier block *)
    assert (Mixed : forall p q l1 l2, blocks_ok 0 l2 = true -> ImgDisjoint l1 l2 ->
              In p l1 -> In q l2 -> fst p < fst q -> fst p + zlen (snd p) <= fst q).
    { intros (ps, pw) (qs, qw) l1 l2 H2 Hdd Hp Hq Hl. cbn [fst snd] in *.
      destruct (Z_le_gt_dec (ps + zlen pw) qs) as [|G]; [assumption|]. exfalso.
      destruct (Hdd qs) as [K|K]; revert K.
      - eapply in_covers_img; [exact Hp|]. unfold covers. cbn. lia.
      - eapply in_covers_img; eauto using block_covers_start. }
    intros x y Hx Hy Hlt. apply Hin in Hx. apply Hin in Hy.
    destruct Hx as [Hx|Hx], Hy as [Hy|Hy].
    + apply (chain_disjoint 0 b); assumption.
    + apply (Mixed x y b a); try assumption. intro addr. destruct (Hd addr); auto.
    + apply (Mixed x y a b); assumption.
    + apply (chain_disjoint 0 a); assumption.
Qed.

(* the block half of `link`: insertion fails on a shared start address, the pair check reports
   every other overlap, neither panics *)
Lemma blocks_phase a b : blocks_ok 0 a = true -> blocks_ok 0 b = true ->
  match insert_blocks b a with
  | None => ~ ImgDisjoint a b
  | Some bs => match adj_check bs with
               | AdjOk => ImgDisjoint a b /\ blocks_ok 0 bs = true /\
                          forall x, img_blocks bs x = first_of (img_blocks a x) (img_blocks b x)
               | AdjOverlap => ~ ImgDisjoint a b
               | AdjPanic => False
               end
  end.
Proof.
  intros Ha Hb. destruct (insert_blocks b a) as [bs|] eqn:E.
  - pose proof (insert_blocks_chain a b bs Ha Hb E) as Ch.
    destruct (insert_blocks_shape _ _ _ Ha Hb E) as (Ss & Zs & Hin & _).
    rewrite (adj_check_sorted 0 bs Ss Zs). destruct (blocks_ok 0 bs) eqn:Hs.
    + split; [apply Ch; reflexivity|]. split; [reflexivity|]. exact (merged_img 0 a b bs Hs Hin).
    + intro Hd. apply Ch in Hd. discriminate.
  - intro Hd. destruct (insert_blocks_total b a 0 (blocks_ok_sorted_from _ _ Hb)) as (bs & E'); [|congruence].
    intros s ws ws' Hinb Hina. destruct (Hd s) as [K|K]; revert K; eapply in_covers_img; eauto using block_covers_start.
Qed.

Lemma set_nth_some {A} (l : list A) n x : (n < List.length l)%nat ->
  exists l', set_nth l n x = Some l' /\ List.length l' = List.length l /\
             forall m, nth_error l' m = if Nat.eqb m n then Some x else nth_error l m.
Proof.
  revert n. induction l as [|y r IH]; cbn; intros n Hn; [lia|].
  destruct n as [|n].
  - eexists. split; [reflexivity|]. split; [reflexivity|]. intros [|m]; reflexivity.
  - destruct (IH n) as (r' & E1 & E2 & E3); [lia|]. rewrite E1. eexists. split; [reflexivity|].
    split; [cbn; lia|]. intros [|m]; cbn; [reflexivity|]. apply E3.
Qed.

(* `range_mut(..=addr).next_back()`: a block is tried only if the next one starts above addr *)
Lemma set_word_cons s ws r addr v :
  set_word ((s, ws) :: r) addr v =
  if match r with (s', _) :: _ => s' <=? addr | [] => false end
  then match set_word r addr v with Some r' => Some ((s, ws) :: r') | None => None end
  else if s <=? addr then match set_nth ws (Z.to_nat (addr - s)) (Some v) with
                         | Some ws' => Some ((s, ws') :: r) | None => None end
       else None.
Proof. destruct r as [|(s', ws') r']; [reflexivity|]. cbn [set_word]. destruct (s' <=? addr); reflexivity. Qed.

Lemma set_word_spec lo bs addr v w0 : blocks_ok lo bs = true -> img_blocks bs addr = Some w0 ->
  exists bs', set_word bs addr v = Some bs' /\ blocks_ok lo bs' = true /\
              (forall x, img_blocks bs' x = if x =? addr then Some (Some v) else img_blocks bs x).
Proof.
  revert lo. induction bs as [|(s, ws) r IH]; intros lo Hok Himg; [discriminate|].
  apply blocks_ok_cons in Hok as (H1 & H2 & H3 & H4).
  rewrite set_word_cons. cbn [img_blocks] in Himg.
  destruct (in_block_reflect s ws addr) as [C|C].
  - destruct (set_nth_some ws (Z.to_nat (addr - s)) (Some v)) as (ws' & S1 & S2 & S3); [unfold zlen in C; lia|].
    assert (Hz : zlen ws' = zlen ws) by (unfold zlen; lia).
    assert (Hnext : match r with (s', _) :: _ => s' <=? addr | [] => false end = false).
    { destruct r as [|(s', ws'') r']; [reflexivity|]. apply blocks_ok_cons in H4. apply Z.leb_gt. lia. }
    rewrite Hnext, (proj2 (Z.leb_le s addr)), S1 by lia.
    eexists. split; [reflexivity|]. split; [apply blocks_ok_cons; rewrite Hz; auto|].
    intro x. cbn [img_blocks]. rewrite Hz, S3.
    destruct (in_block_reflect s ws x) as [Cx|Cx], (Z.eqb_spec x addr) as [->|Ne]; try reflexivity; try lia.
    + rewrite Nat.eqb_refl. reflexivity.
    + rewrite (proj2 (Nat.eqb_neq _ _)) by lia. reflexivity.
  - destruct (IH _ H4 Himg) as (r' & R1 & R2 & R3).
    destruct (img_blocks_in _ _ _ Himg) as (s1 & ws1 & I1 & I2 & _). unfold covers in I2. cbn [fst snd] in I2.
    assert (Hnext : match r with (s', _) :: _ => s' <=? addr | [] => false end = true).
    { destruct r as [|(s', ws'') r0]; [contradiction|]. apply Z.leb_le.
      apply blocks_ok_cons in H4 as (_ & K & _ & H4).
      destruct I1 as [Eq|I1]; [inversion Eq; lia|]. pose proof (blocks_ok_in _ _ _ _ H4 I1). lia. }
    rewrite Hnext, R1. eexists. split; [reflexivity|]. split; [apply blocks_ok_cons; auto|].
    intro x. cbn [img_blocks]. rewrite R3.
    destruct (in_block_reflect s ws x) as [Cx|Cx], (Z.eqb_spec x addr) as [->|Ne]; try reflexivity. lia.
Qed.

Lemma apply_relocs_spec lo bs rs : blocks_ok lo bs = true ->
  (forall a t, In (a, t) rs -> covered bs a = true) ->
  exists bs', apply_relocs bs rs = Some bs' /\ blocks_ok lo bs' = true /\
    (forall x, covered bs' x = covered bs x) /\
    (forall x, (forall t, ~ In (x, t) rs) -> img_blocks bs' x = img_blocks bs x) /\
    (forall x t, In (x, t) rs -> (forall t', In (x, t') rs -> t' = t) -> img_blocks bs' x = Some (Some t)).
Proof.
  revert bs. induction rs as [|(a, t) rs IH]; intros bs Hok Hcov.
  - exists bs. cbn. repeat split; auto. intros x t [].
  - assert (Ca : covered bs a = true) by (eapply Hcov; left; reflexivity).
    unfold covered in Ca. destruct (img_blocks bs a) as [w0|] eqn:Ea; [|discriminate].
    destruct (set_word_spec lo bs a t w0 Hok Ea) as (bs1 & S1 & S2 & S3).
    assert (Cov1 : forall x, covered bs1 x = covered bs x).
    { intro x. unfold covered. rewrite S3. destruct (Z.eqb_spec x a) as [->|]; [rewrite Ea|]; reflexivity. }
    destruct (IH bs1 S2) as (bs' & A1 & A2 & A3 & A4 & A5).
    { intros a' t' Hin. rewrite Cov1. eapply Hcov. right. exact Hin. }
    exists bs'. split; [cbn [apply_relocs]; rewrite S1; exact A1|]. split; [exact A2|]. split; [|split].
    + intro x. rewrite A3. apply Cov1.
    + intros x Hx. rewrite A4 by (intros t' Hin; apply (Hx t'); right; exact Hin).
      rewrite S3. destruct (Z.eqb_spec x a) as [->|]; [|reflexivity]. exfalso. apply (Hx t). left. reflexivity.
    + intros x t0 Hin Huniq.
      assert (Dec : forall p q : Z * Z, {p = q} + {p <> q}) by (decide equality; apply Z.eq_dec).
      destruct (in_dec Dec (x, t0) rs) as [Hr|Hr].
      * apply A5; [exact Hr|]. intros t' Ht'. apply Huniq. right. exact Ht'.
      * destruct Hin as [Eq|Hin]; [|contradiction]. inversion Eq; subst.
        rewrite A4.
        -- rewrite S3, Z.eqb_refl. reflexivity.
        -- intros t' Ht'. assert (t' = t0) by (apply Huniq; right; exact Ht'). subst. contradiction.
Qed.
