(* TimerProofs.v — model/Timer.v against spec/TimerSpec.v (C34).  While the draw oracle keeps the
   contract of random_range ([timer_ok]) a poll is a total function; an enabled timer is a countdown
   on the distance to its next interrupt ([polls_to_first]): the gap statements are an invariant of
   it, the first interrupt comes after exactly that many polls.  The transition before the repair
   ([poll_unrepaired]) is refuted. *)
From Coq Require Import ZArith List Bool Lia.
From Model Require Import Timer.
From Spec Require Import TimerSpec.
Import ListNotations.
Open Scope Z_scope.

(* the contract of random_range (trusted): every draw inside the range; the range is not empty and
   its lower end a u32 *)
Definition draws_ok (g : nat -> Z) (r : srange) : Prop := forall k, in_range r (g k) = true.
Definition timer_ok (g : nat -> Z) (t : timer) : Prop :=
  range_nonempty (t_range t) = true /\ 0 <= range_lo (t_range t) /\ draws_ok g (t_range t).

Lemma in_range_iff r d : in_range r d = true <-> range_lo r <= d <= range_hi r.
Proof. unfold in_range. rewrite andb_true_iff, !Z.leb_le. tauto. Qed.

Lemma draw_bounds g t k : timer_ok g t ->
  0 <= range_lo (t_range t) /\ range_lo (t_range t) <= g k <= range_hi (t_range t).
Proof. intros (_ & Hlo & Hd). split; [exact Hlo | apply in_range_iff, Hd]. Qed.

Lemma timer_ok_same_range g t t' : t_range t' = t_range t -> timer_ok g t -> timer_ok g t'.
Proof. unfold timer_ok. intros ->. tauto. Qed.

(* reset_remaining, io_reset and the reload at count 0 of a poll are this one draw *)
Lemma reset_eq g t :
  reset_remaining g t =
  if range_nonempty (t_range t) then
    if in_range (t_range t) (g (t_drawn t)) then TOk (with_time t (g (t_drawn t)) (S (t_drawn t))) else TBadDraw
  else TPanic.
Proof.
  unfold reset_remaining, gen_time. destruct (range_nonempty (t_range t)); [|reflexivity].
  destruct (in_range (t_range t) (g (t_drawn t))); reflexivity.
Qed.

Lemma reset_ok g t : timer_ok g t ->
  reset_remaining g t = TOk (with_time t (g (t_drawn t)) (S (t_drawn t))).
Proof. intros (Hn & _ & Hd). rewrite reset_eq, Hn, (Hd (t_drawn t)). reflexivity. Qed.

Lemma reset_shape g t t1 : reset_remaining g t = TOk t1 -> t1 = with_time t (g (t_drawn t)) (S (t_drawn t)).
Proof.
  rewrite reset_eq. destruct (range_nonempty (t_range t)); [|discriminate].
  destruct (in_range (t_range t) (g (t_drawn t))); [|discriminate]. intros H. injection H as <-. reflexivity.
Qed.

Definition poll_next (g : nat -> Z) (t : timer) : timer * option (Z * Z) :=
  if negb (t_enabled t) then (t, None)
  else if t_time t =? 0 then
    let t' := with_time t (g (t_drawn t)) (S (t_drawn t)) in
    (t', if g (t_drawn t) =? 0 then Some (timer_interrupt t') else None)
  else if t_time t =? 1 then (with_time t 0 (t_drawn t), Some (timer_interrupt t))
  else (with_time t (t_time t - 1) (t_drawn t), None).

Lemma poll_ok g t : timer_ok g t -> timer_poll g t = TOk (poll_next g t).
Proof.
  intros H. unfold timer_poll, poll_next. destruct (negb (t_enabled t)); [reflexivity|].
  destruct (t_time t =? 0); [|destruct (t_time t =? 1); reflexivity].
  rewrite (reset_ok g t H). reflexivity.
Qed.

Lemma poll_next_keeps g t : t_range (fst (poll_next g t)) = t_range t.
Proof.
  unfold poll_next. destruct (negb (t_enabled t)); [reflexivity|].
  destruct (t_time t =? 0); [reflexivity|]. destruct (t_time t =? 1); reflexivity.
Qed.
Lemma poll_next_ok g t : timer_ok g t -> timer_ok g (fst (poll_next g t)).
Proof. apply timer_ok_same_range, poll_next_keeps. Qed.

Definition fired (f : option (Z * Z)) : bool := match f with Some _ => true | None => false end.

Lemma poll_n_unfold g t n :
  timer_poll_n g t (S n) =
  match timer_poll g t with
  | TOk (t', f) => match timer_poll_n g t' n with
                   | TOk (l, t'') => TOk (fired f :: l, t'')
                   | TPanic => TPanic
                   | TBadDraw => TBadDraw
                   end
  | TPanic => TPanic
  | TBadDraw => TBadDraw
  end.
Proof. reflexivity. Qed.

Fixpoint polls (g : nat -> Z) (t : timer) (n : nat) : list bool :=
  match n with
  | O => []
  | S k => fired (snd (poll_next g t)) :: polls g (fst (poll_next g t)) k
  end.

Lemma poll_n_polls g : forall n t, timer_ok g t -> exists t', timer_poll_n g t n = TOk (polls g t n, t').
Proof.
  induction n as [|n IH]; intros t H; [exists t; reflexivity|].
  rewrite poll_n_unfold, (poll_ok g t H). cbn [polls]. pose proof (poll_next_ok g t H) as K.
  destruct (poll_next g t) as [t1 f]. cbn [fst snd] in *. destruct (IH t1 K) as [t' E].
  rewrite E. exists t'. reflexivity.
Qed.

(* the distance to the next interrupt: the count still to run or, at count 0, the next draw *)
Definition polls_to_first (g : nat -> Z) (t : timer) : Z :=
  if t_time t =? 0 then g (t_drawn t) else t_time t - 1.

Lemma poll_next_dist g t : t_enabled t = true ->
  let (t', f) := poll_next g t in
  t_enabled t' = true /\
  if fired f then polls_to_first g t = 0 /\ t_time t' = 0
  else polls_to_first g t <> 0 /\ polls_to_first g t' = polls_to_first g t - 1.
Proof.
  intros Hen. unfold poll_next, polls_to_first. rewrite Hen. cbn [negb].
  destruct (Z.eqb_spec (t_time t) 0) as [E0|E0];
    [destruct (Z.eqb_spec (g (t_drawn t)) 0) as [Ed|Ed] | destruct (Z.eqb_spec (t_time t) 1) as [E1|E1]];
    (split; [exact Hen|]); cbn [fired t_time t_drawn with_time].
  - auto.
  - destruct (Z.eqb_spec (g (t_drawn t)) 0); [contradiction | auto].
  - split; [lia | reflexivity].
  - destruct (Z.eqb_spec (t_time t - 1) 0); [lia | split; [lia | reflexivity]].
Qed.

(* once an interrupt has been seen, [cur] polls ago, the gap it opens will be cur + the distance *)
Lemma polls_gaps g lo hi : (forall k, lo <= g k <= hi) -> forall n t seen cur,
  t_enabled t = true -> (seen = true -> lo <= cur + polls_to_first g t <= hi) ->
  all_within lo hi (gaps_from seen cur (polls g t n)).
Proof.
  intros Hg. induction n as [|n IH]; intros t seen cur Hen Hinv; [constructor|].
  cbn [polls]. pose proof (poll_next_dist g t Hen) as Hd.
  destruct (poll_next g t) as [t1 f]. cbn [fst snd gaps_from]. destruct Hd as [Ke Hd].
  specialize (IH t1). destruct (fired f).
  - (* the gap cur closes, within [lo, hi]; the count is 0 again, so the next distance is the next draw *)
    destruct Hd as [D0 T0]. apply Forall_app. split.
    + destruct seen; constructor; [specialize (Hinv eq_refl); lia | constructor].
    + apply (IH _ _ Ke). intros _. unfold polls_to_first. rewrite T0. apply Hg.
  - apply (IH _ _ Ke). intros Hs. specialize (Hinv Hs). lia.
Qed.

Lemma countdown g : forall k t, t_enabled t = true -> t_time t = Z.of_nat (S k) ->
  timer_poll_n g t (S k) = TOk (repeat false k ++ [true], with_time t 0 (t_drawn t)).
Proof.
  induction k as [|k IH]; intros t Hen Ht; rewrite poll_n_unfold; unfold timer_poll; rewrite Hen; cbn [negb].
  - rewrite Ht. reflexivity.
  - destruct (Z.eqb_spec (t_time t) 0); [lia|]. destruct (Z.eqb_spec (t_time t) 1); [lia|].
    rewrite IH; [reflexivity | exact Hen | cbn [t_time with_time]; lia].
Qed.

Lemma first_fire_polls g : forall n t, t_enabled t = true ->
  0 <= polls_to_first g t -> (Z.to_nat (polls_to_first g t) < n)%nat ->
  first_fire (polls g t n) = Some (polls_to_first g t).
Proof.
  induction n as [|n IH]; intros t Hen H0 Hn; [lia|]. cbn [polls].
  pose proof (poll_next_dist g t Hen) as Hd. destruct (poll_next g t) as [t' f]. cbn [fst snd]. destruct Hd as [Ke Hd].
  specialize (IH t'). cbn [first_fire].
  destruct (fired f); [destruct Hd as [-> _]; reflexivity|]. destruct Hd as [Hne Hd].
  rewrite IH by (rewrite ?Ke, ?Hd; auto; lia). rewrite Hd. f_equal. lia.
Qed.

Definition keeps_range (o : timer_op) : Prop :=
  match o with OSetRange _ _ | OSetExact _ => False | _ => True end.

Definition time_inv (t : timer) : Prop := 0 <= t_time t <= range_hi (t_range t).

Lemma step_keeps g t o : timer_ok g t -> time_inv t -> keeps_range o ->
  exists t' f, timer_step g t o = TOk (t', f) /\ t_range t' = t_range t /\ time_inv t'.
Proof.
  intros Hok Hinv Hk. pose proof (draw_bounds g t (t_drawn t) Hok) as Hd. unfold time_inv in *.
  destruct o; cbn [timer_step keeps_range] in *; try contradiction.
  1:{ rewrite (poll_ok g t Hok). eexists _, _. split; [apply f_equal, surjective_pairing|].
      pose proof (poll_next_keeps g t) as Kr. split; [exact Kr|]. rewrite Kr.
      unfold poll_next. destruct (negb (t_enabled t)); [exact Hinv|].
      destruct (Z.eqb_spec (t_time t) 0); [cbn [fst t_time with_time]; lia|].
      destruct (Z.eqb_spec (t_time t) 1); cbn [fst t_time with_time]; lia. }
  all: unfold timer_io_reset; rewrite ?(reset_ok g t Hok); eexists _, _; (split; [reflexivity|]);
    (split; [reflexivity|]); try exact Hinv; cbn [t_time t_range with_time]; lia.
Qed.

Lemma run_state_keeps g : forall ops t, timer_ok g t -> time_inv t -> Forall keeps_range ops ->
  t_range (timer_run_state g t ops) = t_range t /\ time_inv (timer_run_state g t ops).
Proof.
  induction ops as [|o r IH]; intros t Hok Hinv Hall.
  - split; [reflexivity|exact Hinv].
  - inversion Hall as [|? ? Ho Hr]; subst.
    destruct (step_keeps g t o Hok Hinv Ho) as (t' & f & E & Hrg & Hi).
    cbn [timer_run_state]. rewrite E.
    destruct (IH t') as [H1 H2]; auto.
    { eapply timer_ok_same_range; [exact Hrg|exact Hok]. }
    split; [congruence|exact H2].
Qed.

Lemma timer_new_ok g s e v p t0 :
  timer_new g s e v p = TOk t0 -> range_nonempty (t_range t0) = true /\ in_range (t_range t0) (t_time t0) = true.
Proof.
  unfold timer_new. destruct (srange_new s e) as [r| |]; try discriminate.
  rewrite reset_eq. cbn [t_range t_drawn].
  destruct (range_nonempty r) eqn:En; [|discriminate].
  destruct (in_range r (g O)) eqn:Ei; [|discriminate].
  intros H. injection H as <-. cbn. auto.
Qed.

Lemma timer_step_shape g t o t' f : timer_step g t o = TOk (t', f) ->
  (t_drawn t' = t_drawn t \/ t_drawn t' = S (t_drawn t)) /\
  t_enabled t' = match o with OEnable => true | ODisable => false | _ => t_enabled t end /\
  (f = None \/ (o = OPoll /\ t_enabled t = true)).
Proof.
  intros E. destruct o; cbn [timer_step] in E; unfold timer_io_reset, set_exact, set_range in E;
    try (injection E as <- <-; cbn; auto; fail).
  2,3: destruct (reset_remaining g t) as [t1| |] eqn:E1; try discriminate;
       apply reset_shape in E1; subst t1; injection E as <- <-; cbn; auto.
  - unfold timer_poll in E. destruct (t_enabled t) eqn:En; cbn [negb] in E; [|injection E as <- <-; auto].
    destruct (t_time t =? 0); [|destruct (t_time t =? 1); injection E as <- <-; cbn; auto].
    destruct (reset_remaining g t) as [t1| |] eqn:E1; try discriminate.
    apply reset_shape in E1. subst t1. injection E as <- <-. cbn. auto.
  - destruct (srange_new s e); try discriminate. injection E as <- <-. cbn. auto.
Qed.

Definition quiet (o : timer_obs) : Prop := match o with ObsOk f _ _ => f = None | _ => True end.

Lemma disabled_quiet g : forall ops t, t_enabled t = false -> ~ In OEnable ops -> Forall quiet (timer_run g t ops).
Proof.
  induction ops as [|o r IH]; intros t Hd Hn; [constructor|].
  assert (Hr : ~ In OEnable r) by (intros H; apply Hn; right; exact H).
  assert (Ho : o <> OEnable) by (intros ->; apply Hn; left; reflexivity).
  cbn [timer_run].
  destruct (timer_step g t o) as [[t' f]| |] eqn:E.
  - destruct (timer_step_shape g t o t' f E) as (_ & He & [->|[_ Ht]]); [|congruence].
    constructor; [reflexivity|]. apply IH; [|exact Hr]. rewrite He. destruct o; congruence.
  - constructor; [exact Logic.I|]. apply IH; assumption.
  - constructor; [exact Logic.I|constructor].
Qed.

Lemma step_ext g g' t o : g (t_drawn t) = g' (t_drawn t) -> timer_step g t o = timer_step g' t o.
Proof.
  intros E.
  assert (R : reset_remaining g t = reset_remaining g' t) by (rewrite !reset_eq, E; reflexivity).
  destruct o; cbn [timer_step]; try reflexivity.
  - unfold timer_poll. rewrite R. reflexivity.
  - rewrite R. reflexivity.
  - unfold timer_io_reset. rewrite R. reflexivity.
Qed.

Lemma run_ext g g' : forall ops t,
  (forall k, (k < t_drawn t + length ops)%nat -> g k = g' k) -> timer_run g t ops = timer_run g' t ops.
Proof.
  induction ops as [|o r IH]; intros t H; [reflexivity|].
  cbn [timer_run]. cbn [length] in H.
  rewrite <- (step_ext g g' t o) by (apply H; lia).
  destruct (timer_step g t o) as [[t' f]| |] eqn:E.
  - f_equal. apply IH. intros k Hk. apply H. destruct (timer_step_shape g t o t' f E) as ([Hd|Hd] & _); lia.
  - f_equal. apply IH. intros k Hk. apply H. lia.
  - reflexivity.
Qed.

Definition observe (g : nat -> Z) (s e : bound) (v p : Z) (ops : list timer_op) : option (Z * list timer_obs) :=
  match timer_new g s e v p with
  | TOk t0 => Some (t_time t0, timer_run g t0 ops)
  | _ => None
  end.

(* the unrepaired transition: what poll_interrupt did before the fix *)
Definition poll_unrepaired (g : nat -> Z) (t : timer) : tres (timer * option (Z * Z)) :=
  if negb (t_enabled t) then TOk (t, None)
  else if t_time t =? 0 then
    match reset_remaining g t with
    | TOk t' => TOk (t', None)
    | TPanic => TPanic
    | TBadDraw => TBadDraw
    end
  else if t_time t =? 1 then TOk (with_time t 0 (t_drawn t), Some (timer_interrupt t))
  else TOk (with_time t (t_time t - 1) (t_drawn t), None).
Fixpoint poll_n_unrepaired (g : nat -> Z) (t : timer) (n : nat) : list bool :=
  match n with
  | O => []
  | S k => match poll_unrepaired g t with
           | TOk (t', f) => fired f :: poll_n_unrepaired g t' k
           | _ => []
           end
  end.

(* range 0..=1, draws (index 1, 2) = 0, 1: two polls between the two interrupts *)
Lemma unrepaired_gap_refuted :
  exists g t n, timer_ok g t /\ t_enabled t = true /\
    ~ all_within (range_lo (t_range t)) (range_hi (t_range t)) (gaps (poll_n_unrepaired g t n)).
Proof.
  exists (fun k => match k with 1%nat => 0 | _ => 1 end).
  exists (mk_timer (mk_srange 0 1 true) 1 129 4 true 1%nat), 4%nat.
  split; [|split; [reflexivity|]].
  - split; [reflexivity|]. split; [cbn; lia|]. intros k.
    destruct k as [|[|k]]; reflexivity.
  - set (l := gaps _). assert (E : l = [2]) by (vm_compute; reflexivity). rewrite E.
    intros H. inversion H as [|? ? Hb _].
    cbn [range_lo range_hi t_range r_start r_end r_incl] in Hb. lia.
Qed.

