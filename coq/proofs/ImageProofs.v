(* ImageProofs.v — the parser only returns statements of its image ([in_parser_image], the hypothesis
   of C36): tokens of a text that lexes are well formed ([tok_wf]), and a statement whose leaves were
   read from well-formed tokens lies in the image. *)
From Coq Require Import ZArith List Bool Lia.
From Model Require Import Text Bits Offset Instr AsmAst Lexer Parser.
From Proofs Require Import LexerProofs LexNumProofs OffsetProofs PiecesProofs PrintParseProofs ParserProofs.
Import ListNotations.
Open Scope Z_scope.

Definition tok_wf (t : token) : Prop :=
  match t with
  | TReg r => 0 <= r < 8
  | TUnsigned v => 0 <= v <= 65535
  | TSigned v => -32768 <= v <= 32767
  | TIdent (ILabel s) => label_name_ok s = true
  | TString s => byte_len s <? 65535 = true
  | _ => True
  end.
Definition res_wf (r : step_res) : Prop := match r with SOk t => tok_wf t | _ => True end.

Lemma conv_int_wf mk radix lo hi src a b c s :
  0 < radix -> lo <= 0 <= hi -> (forall v, lo <= v <= hi -> tok_wf (mk v)) ->
  res_wf (conv_int mk (parse_int radix lo hi src) a b c s).
Proof.
  intros Hr Hb Hmk. unfold conv_int. destruct (parse_int radix lo hi src) as [v| | | |] eqn:E; cbn [res_wf]; trivial.
  - apply Hmk. eapply parse_int_range; eassumption.
  - destruct (str_eqb s [45]); exact Logic.I.
Qed.
Lemma conv_u16_wf radix src a b c s : 0 < radix -> res_wf (conv_int TUnsigned (parse_u16 radix src) a b c s).
Proof. intros Hr. apply conv_int_wf; [exact Hr|lia|]. intros v Hv. exact Hv. Qed.
Lemma conv_i16_wf radix src a b c s : 0 < radix -> res_wf (conv_int TSigned (parse_i16 radix src) a b c s).
Proof. intros Hr. apply conv_int_wf; [exact Hr|lia|]. intros v Hv. exact Hv. Qed.

Lemma lex_reg_wf s : res_wf (lex_reg s).
Proof.
  unfold lex_reg. destruct s as [|c ds]; [exact Logic.I|]. destruct (c <? 128); [|exact Logic.I].
  destruct (parse_u8 10 ds) as [r| | | |] eqn:E; try exact Logic.I.
  unfold parse_u8 in E. apply parse_int_range in E; [|lia|lia].
  destruct (r <? 8) eqn:E8; [|exact Logic.I]. cbn [res_wf tok_wf]. lia.
Qed.

Lemma ident_wf c w : ident_like c w -> forallb is_word w = true -> tok_wf (TIdent (ident_of (c :: w))).
Proof.
  intros Hl Hw. cbn [tok_wf]. destruct (ident_of (c :: w)) as [k|s] eqn:E; [exact Logic.I|].
  assert (Hs : s = c :: w).
  { unfold ident_of in E. destruct (assoc_str (kw_upper (c :: w)) kw_table); [discriminate|]. injection E as <-. reflexivity. }
  subst s. apply label_name_ok_iff. split; [exact Hl|]. split; [exact Hw|exact E].
Qed.

Lemma word_rule_wf pre w res : forallb is_word w = true -> word_rule pre w res -> res_wf res.
Proof.
  intros Hw. destruct 1 as [w|pre w|pre w|c w Hx|c w Hx|c w Hr|c w Hi].
  - exact Logic.I.
  - apply conv_i16_wf. lia.
  - apply conv_u16_wf. lia.
  - cbn [lex_signed_hex]. rewrite Hx. apply conv_i16_wf. lia.
  - cbn [lex_unsigned_hex]. rewrite Hx. apply conv_u16_wf. lia.
  - apply lex_reg_wf.
  - apply ident_wf; assumption.
Qed.

Lemma lex_step_wf fx c r res n rest : lex_step fx c r = (res, n, rest) -> res_wf res.
Proof.
  intros H. pose proof (lex_step_form fx c r) as F. rewrite H in F. destruct F as [_ [Hp|k Hk|pre w Hw Hr]].
  - destruct res as [t| |]; [|exact Logic.I|exact Logic.I]. destruct t; try exact Logic.I; contradiction.
  - unfold lex_str_literal in Hk. destruct (scan_str fx r); injection Hk as <- <- <-; try exact Logic.I.
    destruct (byte_len buf <? 65535) eqn:E; [exact E|exact Logic.I].
  - apply (word_rule_wf pre w); assumption.
Qed.

Definition toks_wf (l : list tok) : Prop := Forall (fun t : tok => tok_wf (fst t)) l.

Lemma lex_at_wf fx s pos : match lex_at fx pos s with LexOk l => toks_wf l | _ => True end.
Proof.
  revert s pos. apply (lex_at_ind fx (fun _ _ r => match r with LexOk l => toks_wf l | _ => True end)).
  - constructor.
  - intros pos c r _ IH. exact IH.
  - intros pos c r res n rest _ E IH. apply lex_step_wf in E.
    destruct res; cbn [lex_emit]; try exact Logic.I.
    destruct (lex_at fx (pos + n) rest); cbn [lex_cons]; try exact Logic.I. constructor; [exact E|exact IH].
Qed.

(* the reading function checked field and register number, the lexer label name and string length *)
Lemma reg_image r : read_from tok_wf rd_reg r -> reg_okb r = true.
Proof.
  intros [t [sp [_ E]]]. destruct t; try discriminate E. cbn [rd_reg] in E.
  destruct (reg_ok r0) eqn:R; [injection E as <-; exact R|discriminate E].
Qed.
Lemma lab_image l : read_from tok_wf rd_lab l -> label_okb l = true.
Proof. intros [t [sp [Ht E]]]. destruct t; try destruct i; try discriminate E. injection E as <-. exact Ht. Qed.
Lemma num_image fits v : read_from tok_wf (rd_num fits) v -> fits v = true.
Proof. intros H. destruct (read_from_num_or _ _ _ _ _ H) as [[w [-> Hf]]|[t [sp [_ E]]]]; [exact Hf|discriminate E]. Qed.
Lemma ior_image o : read_from tok_wf (rd_ior 5) o -> ior_okb o = true.
Proof.
  intros H. destruct (read_from_num_or _ _ _ _ _ H) as [[v [-> Hf]]|[t [sp [Ht E]]]]; [exact Hf|].
  destruct (rd_reg t sp) as [r|] eqn:Er; [injection E as <-|discriminate E]. apply reg_image. exists t, sp. split; assumption.
Qed.
Lemma pcoff_image n o : read_from tok_wf (rd_pc n) o -> pcoff_okb n o = true.
Proof.
  intros H. destruct (read_from_num_or _ _ _ _ _ H) as [[v [-> Hf]]|[t [sp [Ht E]]]]; [exact Hf|].
  destruct (rd_lab t sp) as [l|] eqn:El; [injection E as <-|discriminate E]. apply lab_image. exists t, sp. split; assumption.
Qed.

Lemma instr_from_ok i : instr_from tok_wf i -> instr_okb i = true.
Proof.
  pose proof reg_image as Hr. pose proof ior_image as Hi. pose proof pcoff_image as Hp. pose proof num_image as Hn.
  (* the disjunction: NOP without operand *)
  destruct i; cbn [instr_from instr_okb]; intros H; try reflexivity;
    rewrite ?andb_true_iff; try (destruct H as [H| ->]; [|reflexivity]); intuition (auto; lia).
Qed.

Lemma directive_from_ok d : directive_from tok_wf d -> directive_okb d = true.
Proof.
  destruct d as [a|[w|l]|n|s| |l]; cbn [directive_from directive_okb]; trivial.
  - apply num_image.
  - intros [v ->]. apply zext_fits. lia.
  - apply lab_image.
  - intros [Hn H0]. rewrite (num_image _ _ Hn). lia.
  - intros [t [sp [Ht E]]]. destruct t; try discriminate E. injection E as <-. exact Ht.
  - apply lab_image.
Qed.

Lemma stmt_from_image s : stmt_from tok_wf s -> in_parser_image s = true.
Proof.
  intros [Hl Hn]. unfold in_parser_image. apply andb_true_intro. split.
  - apply forallb_forall. rewrite Forall_forall in Hl. intros l Hin. apply lab_image, Hl, Hin.
  - destruct (s_nucleus s); cbn [nucleus_from nucleus_okb] in *; [apply instr_from_ok|apply directive_from_ok]; exact Hn.
Qed.
