(* LexNumProofs.v — C05, the arithmetic: what the lexer's integer parsers make of a digit string of
   any length (positional value or overflow), the definitions of the six numeral notations, the spelling
   of every integer, and the operand parsers on a numeric token: accepted exactly when the value fits. *)
From Coq Require Import ZArith List Bool Lia.
From Model Require Import Text Bits Offset Instr AsmAst Lexer Parser Print.
From Spec Require Import Numerals.
From Proofs Require Import TextFacts LexerProofs LexStepProofs OffsetProofs ParserProofs.
Import ListNotations.
Open Scope Z_scope.

Lemma dec_hex c : dec_digit c -> hex_digit c.
Proof. unfold dec_digit, hex_digit. lia. Qed.
Lemma Forall_dec_hex ds : Forall dec_digit ds -> Forall hex_digit ds.
Proof. apply Forall_impl. exact dec_hex. Qed.

Lemma hex_digit_word c : hex_digit c -> is_word c = true.
Proof.
  unfold hex_digit, is_word, is_digit, is_alpha_us, is_upper, is_lower. intros H.
  destruct (c <? 128) eqn:E; lia.
Qed.
Lemma hex_digits_word ds : Forall hex_digit ds -> forallb is_word ds = true.
Proof.
  induction 1 as [|c ds Hc _ IH]; [reflexivity|]. cbn [forallb]. rewrite (hex_digit_word c Hc), IH. reflexivity.
Qed.
Lemma dec_digits_is_digit ds : Forall dec_digit ds -> forallb is_digit ds = true.
Proof.
  induction 1 as [|c ds Hc _ IH]; [reflexivity|]. cbn [forallb]. rewrite IH.
  unfold dec_digit in Hc. unfold is_digit. lia.
Qed.
Lemma hex_digit_hexlike c : hex_digit c -> is_dec c || is_hex_letter c = true.
Proof. unfold hex_digit, is_dec, is_hex_letter, is_digit. intros H. destruct (c <? 128) eqn:E; lia. Qed.
Lemma hex_digits_bytes ds : Forall hex_digit ds -> byte_len ds = Z.of_nat (List.length ds).
Proof.
  induction 1 as [|c ds Hc _ IH]; [reflexivity|]. cbn [byte_len List.length].
  rewrite utf8_len_ascii by (unfold hex_digit in Hc; lia). lia.
Qed.

Definition valid_digits (radix : Z) (ds : str) : Prop :=
  Forall (fun c => to_digit radix c = Some (digit_value c) /\ 0 <= digit_value c < radix) ds.

Lemma valid_hex ds : Forall hex_digit ds -> valid_digits 16 ds.
Proof.
  apply Forall_impl. intros c H. unfold hex_digit in H.
  unfold to_digit, digit_value, is_digit, is_lower, is_upper.
  destruct ((48 <=? c) && (c <=? 57)) eqn:E1;
    [|destruct ((97 <=? c) && (c <=? 122)) eqn:E2; [|destruct ((65 <=? c) && (c <=? 90)) eqn:E3]];
    repeat match goal with |- context [if ?b then _ else _] => destruct b eqn:? end;
    first [lia | split; [reflexivity|lia]].
Qed.
Lemma valid_dec ds : Forall dec_digit ds -> valid_digits 10 ds.
Proof.
  apply Forall_impl. intros c H. unfold dec_digit in H.
  unfold to_digit, digit_value, is_digit. replace ((48 <=? c) && (c <=? 57)) with true by lia.
  replace (c - 48 <? 10) with true by lia. replace (c <=? 57) with true by lia. split; [reflexivity|lia].
Qed.

Lemma numeral_value_ge radix ds : 1 <= radix -> valid_digits radix ds ->
  forall acc, 0 <= acc -> acc <= numeral_value radix acc ds.
Proof.
  intros Hr. induction 1 as [|c ds [_ Hc] _ IH]; intros acc Ha; cbn [numeral_value]; [lia|].
  assert (H1 : acc <= acc * radix + digit_value c) by nia.
  specialize (IH (acc * radix + digit_value c) ltac:(lia)). lia.
Qed.

Lemma value_of_dec_nonneg ds : Forall dec_digit ds -> 0 <= value_of 10 ds.
Proof. intros Hd. unfold value_of. apply numeral_value_ge; [lia|apply valid_dec; exact Hd|lia]. Qed.

Lemma pi_pos_value radix hi ds : 1 <= radix -> valid_digits radix ds ->
  forall acc, 0 <= acc <= hi ->
  pi_pos radix hi acc ds =
    if numeral_value radix acc ds <=? hi then IOk (numeral_value radix acc ds) else IPosOverflow.
Proof.
  intros Hr. induction 1 as [|c ds [Hd Hc] Hds IH]; intros acc Ha; cbn [pi_pos numeral_value].
  - destruct (Z.leb_spec acc hi); [reflexivity|lia].
  - rewrite Hd.
    assert (Hge : acc * radix + digit_value c <= numeral_value radix (acc * radix + digit_value c) ds)
      by (apply numeral_value_ge; [exact Hr|exact Hds|nia]).
    destruct (acc * radix >? hi) eqn:E1; [|destruct (acc * radix + digit_value c >? hi) eqn:E2].
    + destruct (Z.leb_spec (numeral_value radix (acc * radix + digit_value c) ds) hi); [lia|reflexivity].
    + destruct (Z.leb_spec (numeral_value radix (acc * radix + digit_value c) ds) hi); [lia|reflexivity].
    + apply IH. nia.
Qed.

(* the negative loop is the positive one on the negated accumulator and bound *)
Definition neg_res (r : int_res) : int_res :=
  match r with IOk v => IOk (- v) | IPosOverflow => INegOverflow | _ => r end.
Lemma pi_neg_pos radix lo s : forall acc, pi_neg radix lo acc s = neg_res (pi_pos radix (- lo) (- acc) s).
Proof.
  induction s as [|c r IH]; intros acc; cbn [pi_neg pi_pos neg_res]; [rewrite Z.opp_involutive; reflexivity|].
  destruct (to_digit radix c) as [d|]; [|reflexivity].
  replace (- acc * radix >? - lo) with (acc * radix <? lo) by lia.
  replace (- acc * radix + d >? - lo) with (acc * radix - d <? lo) by lia.
  destruct (acc * radix <? lo); [reflexivity|]. destruct (acc * radix - d <? lo); [reflexivity|].
  rewrite IH. replace (- (acc * radix - d)) with (- acc * radix + d) by lia. reflexivity.
Qed.
Lemma to_digit_range radix c d : to_digit radix c = Some d -> 0 <= d < radix.
Proof.
  unfold to_digit, is_digit, is_lower, is_upper.
  destruct ((48 <=? c) && (c <=? 57)) eqn:E1; [|destruct ((97 <=? c) && (c <=? 122)) eqn:E2; [|destruct ((65 <=? c) && (c <=? 90)) eqn:E3]];
    match goal with |- (if ?b then _ else _) = _ -> _ => destruct b eqn:E end; intros H; inversion H; lia.
Qed.
Lemma pi_pos_range radix hi : 0 < radix -> forall s acc v, 0 <= acc <= hi -> pi_pos radix hi acc s = IOk v -> 0 <= v <= hi.
Proof.
  intros Hr. induction s as [|c r IH]; intros acc v Ha H; cbn [pi_pos] in H.
  - injection H as <-. exact Ha.
  - destruct (to_digit radix c) as [d|] eqn:Ed; [|discriminate]. apply to_digit_range in Ed.
    destruct (acc * radix >? hi) eqn:E1; [discriminate|]. destruct (acc * radix + d >? hi) eqn:E2; [discriminate|].
    apply (IH (acc * radix + d) v); [nia|exact H].
Qed.
Lemma pi_neg_range radix lo : 0 < radix -> forall s acc v, lo <= acc <= 0 -> pi_neg radix lo acc s = IOk v -> lo <= v <= 0.
Proof.
  intros Hr s acc v Ha H. rewrite pi_neg_pos in H.
  destruct (pi_pos radix (- lo) (- acc) s) as [v'| | | |] eqn:E; try discriminate H. injection H as <-.
  apply (pi_pos_range radix (- lo) Hr) in E; lia.
Qed.
Lemma parse_int_range radix lo hi s v : 0 < radix -> lo <= 0 <= hi -> parse_int radix lo hi s = IOk v -> lo <= v <= hi.
Proof.
  intros Hr Hb H. unfold parse_int in H. destruct s as [|c r]; [discriminate|].
  destruct (((c =? 43) || (c =? 45)) && is_nil r); [discriminate|].
  destruct (c =? 43).
  { apply pi_pos_range in H; lia. }
  destruct ((c =? 45) && (lo <? 0)).
  { apply pi_neg_range in H; lia. }
  apply pi_pos_range in H; lia.
Qed.

Definition unsigned_result (v : Z) : step_res :=
  if v <=? 65535 then SOk (TUnsigned v) else SErr DoesNotFitU16.
Definition signed_result (v : Z) : step_res :=        (* v = the magnitude after the '-' *)
  if v <=? 32768 then SOk (TSigned (- v)) else SErr DoesNotFitI16.

Lemma parse_pos radix lo hi c ds : 1 <= radix -> hex_digit c -> valid_digits radix (c :: ds) -> 0 <= hi ->
  parse_int radix lo hi (c :: ds) =
    if value_of radix (c :: ds) <=? hi then IOk (value_of radix (c :: ds)) else IPosOverflow.
Proof.
  intros Hr Hc Hv Hhi. unfold hex_digit in Hc. unfold parse_int.
  replace (c =? 43) with false by lia. replace (c =? 45) with false by lia. cbn [orb andb].
  apply pi_pos_value; [exact Hr|exact Hv|lia].
Qed.

Lemma parse_neg radix lo hi ds : 1 <= radix -> ds <> [] -> valid_digits radix ds -> lo < 0 ->
  parse_int radix lo hi (45 :: ds) =
    if lo <=? - value_of radix ds then IOk (- value_of radix ds) else INegOverflow.
Proof.
  intros Hr Hne Hv Hlo. unfold parse_int. cbn [Z.eqb Pos.eqb orb andb].
  destruct ds as [|d ds]; [congruence|]. cbn [is_nil]. replace (lo <? 0) with true by lia.
  rewrite pi_neg_pos, (pi_pos_value radix (- lo) (d :: ds) Hr Hv) by lia. change (- 0) with 0. fold (value_of radix (d :: ds)).
  destruct (Z.leb_spec (value_of radix (d :: ds)) (- lo)), (Z.leb_spec lo (- value_of radix (d :: ds))); cbn [neg_res]; try lia; reflexivity.
Qed.

Lemma conv_unsigned radix inv emp src c ds : 1 <= radix -> hex_digit c -> valid_digits radix (c :: ds) ->
  conv_int TUnsigned (parse_u16 radix (c :: ds)) inv emp DoesNotFitU16 src = unsigned_result (value_of radix (c :: ds)).
Proof.
  intros Hr Hh Hv. unfold parse_u16. rewrite parse_pos by (assumption || lia).
  unfold unsigned_result. destruct (_ <=? 65535); reflexivity.
Qed.

Lemma conv_signed radix inv emp src ds : 1 <= radix -> ds <> [] -> valid_digits radix ds ->
  conv_int TSigned (parse_i16 radix (45 :: ds)) inv emp DoesNotFitI16 src = signed_result (value_of radix ds).
Proof.
  intros Hr Hne Hv. unfold parse_i16. rewrite parse_neg by (assumption || lia).
  unfold signed_result.
  destruct (Z.leb_spec (-32768) (- value_of radix ds)), (Z.leb_spec (value_of radix ds) 32768); try lia; reflexivity.
Qed.

Inductive notation := NDec | NHash | NMinus | NHashMinus | NHex (x : Z) | NHexMinus (x : Z).
Definition nt_ok (nt : notation) : Prop :=
  match nt with NHex x | NHexMinus x => is_x x = true | _ => True end.
Definition nt_radix (nt : notation) : Z := match nt with NHex _ | NHexMinus _ => 16 | _ => 10 end.
Definition nt_prefix (nt : notation) : str :=
  match nt with
  | NDec => [] | NHash => [35] | NMinus => [45] | NHashMinus => [35; 45]
  | NHex x => [x] | NHexMinus x => [x; 45]
  end.
Definition nt_signed (nt : notation) : bool :=
  match nt with NMinus | NHashMinus | NHexMinus _ => true | _ => false end.
Definition nt_digit (nt : notation) : Z -> Prop :=
  match nt with NHex _ | NHexMinus _ => hex_digit | _ => dec_digit end.
Definition nt_result (nt : notation) (v : Z) : step_res :=
  if nt_signed nt then signed_result v else unsigned_result v.

Lemma nt_digits nt ds : Forall (nt_digit nt) ds -> Forall hex_digit ds /\ valid_digits (nt_radix nt) ds.
Proof.
  destruct nt; cbn [nt_digit nt_radix]; intros H;
    (split; [first [exact H|apply Forall_dec_hex; exact H] | first [apply valid_hex|apply valid_dec]; exact H]).
Qed.

Definition reg_result (v : Z) : step_res := if v <=? 7 then SOk (TReg v) else SErr InvalidReg.

Lemma lex_reg_digits r ds : is_r r = true -> ds <> [] -> Forall dec_digit ds -> lex_reg (r :: ds) = reg_result (value_of 10 ds).
Proof.
  intros Hr Hne Hd. destruct (is_r_ascii r Hr) as [Hlt _].
  destruct ds as [|c ds]; [congruence|]. assert (Hc : dec_digit c) by (inversion Hd; assumption).
  unfold lex_reg, parse_u8. replace (r <? 128) with true by lia.
  rewrite parse_pos by (first [lia | apply dec_hex; exact Hc | apply valid_dec; exact Hd]). unfold reg_result.
  destruct (Z.leb_spec (value_of 10 (c :: ds)) 255), (Z.ltb_spec (value_of 10 (c :: ds)) 8),
           (Z.leb_spec (value_of 10 (c :: ds)) 7); try lia; reflexivity.
Qed.

Definition evalD (radix : Z) (a : Z) (l : list Z) : Z := fold_left (fun a d => a * radix + d) l a.

Lemma digits_fuel_spec radix : 2 <= radix -> forall f v acc, 0 <= v < 2 ^ (Z.of_nat f + 1) ->
  evalD radix 0 (digits_fuel radix f v acc) = evalD radix v acc /\
  (Forall (fun d => 0 <= d < radix) acc -> Forall (fun d => 0 <= d < radix) (digits_fuel radix f v acc)).
Proof.
  intros Hr. induction f as [|f IH]; intros v acc Hv; cbn [digits_fuel].
  - change (2 ^ (Z.of_nat 0 + 1)) with 2 in Hv. split; [reflexivity|]. intros Ha. constructor; [lia|exact Ha].
  - destruct (Z.ltb_spec v radix); [split; [reflexivity|intros Ha; constructor; [lia|exact Ha]]|].
    rewrite Nat2Z.inj_succ in Hv.
    destruct (IH (v / radix) (v mod radix :: acc) (div_radix_bits radix v (Z.of_nat f + 1) Hr ltac:(lia) Hv)) as [E R]. split.
    + rewrite E. unfold evalD. cbn [fold_left]. f_equal. rewrite (Z.mul_comm (v / radix) radix). symmetry. apply Z.div_mod. lia.
    + intros Ha. apply R. constructor; [apply Z.mod_pos_bound; lia|exact Ha].
Qed.

Lemma log2_fuel v : 0 <= v -> 0 <= v < 2 ^ (Z.of_nat (Z.to_nat (Z.log2 v)) + 1).
Proof. intros Hv. rewrite Z2Nat.id by apply Z.log2_nonneg. exact (log2_bits v Hv). Qed.

Lemma nat_digits_eval radix v : 2 <= radix -> 0 <= v -> evalD radix 0 (nat_digits radix v) = v.
Proof. intros Hr Hv. unfold nat_digits. rewrite (proj1 (digits_fuel_spec radix Hr _ v [] (log2_fuel v Hv))). reflexivity. Qed.
Lemma nat_digits_range radix v : 2 <= radix -> 0 <= v -> Forall (fun d => 0 <= d < radix) (nat_digits radix v).
Proof. intros Hr Hv. unfold nat_digits. apply (digits_fuel_spec radix Hr _ v [] (log2_fuel v Hv)). constructor. Qed.
Lemma digits_fuel_nonempty radix f : forall v acc, digits_fuel radix f v acc <> [].
Proof.
  induction f as [|f IH]; intros v acc; cbn [digits_fuel]; [discriminate|]. destruct (v <? radix); [discriminate|apply IH].
Qed.

Lemma digit_char_value up d : 0 <= d < 16 -> digit_value (digit_char up d) = d /\ hex_digit (digit_char up d).
Proof.
  intros Hd. unfold digit_char, digit_value, hex_digit. destruct (d <? 10) eqn:E; [|destruct up];
    repeat match goal with |- context [if ?b then _ else _] => destruct b eqn:? end; lia.
Qed.

Lemma numeral_value_chars radix up ds : Forall (fun d => 0 <= d < 16) ds ->
  forall a, numeral_value radix a (map (digit_char up) ds) = evalD radix a ds.
Proof.
  induction 1 as [|d ds Hd _ IH]; intros a; cbn [map numeral_value evalD fold_left]; [reflexivity|].
  rewrite (proj1 (digit_char_value up d Hd)). apply IH.
Qed.

Lemma numeral_value_zeros radix n s : numeral_value radix 0 (repeat 48 n ++ s) = numeral_value radix 0 s.
Proof. induction n as [|n IH]; cbn [repeat app numeral_value]; [reflexivity|]. exact IH. Qed.

Definition spell_mag (radix : Z) (up : bool) (lz : nat) (m : Z) : str :=
  repeat 48 lz ++ map (digit_char up) (nat_digits radix m).

Lemma spell_mag_value radix up lz m : 2 <= radix <= 16 -> 0 <= m -> value_of radix (spell_mag radix up lz m) = m.
Proof.
  intros Hr Hm. unfold value_of, spell_mag. rewrite numeral_value_zeros.
  rewrite numeral_value_chars.
  - apply nat_digits_eval; lia.
  - eapply Forall_impl; [|apply (nat_digits_range radix m); lia]. cbn beta. intros. lia.
Qed.
Lemma spell_mag_nonempty radix up lz m : spell_mag radix up lz m <> [].
Proof.
  unfold spell_mag. intros H. apply app_eq_nil in H. destruct H as [_ H]. apply map_eq_nil in H.
  exact (digits_fuel_nonempty radix _ m [] H).
Qed.
Lemma spell_mag_digits nt up lz m : 0 <= m -> Forall (nt_digit nt) (spell_mag (nt_radix nt) up lz m).
Proof.
  intros Hm. unfold spell_mag. apply Forall_app. split.
  - apply Forall_forall. intros x Hx. apply repeat_spec in Hx. subst. destruct nt; cbn [nt_digit]; unfold dec_digit, hex_digit; lia.
  - apply Forall_map. eapply Forall_impl; [|apply (nat_digits_range (nt_radix nt) m); destruct nt; cbn [nt_radix]; lia].
    cbn beta. intros d Hd. unfold digit_char.
    destruct nt; cbn [nt_digit nt_radix] in *; unfold dec_digit, hex_digit; destruct (d <? 10) eqn:E, up; lia.
Qed.

Definition spell (nt : notation) (up : bool) (lz : nat) (m : Z) : str :=
  nt_prefix nt ++ spell_mag (nt_radix nt) up lz m.

Definition num_tok (t : token) (v : Z) : Prop :=
  (t = TUnsigned v /\ 0 <= v <= 65535) \/ (t = TSigned v /\ -32768 <= v <= 32767).

Lemma signed_fits_fits_s n v : signed_fits n v = fits_s n v.
Proof. unfold signed_fits, fits_s. lia. Qed.
Lemma unsigned_fits_fits_u n v : unsigned_fits n v = fits_u n v.
Proof. unfold unsigned_fits, fits_u. lia. Qed.

Definition op_result {A} (ok : bool) (a : A) (sp : span) (r : pres A) : Prop :=
  if ok then r = POk a else exists k, r = PErr k sp.

Lemma num_or_tok {A} fits (F : Z -> A) other t sp v : num_tok t v ->
  num_or fits F other t sp = if fits v then Some (F v) else None.
Proof. intros [[-> _]|[-> _]]; reflexivity. Qed.

(* [sfits]: the width check as spec/Numerals.v writes it; [fits]: that of the component that reads the field *)
Lemma reads_field {A} sfits fits (F : Z -> A) other t v sp ts prev r : (forall v, sfits v = fits v) ->
  reads (num_or fits F other) ((t, sp) :: ts, prev) r -> num_tok t v -> op_result (sfits v) (F v, (ts, sp)) sp r.
Proof.
  unfold reads, op_result. cbn [fst]. intros E H Ht. rewrite (num_or_tok _ _ _ _ _ v Ht) in H. rewrite E.
  destruct (fits v); exact H.
Qed.

Lemma op_result_map {A B} ok (g : A -> B) (a : A) (q : ppos) sp (r : pres (A * ppos)) :
  op_result ok (a, q) sp r -> op_result ok (g a, q) sp (let* (x, p) := r in POk (g x, p)).
Proof. unfold op_result. destruct ok; [intros ->; reflexivity|intros [k ->]; exists k; reflexivity]. Qed.

Theorem operand_imm5 t v sp ts prev : num_tok t v ->
  op_result (fits Imm5 v) (Imm v, (ts, sp)) sp (p_ior 5 ((t, sp) :: ts, prev)).
Proof. exact (reads_field (fits Imm5) _ Imm _ _ _ _ _ _ _ (signed_fits_fits_s 5) (p_ior_reads 5 _ ltac:(lia))). Qed.
Theorem operand_offset6 t v sp ts prev : num_tok t v ->
  op_result (fits Offset6 v) (v, (ts, sp)) sp (p_off (conv_s 6) ((t, sp) :: ts, prev)).
Proof. exact (reads_field (fits Offset6) _ (fun v => v) _ _ _ _ _ _ _ (signed_fits_fits_s 6) (p_off_s_reads 6 _ ltac:(lia))). Qed.
Theorem operand_pcoffset9 t v sp ts prev : num_tok t v ->
  op_result (fits PCOffset9 v) (POff v, (ts, sp)) sp (p_pcoff 9 ((t, sp) :: ts, prev)).
Proof. exact (reads_field (fits PCOffset9) _ POff _ _ _ _ _ _ _ (signed_fits_fits_s 9) (p_pcoff_reads 9 _ ltac:(lia))). Qed.
Theorem operand_pcoffset11 t v sp ts prev : num_tok t v ->
  op_result (fits PCOffset11 v) (POff v, (ts, sp)) sp (p_pcoff 11 ((t, sp) :: ts, prev)).
Proof. exact (reads_field (fits PCOffset11) _ POff _ _ _ _ _ _ _ (signed_fits_fits_s 11) (p_pcoff_reads 11 _ ltac:(lia))). Qed.
Lemma p_off_u_num n t v sp ts prev : 1 <= n <= 16 -> num_tok t v ->
  op_result (unsigned_fits n v) (v, (ts, sp)) sp (p_off (conv_u n) ((t, sp) :: ts, prev)).
Proof. intros Hn. exact (reads_field (unsigned_fits n) _ (fun v => v) _ _ _ _ _ _ _ (unsigned_fits_fits_u n) (p_off_u_reads n _ Hn)). Qed.
Theorem operand_trapvect8 t v sp ts prev : num_tok t v ->
  op_result (fits TrapVect8 v) (v, (ts, sp)) sp (p_off (conv_u 8) ((t, sp) :: ts, prev)).
Proof. exact (p_off_u_num 8 t v sp ts prev ltac:(lia)). Qed.

Theorem operand_orig name dsp t v sp ts prev : assoc_str (kw_upper name) dir_names = Some 0 -> num_tok t v ->
  op_result (fits Orig v) (DOrig (stored Orig v), (ts, sp)) sp (p_directive name dsp ((t, sp) :: ts, prev)).
Proof. intros Hd Ht. unfold p_directive. rewrite Hd. apply (op_result_map _ DOrig), p_off_u_num; [lia|exact Ht]. Qed.
Theorem operand_blkw name dsp t v sp ts prev : assoc_str (kw_upper name) dir_names = Some 2 -> num_tok t v ->
  op_result (fits Blkw v) (DBlkw (stored Blkw v), (ts, sp)) sp (p_directive name dsp ((t, sp) :: ts, prev)).
Proof.
  intros Hd Ht. unfold p_directive. rewrite Hd. pose proof (p_off_u_num 16 t v sp ts prev ltac:(lia) Ht) as H.
  cbn [fits stored cursor fst snd]. unfold op_result in *. destruct (unsigned_fits 16 v); cbn [andb].
  - rewrite H. cbn [pbind]. destruct (v =? 0); cbn [negb]; [eexists; reflexivity|reflexivity].
  - destruct H as [k ->]. exists k. reflexivity.
Qed.
Theorem operand_fill name dsp t v sp ts prev : assoc_str (kw_upper name) dir_names = Some 1 -> num_tok t v ->
  fits Fill v = true /\ p_directive name dsp ((t, sp) :: ts, prev) = POk (DFill (POff (stored Fill v)), (ts, sp)).
Proof.
  intros Hd Ht. unfold p_directive. rewrite Hd. cbn [fits stored fst snd].
  destruct Ht as [[-> Hv]|[-> Hv]].
  - split; [unfold signed_fits, unsigned_fits; change (2 ^ 16 - 1) with 65535; lia|].
    rewrite new_trunc_u_spec by lia. cbn [off_res pbind]. unfold zext. change (2 ^ 16) with 65536. reflexivity.
  - split; [unfold signed_fits, unsigned_fits; change (2 ^ (16 - 1)) with 32768; lia|].
    unfold to_u16, wrap16. rewrite new_trunc_u_spec by lia. cbn [off_res pbind].
    unfold zext. change (2 ^ 16) with 65536. rewrite Z.mod_mod by lia. reflexivity.
Qed.

Definition one_token (res : step_res) (n : Z) : lex_res :=
  match res with
  | SOk t => LexOk [(t, (0, n))]
  | SErr e => LexErr [] e (0, n)
  | SPanic => LexPanic
  end.
