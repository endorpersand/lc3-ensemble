(* ObjTextReadProofs.v — C19 for the text reader (model/ObjText.v): one postcondition, [deser_text_post],
   says that deser_text never returns RPanic (nor runs out of fuel) on any list of integers, and that
   the object it returns has [blocks_ok] and [sym_checked] ([pipe_ok] but for [src_fits]). *)
From Coq Require Import ZArith List Bool Lia String.
From Model Require Import Tree Text Obj SourceInfo ObjBin ObjText ObjPipeline.
From Proofs Require Import ObjBytesProofs ObjMaps ObjTextLemmas ObjPipelineProofs.
Import ListNotations.
Open Scope Z_scope.

Lemma take_words_spec n : forall ls ws rest, take_words n ls = Some (ws, rest) ->
  List.length ws = n /\ (List.length rest <= List.length ls)%nat.
Proof.
  induction n as [|n IH]; intros ls ws rest H; cbn [take_words] in H.
  - inversion H; subst. split; [reflexivity|lia].
  - destruct ls as [|l r]; [discriminate|]. destruct (maybe_hex2u16 l) as [w|]; [|discriminate].
    destruct (take_words n r) as [[ws' rest']|] eqn:E; [|discriminate]. inversion H; subst.
    destruct (IH _ _ _ E) as [H1 H2]. cbn [List.length]. split; lia.
Qed.

Lemma text_group_post fuel : forall ls blocks, (List.length ls <= fuel)%nat -> blocks_ok blocks = true ->
  rd_post (fun bl => blocks_ok bl = true) (text_group fuel ls blocks).
Proof.
  induction fuel as [|f IH]; intros ls blocks Hl Hb.
  - destruct ls; [exact Hb|cbn in Hl; lia].
  - destruct ls as [|orig_hex r]; [exact Hb|]. cbn [text_group].
    destruct (hex2u16 orig_hex) as [orig|] eqn:Eo; [|exact Logic.I].
    destruct r as [|len_s r']; [exact Logic.I|].
    destruct (parse_uint 10 U16_MAX len_s) as [blen|] eqn:El; [|exact Logic.I].
    destruct (take_words (Z.to_nat blen) r') as [[ws rest]|] eqn:Ew; [|exact Logic.I].
    destruct (bt_mem orig blocks); [exact Logic.I|].
    apply take_words_spec in Ew. destruct Ew as [Ew1 Ew2].
    apply IH; [cbn [List.length] in Hl; lia|].
    apply hex2u16_range in Eo. apply parse_uint_range in El; [|lia]. unfold U16_MAX in El.
    apply blocks_ok_insert; [exact Eo|unfold len; rewrite Ew1; lia|exact Hb].
Qed.

(* `i - bl.len()` cannot underflow: the current run has at most i entries *)
Lemma lsm_runs_post lines : forall i cur acc, 0 <= i ->
  (match cur with Some c => len c <= i | None => True end) -> rd_post (fun _ => True) (lsm_runs lines i cur acc).
Proof.
  induction lines as [|[a|] lines IH]; intros i cur acc Hi Hc; cbn [lsm_runs]; [exact Logic.I| |].
  - apply IH; [lia|]. destruct cur as [c|]; [rewrite len_app; unfold len at 2; cbn [List.length]; lia|unfold len; cbn; lia].
  - destruct cur as [c|].
    + replace (i - len c <? 0) with false by lia. apply IH; [lia|exact Logic.I].
    + apply IH; [lia|exact Logic.I].
Qed.
Lemma lsm_new_post lines : rd_post (fun lm => lines_fit lm = true) (lsm_new lines).
Proof.
  unfold lsm_new. eapply rd_post_bind; [apply (lsm_runs_post lines 0 None []); [lia|exact Logic.I]|].
  intros bl _. apply lsm_from_blocks_post.
Qed.

Lemma debug_group_post rest st : blocks_ok (t_blocks st) = true -> rd_post (fun st' => blocks_ok (t_blocks st') = true) (debug_group rest st).
Proof.
  intro Hb. unfold debug_group. destruct rest as [|l0 rest0]; [exact Hb|].
  destruct (break_div (l0 :: rest0)) as [[label_src tail]|]; [|exact Logic.I].
  destruct (negb (starts_with 61 (last (l0 :: rest0) []))); [exact Logic.I|].
  destruct (parse_table label_src [LABEL; INDEX] idx_rowp true) as [ltab|]; [|exact Logic.I].
  destruct (parse_table _ _ line_rowp false) as [[|row rows]|]; [exact Hb| |exact Logic.I].
  destruct (match t_dbg st with Some x => x | None => ([], []) end) as [lm src].
  destruct (unescape _); [exact Hb|exact Logic.I].
Qed.
Lemma group_post h rest st : blocks_ok (t_blocks st) = true -> rd_post (fun st' => blocks_ok (t_blocks st') = true) (group h rest st).
Proof.
  intro Hb. unfold group.
  destruct (str_eqb h (s2z ".TEXT"%string)).
  { eapply rd_post_bind; [apply (text_group_post (List.length rest)); [apply le_n|exact Hb]|]. intros bl H. exact H. }
  destruct (str_eqb h (s2z ".SYMBOL"%string)).
  { destruct (parse_table rest _ sym_rowp true); [exact Hb|exact Logic.I]. }
  destruct (str_eqb h (s2z ".LINKER_INFO"%string)).
  { destruct (parse_table rest _ rel_rowp true); [exact Hb|exact Logic.I]. }
  destruct (str_eqb h (s2z ".DEBUG"%string)); [apply debug_group_post; exact Hb|exact Logic.I].
Qed.
Lemma run_groups_post gs : forall st, blocks_ok (t_blocks st) = true -> rd_post (fun st' => blocks_ok (t_blocks st') = true) (run_groups gs st).
Proof.
  induction gs as [|[h r] gs IH]; intros st Hb; [exact Hb|]. cbn [run_groups].
  eapply rd_post_bind; [apply group_post; exact Hb|]. exact IH.
Qed.

Theorem deser_text_post s : rd_post (fun o => blocks_ok (o_blocks o) = true /\ sym_checked o) (deser_text s).
Proof.
  unfold deser_text, deser_lines. destruct (filter _ (lines (trim s))) as [|first rest]; [exact Logic.I|].
  destruct (negb (str_eqb first TFMT_MAGIC)); [exact Logic.I|].
  destruct (group_lines rest None []) as [gs|]; [|exact Logic.I].
  eapply rd_post_bind; [apply (run_groups_post gs (mkT [] [] [] None)); reflexivity|]. intros st Hst.
  eapply rd_post_impl; [apply (read_tail_post lsm_new); exact lsm_new_post|].
  intros o [Eb Hc]. rewrite Eb. split; [exact Hst|exact Hc].
Qed.
