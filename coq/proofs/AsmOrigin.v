(* AsmOrigin.v — a label-free statement assembles to the same word at every origin (C07). *)
From Coq Require Import ZArith List Bool Lia.
From Gen Require Import Constants.
From Model Require Import Tree Text Bits Instr Offset AsmAst Obj SourceInfo Assembler.
From Spec Require Import LayoutSpec WfSpec.
From Proofs Require Import AsmPass1 AsmPass2.
Import ListNotations.
Open Scope Z_scope.

Definition label_free (n : nucleus) : bool :=
  match n with
  | NInstr i => match pc_operand i with Some (_, PLab _, _) => false | _ => true end
  | NDir (DFill (POff _)) => true
  | _ => false
  end.
(* [expand [] 0]: without label operand neither bindings nor address are looked at *)
Definition word_of (n : nucleus) : Z :=
  match n with
  | NInstr i => encode (expand [] 0 i)
  | NDir (DFill (POff v)) => v
  | _ => 0
  end.

Lemma into_sim_label_free i pc L : label_free (NInstr i) = true -> into_sim_instr i pc L = AOk (expand [] 0 i).
Proof.
  cbn [label_free]. rewrite into_sim_pc, (expand_pc [] 0 i). destruct (pc_operand i) as [[[n o] k]|]; [|reflexivity].
  destruct o as [v|l]; [|discriminate]. reflexivity.
Qed.

(* 65023 = IO_START - 1: the one word of the block must end at or below the I/O page *)
Theorem single_statement o n a b c d e f :
  0 <= o <= 65023 -> label_free n = true ->
  assemble false None [mkStmt [] (NDir (DOrig o)) a b; mkStmt [] n c d; mkStmt [] (NDir DEnd) e f]
  = AOk (mkObj [(o, [Some (word_of n)])] None).
Proof.
  intros Ho LF.
  assert (SH : forall sp, shift (mkCur o false sp) 1 = SOk (mkCur (o + 1) false sp)).
  { intros sp. rewrite shift_exact by (cbn [c_ovf c_lc]; try reflexivity; lia). cbn [c_lc c_orig]. unfold asm.IO_START.
    destruct (o + 1 <=? 65024) eqn:E; [reflexivity|lia]. }
  assert (SL : stmt_len n = WL 1) by (destruct n as [i|[?|[?|?]|?|?| |?]]; try discriminate LF; reflexivity).
  assert (P1 : pass1 [mkStmt [] (NDir (DOrig o)) a b; mkStmt [] n c d; mkStmt [] (NDir DEnd) e f] None = AOk (mkSymtab [] [] None)).
  { unfold pass1. cbn [p1_loop]. 
    assert (S1 : p1_step None (mkP1 None [] [] None) (mkStmt [] (NDir (DOrig o)) a b) = AOk (mkP1 (Some (mkCur o false (a, b))) [] [] None)) by reflexivity.
    rewrite S1. cbn [abind].
    assert (S2 : p1_step None (mkP1 (Some (mkCur o false (a, b))) [] [] None) (mkStmt [] n c d) = AOk (mkP1 (Some (mkCur (o + 1) false (a, b))) [] [] None)).
    { unfold p1_step. cbn [s_labels s_nucleus p1_labels p1_cur p1_rel p1_lines abind stmt_span s_start s_end].
      destruct n as [i|[?|[v|?]|?|?| |?]]; try discriminate LF; cbn [abind]; rewrite ?SL; cbn [stmt_len word_len]; rewrite SH; reflexivity. }
    rewrite S2. cbn [abind].
    assert (S3 : p1_step None (mkP1 (Some (mkCur (o + 1) false (a, b))) [] [] None) (mkStmt [] (NDir DEnd) e f) = AOk (mkP1 None [] [] None)) by reflexivity.
    rewrite S3. reflexivity. }
  unfold assemble. rewrite P1. cbn [abind]. unfold pass2. cbn [st_labels p2_loop].
  assert (T1 : p2_step [] (mkP2 [] None) (mkStmt [] (NDir (DOrig o)) a b) = AOk (mkP2 [] (Some (o, mkOB o [] (a, b))))) by reflexivity.
  rewrite T1. cbn [abind].
  assert (T2 : p2_step [] (mkP2 [] (Some (o, mkOB o [] (a, b)))) (mkStmt [] n c d)
               = AOk (mkP2 [] (Some (wrap16 (o + 1), mkOB o [Some (word_of n)] (a, b))))).
  { unfold p2_step. cbn [s_nucleus p2_cur p2_map]. destruct n as [i|[?|[v|?]|?|?| |?]]; try discriminate LF.
    - rewrite (into_sim_label_free i _ [] LF). reflexivity.
    - reflexivity. }
  rewrite T2. cbn [abind].
  unfold p2_step. cbn [s_nucleus p2_cur p2_map ob_words ob_start bt_le bt_ge opt_list app find_overlap abind bt_insert map fst snd].
  reflexivity.
Qed.
