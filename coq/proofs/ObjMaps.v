(* ObjMaps.v — the maps inside an object file as model/ObjBin.v keeps them, in the readers' boolean
   spelling of sortedness; the checks on neighbouring entries, with `LineSymbolMap::from_blocks` in
   closed form; and what [obj_inv] says, component by component ([obj_inv] is the invariant of the two
   file formats; the linker's [Link.obj_inv_b] is another one, and neither is derived from the other). *)
From Coq Require Import ZArith List Bool Lia Permutation.
From Model Require Import Text Obj ObjBin.
From Proofs Require Import ListFacts TextFacts ObjBytesProofs.
From Proofs Require Export KeyMaps.
Import ListNotations.
Open Scope Z_scope.

(* the checks on neighbours match on [a :: (b :: _ as r)], which hides their recursion from cbn *)
Lemma strictly_sorted_cons2 a b l : strictly_sorted (a :: b :: l) = (a <? b) && strictly_sorted (b :: l).
Proof. reflexivity. Qed.
Lemma runs_disjoint_cons2 l d l' d' r :
  runs_disjoint ((l, d) :: (l', d') :: r) = (l + len d <=? l') && runs_disjoint ((l', d') :: r).
Proof. reflexivity. Qed.
Lemma no_overlap_cons2 l d l' d' r :
  no_overlap ((l, d) :: (l', d') :: r)
  = if USIZE_MAX <? l + len d then RPanic else if l + len d <=? l' then no_overlap ((l', d') :: r) else ROk false.
Proof. reflexivity. Qed.

Definition lines_fit (lm : linemap) : bool := forallb (fun p => fst p + len (snd p) <=? ISIZE_MAX) lm.

(* once every run ends at or before isize::MAX the `+` of the neighbour check cannot overflow *)
Lemma no_overlap_eq bl : lines_fit bl = true -> no_overlap bl = ROk (runs_disjoint bl).
Proof.
  induction bl as [|[l d] bl IH]; [reflexivity|]. destruct bl as [|[l' d'] r]; [reflexivity|].
  intro H. apply forallb_cons_iff in H. destruct H as [Hb H]. cbn [fst snd] in Hb.
  rewrite no_overlap_cons2, runs_disjoint_cons2.
  replace (USIZE_MAX <? l + len d) with false by (unfold USIZE_MAX, ISIZE_MAX in *; lia).
  destruct (l + len d <=? l'); [exact (IH H)|reflexivity].
Qed.
Lemma lsm_from_blocks_eq bl :
  lsm_from_blocks bl = if lines_fit bl && runs_disjoint bl && forallb (fun b => weakly_sorted (snd b)) bl then ROk bl else RNone.
Proof.
  unfold lsm_from_blocks. fold (lines_fit bl). destruct (lines_fit bl) eqn:E; [|reflexivity].
  rewrite (no_overlap_eq bl E). cbn [negb rd_bind andb]. destruct (runs_disjoint bl); reflexivity.
Qed.

Lemma strictly_weakly l : strictly_sorted l = true -> weakly_sorted l = true.
Proof.
  induction l as [|a [|b l] IH]; intro H; try reflexivity.
  rewrite strictly_sorted_cons2 in H. apply andb_true_iff in H. destruct H as [H1 H2]. apply Z.ltb_lt in H1.
  cbn [weakly_sorted]. apply andb_true_iff. split; [apply Z.leb_le; lia|apply IH; exact H2].
Qed.
Lemma sorted_keys_before {V} (acc : list (Z * V)) k v l :
  strictly_sorted (map fst (acc ++ (k, v) :: l)) = true -> Forall (fun p => fst p < k) acc.
Proof. intro H. apply ksorted_bool in H. exact (ksorted_app_lt acc (k, v) l H). Qed.

Lemma bt_mem_fresh {V} k (m : list (Z * V)) : Forall (fun p => fst p < k) m -> bt_mem k m = false.
Proof.
  induction 1 as [|[k' v'] m Hk _ IH]; [reflexivity|]. cbn [fst] in Hk. cbn [bt_mem]. rewrite IH.
  replace (k =? k') with false by (symmetry; apply Z.eqb_neq; lia). reflexivity.
Qed.
Lemma bt_insert_ssorted {V} k (v : V) m :
  strictly_sorted (map fst m) = true -> strictly_sorted (map fst (bt_insert k v m)) = true.
Proof. rewrite !ksorted_bool. apply bt_insert_sorted. Qed.
Lemma bt_mem_false {V} k (m : list (Z * V)) : bt_mem k m = false -> ~ In k (map fst m).
Proof. rewrite <- bt_mem_spec. intros ->. discriminate. Qed.
Lemma bt_insert_forall {V} (P : Z * V -> Prop) k (v : V) m : P (k, v) -> Forall P m -> Forall P (bt_insert k v m).
Proof.
  intros Hk Hm. apply Forall_forall. intros x Hx. apply bt_insert_in in Hx as [->|Hx]; [exact Hk|].
  rewrite Forall_forall in Hm. auto.
Qed.

Lemma insert_by_perm {A} (lt : A -> A -> bool) x l : Permutation (x :: l) (insert_by lt x l).
Proof.
  induction l as [|y l IH]; [apply Permutation_refl|]. cbn [insert_by]. destruct (lt x y); [apply Permutation_refl|].
  eapply Permutation_trans; [apply perm_swap|apply perm_skip; exact IH].
Qed.
Lemma sort_by_perm {A} (lt : A -> A -> bool) l : Permutation l (sort_by lt l).
Proof.
  unfold sort_by. induction l as [|x l IH]; [apply Permutation_refl|]. cbn [fold_right].
  eapply Permutation_trans; [apply perm_skip; exact IH|apply insert_by_perm].
Qed.
Lemma In_sort_by {A} (lt : A -> A -> bool) l x : In x (sort_by lt l) <-> In x l.
Proof. split; apply Permutation_in; [apply Permutation_sym|]; apply sort_by_perm. Qed.
Lemma NoDup_sort_by {A B} (f : A -> B) (lt : A -> A -> bool) l : NoDup (map f l) -> NoDup (map f (sort_by lt l)).
Proof. apply Permutation_NoDup. apply Permutation_map. apply sort_by_perm. Qed.
Lemma sort_by_nil_iff {A} (lt : A -> A -> bool) l : sort_by lt l = [] <-> l = [].
Proof.
  split; intro H; [|subst; reflexivity]. pose proof (sort_by_perm lt l) as P. rewrite H in P.
  apply Permutation_sym, Permutation_nil in P. exact P.
Qed.

Lemma in_u16_spec v : in_u16 v = true -> 0 <= v < 65536.
Proof. unfold in_u16. intro H. lia. Qed.

Lemma block_inv_spec b : block_inv b = true -> 0 <= fst b < 65536 /\ len (snd b) <= 65535 /\ Forall word_ok (snd b).
Proof.
  unfold block_inv. intro H. btrue. split; [apply in_u16_spec; assumption|]. split; [assumption|].
  eapply forallb_Forall; [|eassumption]. intros [v|] Hv; [exact (in_u16_spec v Hv)|exact Logic.I].
Qed.
Lemma label_inv_spec p : label_inv p = true ->
  valid_str (fst p) = true /\ 0 <= sd_addr (snd p) < 65536 /\ 0 <= sd_src_start (snd p) <= USIZE_MAX /\ byte_len (fst p) <= ISIZE_MAX.
Proof. unfold label_inv. intro H. btrue. repeat split; try assumption; apply in_u16_spec; assumption. Qed.
Definition rel_inv (p : Z * str) : bool := in_u16 (fst p) && valid_str (snd p) && (byte_len (snd p) <=? ISIZE_MAX).
Lemma rel_inv_spec p : rel_inv p = true -> 0 <= fst p < 65536 /\ valid_str (snd p) = true /\ byte_len (snd p) <= ISIZE_MAX.
Proof. unfold rel_inv. intro H. btrue. repeat split; try assumption; apply in_u16_spec; assumption. Qed.

Record run_facts (p : Z * list Z) : Prop := {
  rf_pos : 0 <= fst p;
  rf_len : len (snd p) <= 65535;
  rf_fit : fst p + len (snd p) <= ISIZE_MAX;
  rf_u16 : Forall (fun v => 0 <= v < 65536) (snd p);
  rf_sorted : strictly_sorted (snd p) = true
}.
Lemma run_inv_spec p : run_inv p = true -> run_facts p.
Proof.
  unfold run_inv. intro H. btrue. constructor; try assumption.
  eapply forallb_Forall; [|eassumption]. exact in_u16_spec.
Qed.
Record debug_facts (d : debug_symbols) : Prop := {
  df_runs : forallb run_inv (ds_lines d) = true;
  df_keys : strictly_sorted (map fst (ds_lines d)) = true;
  df_disjoint : runs_disjoint (ds_lines d) = true;
  df_src : valid_str (ds_src d) = true;
  df_len : byte_len (ds_src d) <= ISIZE_MAX
}.
Lemma debug_inv_spec d : debug_inv d = true -> debug_facts d.
Proof. unfold debug_inv. intro H. btrue. constructor; assumption. Qed.
Record symtab_facts (blocks : list (Z * list (option Z))) (st : symtab) : Prop := {
  si_labels : forallb label_inv (st_labels st) = true;
  si_nd : NoDup (map fst (st_labels st));
  si_rels : forallb rel_inv (st_rel st) = true;
  si_ndr : NoDup (map fst (st_rel st));
  si_chk : check_relocations blocks (st_rel st) = true;
  si_dbg : forall d, st_debug st = Some d -> debug_facts d;
  si_ne : st_labels st <> [] \/ st_debug st <> None
}.
Lemma symtab_inv_spec blocks st : symtab_inv blocks st = true -> symtab_facts blocks st.
Proof.
  unfold symtab_inv. intro H. btrue. constructor; try assumption.
  - apply (nodup_by_NoDup str_eqb str_eqb_eq). assumption.
  - apply (nodup_by_NoDup Z.eqb Z.eqb_eq). assumption.
  - intros d Ed. rewrite Ed in *. apply debug_inv_spec. assumption.
  - destruct (st_labels st); [right|left; discriminate]. destruct (st_debug st); discriminate.
Qed.
Lemma obj_inv_spec o : obj_inv o = true ->
  forallb block_inv (o_blocks o) = true /\ strictly_sorted (map fst (o_blocks o)) = true
  /\ (forall st, o_sym o = Some st -> symtab_facts (o_blocks o) st).
Proof. unfold obj_inv. intro H. btrue. split; [assumption|]. split; [assumption|]. intros st E. apply symtab_inv_spec. rewrite E in *. assumption. Qed.
