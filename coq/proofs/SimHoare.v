(* SimHoare.v — the state-and-failure monad of model/Sim.v: one triple [hoare P m Q E] (E speaks of the state
   too: the model mutates before it fails), its invariant form with [hstep], the primitives in closed form,
   [step] and [step_in] as [step_inner] followed by the redirection of real traps. *)
From Coq Require Import ZArith List Bool Lia FMapPositive.
From Model Require Import Bits Word Sim.
From Proofs Require Export BitsFacts.
Import ListNotations.
Open Scope Z_scope.

Lemma run_bind {A B} (m : M A) (k : A -> M B) s :
  bind m k s = match m s with (s', inl a) => k a s' | (s', inr b) => (s', inr b) end.
Proof. reflexivity. Qed.
Lemma run_ret {A} (a : A) s : ret a s = (s, inl a). Proof. reflexivity. Qed.
Lemma run_get s : get s = (s, inl s). Proof. reflexivity. Qed.
Lemma run_modify f s : modify f s = (f s, inl tt). Proof. reflexivity. Qed.
Lemma run_fail {A} b s : @fail A b s = (s, inr b). Proof. reflexivity. Qed.

Definition hoare {A} (P : sim -> Prop) (m : M A) (Q : A -> sim -> Prop) (E : brk -> sim -> Prop) : Prop :=
  forall s, P s -> match m s with (s', inl a) => Q a s' | (s', inr b) => E b s' end.

Lemma hoare_conseq {A} (P P' : sim -> Prop) (m : M A) (Q Q' : A -> sim -> Prop) (E E' : brk -> sim -> Prop) :
  hoare P m Q E -> (forall s, P' s -> P s) -> (forall a s, Q a s -> Q' a s) -> (forall b s, E b s -> E' b s) ->
  hoare P' m Q' E'.
Proof.
  intros H HP HQ HE s Hs. specialize (H s (HP s Hs)). destruct (m s) as [s' [a|b]]; [apply HQ|apply HE]; exact H.
Qed.
Lemma hoare_get Q E : hoare (fun s => Q s s) get Q E.
Proof. intros s H. exact H. Qed.
Lemma hoare_bind {A B} P (m : M A) (k : A -> M B) Q R E :
  hoare P m Q E -> (forall a, hoare (Q a) (k a) R E) -> hoare P (bind m k) R E.
Proof.
  intros Hm Hk s Hs. unfold bind. specialize (Hm s Hs). destruct (m s) as [s' [a|b]]; [exact (Hk a s' Hm)|exact Hm].
Qed.

Definition anyv {A} (_ : A) : Prop := True.
Definition hoareI {A} (I : sim -> Prop) (m : M A) (Q : A -> Prop) (E : brk -> Prop) : Prop :=
  hoare I m (fun a s => I s /\ Q a) (fun b s => I s /\ E b).

Lemma hi_ret {A} (I : sim -> Prop) (a : A) (Q : A -> Prop) (E : brk -> Prop) : Q a -> hoareI I (ret a) Q E.
Proof. intros H s Hs. split; assumption. Qed.
Lemma hi_get (I : sim -> Prop) (E : brk -> Prop) : hoareI I get I E.
Proof. intros s Hs. split; assumption. Qed.
Lemma hi_fail {A} (I : sim -> Prop) b (Q : A -> Prop) (E : brk -> Prop) : E b -> hoareI I (fail b) Q E.
Proof. intros H s Hs. split; assumption. Qed.
Lemma hi_err {A} (I : sim -> Prop) e (Q : A -> Prop) (E : brk -> Prop) : E (BErr e) -> hoareI I (err e) Q E.
Proof. apply hi_fail. Qed.
Lemma hi_of_opt {A} (I : sim -> Prop) (o : option A) e (Q : A -> Prop) (E : brk -> Prop) :
  (forall a, o = Some a -> Q a) -> (o = None -> E (BErr e)) -> hoareI I (of_opt o e) Q E.
Proof. destruct o; intros HQ HE; [apply hi_ret|apply hi_err]; auto. Qed.
Lemma hi_modify (I : sim -> Prop) f (E : brk -> Prop) : (forall s, I s -> I (f s)) -> hoareI I (modify f) anyv E.
Proof. intros H s Hs. split; [apply H, Hs|exact Logic.I]. Qed.
Lemma hi_bind {A B} (I : sim -> Prop) (m : M A) (k : A -> M B) (Q : A -> Prop) (R : B -> Prop) (E : brk -> Prop) :
  hoareI I m Q E -> (forall a, Q a -> hoareI I (k a) R E) -> hoareI I (bind m k) R E.
Proof.
  intros Hm Hk s Hs. unfold bind. specialize (Hm s Hs). destruct (m s) as [s' [a|b]]; [|exact Hm].
  destruct Hm as [H1 H2]. exact (Hk a H2 s' H1).
Qed.
Lemma hi_bind_get {B} (I : sim -> Prop) (k : sim -> M B) (R : B -> Prop) (E : brk -> Prop) :
  (forall s0, I s0 -> hoareI I (k s0) R E) -> hoareI I (bind get k) R E.
Proof. intros H. exact (hi_bind I get k I R E (hi_get I E) H). Qed.

Definition frame_sig (ft : ftype) (srd : list (Z * plist)) (callee : Z) : option plist :=
  match ft with
  | FSubroutine => assoc srd callee
  | FTrap => if callee <? 256 then trap_defn callee else None
  | FInterrupt => assoc srd callee
  end.
Definition push_frs (ft : ftype) (srd : list (Z * plist)) (rs : regs) (m : mem) (caller callee : Z)
                    (frs : option (list frame)) : option (list frame) :=
  match frs with
  | None => None
  | Some fs =>
      let '(fp, args) :=
        match frame_sig ft srd callee with
        | Some (PCC k) =>
            let fp := w_sub (rget rs 6) (new_init 4) in
            (Some fp, map (fun i => mget m (wrap16 (wrap16 (w_data fp + 4) + i))) (seqz 0 (Z.to_nat k)))
        | Some (PBR l) => (None, map (fun r => rget rs r) l)
        | None => (None, [])
        end in
      Some (mkFrame caller callee ft fp args :: fs)
  end.
Definition pop_frs (frs : option (list frame)) : option (list frame) :=
  match frs with Some (_ :: r) => Some r | x => x end.
Lemma pop_push_frs ft srd rs m a b frs : pop_frs (push_frs ft srd rs m a b frs) = frs.
Proof.
  destruct frs as [fs|]; [|reflexivity]. unfold push_frs.
  destruct (frame_sig ft srd b) as [[k|l]|]; reflexivity.
Qed.
Lemma push_frs_top ft srd rs m a b fs : exists top,
  push_frs ft srd rs m a b (Some fs) = Some (top :: fs) /\ f_caller top = a /\ f_callee top = b /\ f_type top = ft.
Proof.
  unfold push_frs. destruct (frame_sig ft srd b) as [[k|l]|]; eexists; repeat split.
Qed.
Lemma push_frame_run a b f s :
  push_frame a b f s =
  (upd_frames s (s_frame_no s + 1) (push_frs f (s_sr_defns s) (s_regs s) (s_mem s) a b (s_frames s)), inl tt).
Proof.
  unfold push_frame, modify, push_frs. destruct (s_frames s) as [fs|]; [|reflexivity].
  change (match f with FSubroutine => _ | FTrap => _ | FInterrupt => _ end) with (frame_sig f (s_sr_defns s) b).
  destruct (frame_sig f (s_sr_defns s) b) as [[k|rs]|]; reflexivity.
Qed.
Lemma hi_push_frame (I : sim -> Prop) (E : brk -> Prop) a b f :
  (forall s n fr, I s -> I (upd_frames s n fr)) -> hoareI I (push_frame a b f) anyv E.
Proof. intros H s Hs. rewrite push_frame_run. split; [apply H, Hs|exact Logic.I]. Qed.

(* [hstep]: the result property of the first half of a bind is left open and fixed by the rule that closes that
   half; leaves are closed from the database [hoare], which each invariant fills.  Depth 6: the longest chain
   is a [modify] storing an arithmetic result in a register. *)
Create HintDb hoare discriminated.
#[export] Hint Constants Opaque : hoare.
#[export] Hint Extern 0 (anyv _) => exact Logic.I : hoare.
#[export] Hint Resolve hi_get hi_fail hi_err : hoare.
#[export] Hint Extern 0 (hoareI _ (ret _) _ _) => apply (hi_ret _ _ anyv); exact Logic.I : hoare.
Ltac hstep :=
  lazymatch goal with
  | |- hoareI _ (bind get _) _ _ => apply hi_bind_get; intros ? ?; cbv beta zeta
  | |- hoareI _ (bind _ _) _ _ => eapply hi_bind; [ | intros ? ? ]
  | |- hoareI _ (match ?x with _ => _ end) _ _ => destruct x
  | |- _ => solve [eauto 6 with hoare nocore]
  end.

Definition inv {A} (P : sim -> Prop) (m : M A) : Prop := forall s, P s -> P (fst (m s)).
Lemma inv_hi {A} (P : sim -> Prop) (m : M A) : inv P m <-> hoareI P m anyv anyv.
Proof.
  split; intros H s Hs; specialize (H s Hs); destruct (m s) as [s' [a|b]]; cbn [fst] in *.
  - split; [exact H|exact Logic.I].
  - split; [exact H|exact Logic.I].
  - apply H.
  - apply H.
Qed.

Lemma inv_modify (P : sim -> Prop) f : (forall s, P s -> P (f s)) -> inv P (modify f).
Proof. intros H s Hs; cbn; auto. Qed.

Lemma mkey_inj a b : 0 <= a -> 0 <= b -> mkey a = mkey b -> a = b.
Proof. unfold mkey. intros Ha Hb H. apply (f_equal Zpos) in H. rewrite !Z2Pos.id in H by lia. lia. Qed.
Lemma mget_mset_same m a w : mget (mset m a w) a = w.
Proof. unfold mget, mset; cbn. rewrite PositiveMap.gss. reflexivity. Qed.
Lemma mget_mset_other m a b w : 0 <= a -> 0 <= b -> a <> b -> mget (mset m a w) b = mget m b.
Proof.
  intros Ha Hb Hne. unfold mget, mset; cbn. rewrite PositiveMap.gso; [reflexivity|].
  intros E. apply Hne. symmetry. apply mkey_inj; assumption.
Qed.
(* for any addresses, also negative *)
Lemma mget_mset_all (P : word -> Prop) m a w : P w -> (forall b, P (mget m b)) -> forall b, P (mget (mset m a w) b).
Proof.
  intros Hw M b. unfold mget, mset. cbn [m_over m_fill]. destruct (Pos.eq_dec (mkey b) (mkey a)) as [E|N].
  - rewrite E, PositiveMap.gss. exact Hw.
  - rewrite PositiveMap.gso by exact N. exact (M b).
Qed.

Lemma set_nth_length {A} (l : list A) n x : length (set_nth l n x) = length l.
Proof. revert n. induction l as [|h t IH]; intros [|n]; cbn; try rewrite IH; reflexivity. Qed.
Lemma set_nth_Forall {A} (P : A -> Prop) (l : list A) n x : Forall P l -> P x -> Forall P (set_nth l n x).
Proof. revert n. induction l as [|h t IH]; intros [|n] Hl Hx; cbn; try constructor; inversion Hl; subst; auto. Qed.

(* a read of an I/O address first refreshes the word from the internal register or device that answers *)
Definition io_read (e : env) (a : Z) (io : bool) (s : sim) : sim :=
  match assoc (s_ireg s) a with
  | Some r => upd_mem s (mset (s_mem s) a (new_init (ireg_read s r)))
  | None =>
      let id := port_dev a in
      let '(d', v) := dev_read e (nth_dev (s_devs s) id) a io in
      let s' := upd_devs s (set_nth (s_devs s) (Z.to_nat id) d') in
      match v with Some data => upd_mem s' (mset (s_mem s') a (new_init data)) | None => s' end
  end.
Definition read_state (e : env) (a : Z) (c : ctx) (s : sim) : sim :=
  let s1 := if IO_START <=? a then io_read e a (c_io c) s else s in
  if c_track c then upd_obs s1 (obs_update (s_obs s1) a OBS_READ) else s1.
Lemma read_mem_eq e a c s :
  read_mem e a c s =
  if negb (c_priv c) && negb (in_user a) then (s, inr (BErr AccessViolation))
  else (read_state e a c s, inl (mget (s_mem (read_state e a c s)) a)).
Proof. reflexivity. Qed.

Lemma hi_read (I : sim -> Prop) (V : word -> Prop) (E : brk -> Prop) e a c :
  (forall s o, I s -> I (upd_obs s o)) ->
  (forall s, I s -> I (io_read e a (c_io c) s)) ->
  (forall s, I s -> V (mget (s_mem s) a)) ->
  E (BErr AccessViolation) -> hoareI I (read_mem e a c) V E.
Proof.
  intros Ho Hio Hm Eav s Hs. rewrite read_mem_eq. destruct (negb (c_priv c) && negb (in_user a)); [split; assumption|].
  unfold read_state.
  assert (K : I (if IO_START <=? a then io_read e a (c_io c) s else s)) by (destruct (IO_START <=? a); [apply Hio, Hs|exact Hs]).
  destruct (c_track c); (split; [|exact (Hm _ K)]); [apply Ho, K|exact K].
Qed.

Lemma read_mem_keeps_field {X} (f : sim -> X) :
  (forall s m, f (upd_mem s m) = f s) -> (forall s d, f (upd_devs s d) = f s) -> (forall s o, f (upd_obs s o) = f s) ->
  forall e a c s, f (fst (read_mem e a c s)) = f s.
Proof.
  intros Hm Hd Ho e a c s. apply (proj2 (inv_hi (fun t => f t = f s) _)); [|reflexivity].
  apply (hi_read _ anyv); try exact Logic.I; [intros t o <-; apply Ho| |intros; exact Logic.I].
  intros t <-. unfold io_read. destruct (assoc (s_ireg t) a); [apply Hm|].
  destruct (dev_read e (nth_dev (s_devs t) (port_dev a)) a (c_io c)) as [d' [v|]]; rewrite ?Hm; apply Hd.
Qed.

(* [io_write]: false = no device took the word, and then neither observer nor memory sees it *)
Definition may_store (w : word) (c : ctx) : bool := negb (c_strict c) || is_init w.
Definition io_write (e : env) (a d : Z) (s : sim) : sim * bool :=
  match assoc (s_ireg s) a with
  | Some r => (ireg_write s r d, true)
  | None =>
      let '(d', ok) := dev_write e (nth_dev (s_devs s) (port_dev a)) a d in
      (upd_devs s (set_nth (s_devs s) (Z.to_nat (port_dev a)) d'), ok)
  end.
Definition mark_write (a : Z) (w : word) (c : ctx) (s : sim) : sim :=
  if c_track c then
    upd_obs s (let o := obs_update (s_obs s) a OBS_WRITTEN in
               if negb (word_eqb (mget (s_mem s) a) w) then obs_update o a OBS_MODIFIED else o)
  else s.
Definition put (a : Z) (w : word) (s : sim) : sim := upd_mem s (mset (s_mem s) a w).
Lemma write_mem_eq e a w c s :
  write_mem e a w c s =
  if negb (c_priv c) && negb (in_user a) then (s, inr (BErr AccessViolation))
  else if IO_START <=? a then
    if may_store w c then
      let '(s1, ok) := io_write e a (w_data w) s in
      if ok then (put a w (mark_write a w c s1), inl tt) else (s1, inl tt)
    else (s, inr (BErr StrictIOSetUninit))
  else if may_store w c then (put a w (mark_write a w c s), inl tt)
       else (mark_write a w c s, inr (BErr StrictMemSetUninit)).
Proof.
  unfold write_mem, io_write, mark_write, put, may_store, get_if_init, set_if_init.
  destruct (negb (c_priv c) && negb (in_user a)); [reflexivity|].
  destruct (IO_START <=? a); destruct (negb (c_strict c) || is_init w); try reflexivity.
  destruct (assoc (s_ireg s) a); [destruct (c_track c); reflexivity|].
  destruct (dev_write e (nth_dev (s_devs s) (port_dev a)) a (w_data w)) as [d' [|]]; [destruct (c_track c)|]; reflexivity.
Qed.

Lemma hi_write (I : sim -> Prop) (E : brk -> Prop) e a w c :
  (forall s o, I s -> I (upd_obs s o)) ->
  (forall s, I s -> I (fst (io_write e a (w_data w) s))) ->
  (forall s, I s -> I (put a w s)) ->
  E (BErr AccessViolation) ->
  (may_store w c = false -> E (BErr StrictIOSetUninit) /\ E (BErr StrictMemSetUninit)) ->
  hoareI I (write_mem e a w c) anyv E.
Proof.
  intros Ho Hio Hput Eav Est s Hs. rewrite write_mem_eq.
  assert (Hm : forall t, I t -> I (mark_write a w c t)) by (intros t Ht; unfold mark_write; destruct (c_track c); auto).
  destruct (negb (c_priv c) && negb (in_user a)); [split; assumption|].
  destruct (may_store w c) eqn:MS.
  - destruct (IO_START <=? a); [|split; [auto|exact Logic.I]].
    specialize (Hio s Hs). destruct (io_write e a (w_data w) s) as [s1 [|]]; split; auto; exact Logic.I.
  - destruct (Est eq_refl). destruct (IO_START <=? a); split; auto.
Qed.

(* through a memory-mapped internal register a write reaches PC, PSR, MCR and the saved stack pointer *)
Lemma write_mem_keeps_field {X} (f : sim -> X) :
  (forall s m, f (upd_mem s m) = f s) -> (forall s d, f (upd_devs s d) = f s) -> (forall s o, f (upd_obs s o) = f s) ->
  (forall s r d, f (ireg_write s r d) = f s) ->
  forall e a w c s, f (fst (write_mem e a w c s)) = f s.
Proof.
  intros Hm Hd Ho Hi e a w c s. apply (proj2 (inv_hi (fun t => f t = f s) _)); [|reflexivity].
  apply hi_write; try exact Logic.I; [..|split; exact Logic.I].
  - intros t o <-. apply Ho.
  - intros t <-. unfold io_write. destruct (assoc (s_ireg t) a); [apply Hi|].
    destruct (dev_write e (nth_dev (s_devs t) (port_dev a)) a (w_data w)). apply Hd.
  - intros t <-. apply Hm.
Qed.

Lemma read_mem_flags e a c s : s_flags (fst (read_mem e a c s)) = s_flags s.
Proof. apply read_mem_keeps_field; reflexivity. Qed.
Lemma write_mem_flags e a w c s : s_flags (fst (write_mem e a w c s)) = s_flags s.
Proof. apply write_mem_keeps_field; try reflexivity. intros s0 []; reflexivity. Qed.

Lemma read_mem_fails e a c s b : snd (read_mem e a c s) = inr b -> b = BErr AccessViolation.
Proof.
  rewrite read_mem_eq. destruct (negb (c_priv c) && negb (in_user a)); intros E; inversion E. reflexivity.
Qed.
Lemma write_mem_fails e a w c s b : snd (write_mem e a w c s) = inr b ->
  b = BErr AccessViolation \/ (c_strict c = true /\ (b = BErr StrictIOSetUninit \/ b = BErr StrictMemSetUninit)).
Proof.
  rewrite write_mem_eq. unfold may_store. destruct (negb (c_priv c) && negb (in_user a)); [intros E; inversion E; auto|].
  destruct (c_strict c); cbn [negb orb]; [destruct (is_init w)|];
    (destruct (IO_START <=? a); [try destruct (io_write e a (w_data w) s) as [s1 [|]]|]); intros E; inversion E; auto.
Qed.

Definition map_flags (g : flags -> flags) (s : sim) : sim :=
  mkSim (s_mem s) (s_regs s) (s_pc s) (s_psr s) (s_saved_sp s) (s_frame_no s) (s_frames s) (s_sr_defns s)
        (s_alloca s) (s_instrs s) (s_prefetch s) (s_obs s) (s_mcr s) (g (s_flags s)) (s_ireg s) (s_devs s).
Lemma read_mem_map_flags g e a c s :
  read_mem e a c (map_flags g s) = (map_flags g (fst (read_mem e a c s)), snd (read_mem e a c s)).
Proof.
  rewrite !read_mem_eq. destruct (negb (c_priv c) && negb (in_user a)); [reflexivity|].
  unfold read_state, io_read. change (s_ireg (map_flags g s)) with (s_ireg s). change (s_devs (map_flags g s)) with (s_devs s).
  destruct (IO_START <=? a); [|destruct (c_track c); reflexivity].
  destruct (assoc (s_ireg s) a) as [[]|]; [destruct (c_track c); reflexivity..|].
  destruct (dev_read e (nth_dev (s_devs s) (port_dev a)) a (c_io c)) as [d' [v|]]; destruct (c_track c); reflexivity.
Qed.
Lemma write_mem_map_flags g e a w c s :
  write_mem e a w c (map_flags g s) = (map_flags g (fst (write_mem e a w c s)), snd (write_mem e a w c s)).
Proof.
  rewrite !write_mem_eq. destruct (negb (c_priv c) && negb (in_user a)); [reflexivity|].
  unfold io_write, mark_write, put. change (s_ireg (map_flags g s)) with (s_ireg s). change (s_devs (map_flags g s)) with (s_devs s).
  destruct (IO_START <=? a); destruct (may_store w c); try (destruct (c_track c); reflexivity).
  destruct (assoc (s_ireg s) a) as [[]|]; [destruct (c_track c); reflexivity..|].
  destruct (dev_write e (nth_dev (s_devs s) (port_dev a)) a (w_data w)) as [d' [|]]; [destruct (c_track c)|]; reflexivity.
Qed.

Lemma set_pc_eq w b s :
  set_pc w b s =
  if negb (strict s) || is_init w then
    if strict s && b && negb (is_init (mget (s_mem s) (w_data w))) then (s, inr (BErr StrictPCNextUninit))
    else (upd_pc s (w_data w), inl tt)
  else (s, inr (BErr StrictJmpAddrUninit)).
Proof.
  unfold set_pc, get_if_init. rewrite run_bind, run_get. destruct (negb (strict s) || is_init w); [|reflexivity].
  cbn [of_opt]. rewrite run_bind, run_ret, run_bind.
  destruct (strict s && b && negb (is_init (mget (s_mem s) (w_data w)))); reflexivity.
Qed.

(* RealIntVect: the vectors through which HALT and the exceptions enter the OS under real traps *)
Definition redirect (r : unit + brk) : option Z :=
  match r with
  | inr BHalt => Some 37
  | inr (BErr PrivilegeViolation) => Some 256
  | inr (BErr IllegalOpcode) | inr (BErr InvalidInstrFormat) => Some 257
  | inr (BErr AccessViolation) => Some 258
  | _ => None
  end.
Lemma step_eq e s :
  step e s =
  let '(s1, r) := step_inner e s in
  match (if fl_real (s_flags s1) then redirect r else None) with
  | Some v => handle_interrupt e v None s1
  | None => (s1, r)
  end.
Proof.
  unfold step. destruct (step_inner e s) as [s1 r].
  destruct (fl_real (s_flags s1)); [|reflexivity].
  destruct r as [u|[ |x| ]]; try reflexivity. destruct x; reflexivity.
Qed.

Definition outcome_of (r : unit + brk) : outcome :=
  match r with inl _ => OOk | inr BHalt => OHalt | inr (BErr x) => OErr x | inr BPanic => OPanic end.
Definition finish (e : env) (r : sim * (unit + brk)) : sim * outcome :=
  let '(s1, r1) := r in
  let '(s2, r2) := match (if fl_real (s_flags s1) then redirect r1 else None) with
                   | Some v => handle_interrupt e v None s1
                   | None => (s1, r1)
                   end in
  (s2, outcome_of r2).
Lemma step_in_eq e s : step_in e s = finish e (step_inner e (upd_obs s [])).
Proof. unfold step_in. rewrite step_eq. destruct (step_inner e (upd_obs s [])) as [s1 r1]. reflexivity. Qed.
Lemma step_in_err_inv e s s' x : step_in e s = (s', OErr x) -> step e (upd_obs s []) = (s', inr (BErr x)).
Proof.
  unfold step_in. destruct (step e (upd_obs s [])) as [s1 [u|[ |y| ]]]; intros H; inversion H; subst; reflexivity.
Qed.

Lemma real_int_vect_cases (E : brk -> Prop) v b :
  E BHalt -> E (BErr PrivilegeViolation) -> E (BErr IllegalOpcode) -> E (BErr AccessViolation) ->
  real_int_vect v = Some b -> E b.
Proof.
  intros H1 H2 H3 H4. unfold real_int_vect. repeat match goal with |- context [if ?c then _ else _] => destruct c end;
  intros X; inversion X; subst; assumption.
Qed.
Lemma real_int_vect_trap v : 0 <= v < 256 -> real_int_vect v = if v =? 37 then Some BHalt else None.
Proof.
  intros H. unfold real_int_vect. destruct (v =? 37); [reflexivity|].
  destruct (Z.eqb_spec v 256); [lia|]. destruct (Z.eqb_spec v 257); [lia|]. destruct (Z.eqb_spec v 258); [lia|]. reflexivity.
Qed.
