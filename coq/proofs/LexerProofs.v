(* LexerProofs.v — the lexer model.  [lex_step_form]: one token step consumes a prefix, reports its
   byte length, and returns a punctuation result, the string scanner's, or a callback's on a prefix
   plus a run of word characters.  [lex_at_ind]: induction along the token stream, fuel gone. *)
From Coq Require Import ZArith List Bool Lia.
From Model Require Import Text Lexer.
From Proofs Require Import ListFacts.
From Proofs Require Import TextFacts.
Import ListNotations.
Open Scope Z_scope.

Lemma byte_len_repeat c n : byte_len (repeat c n) = Z.of_nat n * utf8_len c.
Proof. induction n as [|n IH]; cbn [repeat byte_len]; lia. Qed.

Definition stops (p : Z -> bool) (rest : str) : Prop :=
  match rest with [] => True | c :: _ => p c = false end.

Lemma span_p_spec p s : forall a b, span_p p s = (a, b) -> s = a ++ b /\ forallb p a = true /\ stops p b.
Proof.
  induction s as [|c r IH]; intros a b H; cbn [span_p] in H.
  - injection H as <- <-. repeat split.
  - destruct (p c) eqn:Pc.
    + destruct (span_p p r) as [a' b']. injection H as <- <-. destruct (IH a' b' eq_refl) as [-> [Ha Hb]].
      cbn [app forallb]. rewrite Pc. repeat split; assumption.
    + injection H as <- <-. repeat split. exact Pc.
Qed.

Lemma span_p_stops p s : forall a b, span_p p s = (a, b) -> stops p b.
Proof. intros a b H. apply span_p_spec in H. apply H. Qed.

Lemma span_p_exact p w rest : forallb p w = true -> stops p rest -> span_p p (w ++ rest) = (w, rest).
Proof.
  induction w as [|c w IH]; intros Hw Hr; cbn [app].
  - destruct rest as [|c r]; [reflexivity|]. cbn [span_p]. cbn [stops] in Hr. rewrite Hr. reflexivity.
  - cbn [forallb] in Hw. apply andb_prop in Hw. destruct Hw as [Hc Hw]. cbn [span_p]. rewrite Hc.
    rewrite IH by assumption. reflexivity.
Qed.

Lemma span_hash_bytes r1 hs r2 : span_p (fun x => x =? 35) r1 = (hs, r2) -> byte_len hs = Z.of_nat (length hs).
Proof.
  intros H. apply span_p_spec in H. destruct H as (_ & H & _). clear r1 r2. induction hs as [|h hs IH]; [reflexivity|].
  cbn [forallb] in H. apply andb_prop in H. destruct H as [Hh Hs]. apply Z.eqb_eq in Hh. subst.
  cbn [byte_len length]. change (utf8_len 35) with 1. rewrite IH by assumption. lia.
Qed.

Lemma alpha_len c : is_alpha_us c = true -> utf8_len c = 1.
Proof. intros H. apply utf8_len_ascii. unfold is_alpha_us, is_upper, is_lower in H. lia. Qed.
Lemma is_digit_bounds c : is_digit c = true <-> 48 <= c <= 57.
Proof. unfold is_digit. lia. Qed.
Lemma alpha_bounds c : is_alpha_us c = true -> (65 <= c <= 90) \/ (97 <= c <= 122) \/ c = 95.
Proof. unfold is_alpha_us, is_upper, is_lower. lia. Qed.
Lemma is_digit_word c : is_digit c = true -> is_word c = true.
Proof. unfold is_word, is_digit. destruct (c <? 128) eqn:E; lia. Qed.
Lemma is_digit_dec c : is_digit c = true -> is_dec c = true.
Proof. unfold is_dec, is_digit. destruct (c <? 128) eqn:E; lia. Qed.
Lemma alpha_not_dec c : is_alpha_us c = true -> is_dec c = false.
Proof. intros H. apply alpha_bounds in H. unfold is_dec, is_digit. destruct (c <? 128) eqn:E; lia. Qed.
Lemma is_x_alpha c : is_x c = true -> is_alpha_us c = true.
Proof. unfold is_x, is_alpha_us, is_upper, is_lower. lia. Qed.
Lemma is_r_alpha c : is_r c = true -> is_alpha_us c = true.
Proof. unfold is_r, is_alpha_us, is_upper, is_lower. lia. Qed.
Lemma digits_word w : forallb is_digit w = true -> forallb is_word w = true.
Proof. rewrite !forallb_forall. intros H c Hc. apply is_digit_word, H, Hc. Qed.
Lemma digits_dec w : forallb is_digit w = true -> forallb is_dec w = true.
Proof. rewrite !forallb_forall. intros H c Hc. apply is_digit_dec, H, Hc. Qed.
Lemma is_x_not_blank x : is_x x = true -> is_blank x = false.
Proof. unfold is_x, is_blank. lia. Qed.
Lemma is_x_len x : is_x x = true -> utf8_len x = 1.
Proof. intros H. apply utf8_len_ascii. unfold is_x in H. lia. Qed.
Lemma is_r_ascii r : is_r r = true -> r < 128 /\ is_blank r = false.
Proof. unfold is_r, is_blank. lia. Qed.
Lemma not_blank_alpha c : is_alpha_us c = true -> is_blank c = false.
Proof. intros H. pose proof (alpha_bounds c H). unfold is_blank. lia. Qed.

Ltac eqb_true H := apply Z.eqb_eq in H; subst.

Lemma at_eol_nil : at_eol [] = true. Proof. reflexivity. Qed.

Definition scan_post (fx : bool) (s : str) (r : scan_res) : Prop :=
  match r with
  | ScClosed _ n rest | ScUnclosed n rest => exists m, s = m ++ rest /\ n = byte_len m
  | ScPanic => fx = false
  end.

Lemma sc_push_post fx pre k m s r : scan_post fx s r -> k = byte_len m -> scan_post fx (m ++ s) (sc_push pre k r).
Proof.
  intros H ->. destruct r as [b n rest|n rest|]; cbn [sc_push scan_post] in *; [| |exact H];
    destruct H as [m' [-> ->]]; exists (m ++ m'); rewrite byte_len_app, app_assoc; split; reflexivity.
Qed.

Lemma scan_str_post fx s : scan_post fx s (scan_str fx s).
Proof.
  induction s as [|c r IHr IHr'] using list_ind2; [exists []; split; reflexivity|].
  unfold scan_str; fold (scan_str fx).
  destruct (at_eol (c :: r)); [exists []; split; reflexivity|].
  destruct (c =? 34) eqn:E34; [eqb_true E34; exists [34]; split; reflexivity|].
  destruct (c =? 92) eqn:E92; [eqb_true E92|apply (sc_push_post fx _ _ [c]); [exact IHr|cbn [byte_len]; lia]].
  destruct (at_eol r) eqn:Er; [destruct fx; [exists [92]; split; reflexivity|reflexivity]|].
  destruct r as [|e r']; [discriminate Er|]. specialize (IHr' e r' eq_refl).
  destruct fx.
  - apply (sc_push_post true _ _ [92; e]); [exact IHr'|cbn [byte_len]; change (utf8_len 92) with 1; lia].
  - destruct (e <? 128) eqn:Ee; [|reflexivity].
    apply (sc_push_post false _ _ [92; e]); [exact IHr'|]. cbn [byte_len]. rewrite (utf8_len_ascii e) by lia. reflexivity.
Qed.

Lemma lex_str_literal_post fx r res k rest : lex_str_literal fx r = (res, k, rest) ->
  (exists m, r = m ++ rest /\ k = byte_len m) /\ (res = SPanic -> fx = false).
Proof.
  unfold lex_str_literal. pose proof (scan_str_post fx r) as Hs.
  destruct (scan_str fx r) as [b n rest'|n rest'|]; cbn [scan_post] in Hs; intros H; injection H as <- <- <-.
  - split; [exact Hs|]. destruct (byte_len b <? 65535); discriminate.
  - split; [exact Hs|discriminate].
  - split; [exists []; split; reflexivity|intros _; exact Hs].
Qed.

Definition consumed (c : Z) (r : str) (n : Z) (rest : str) : Prop :=
  exists m, r = m ++ rest /\ n = utf8_len c + byte_len m.

Definition plain (res : step_res) : Prop :=
  match res with
  | SOk (TNewLine | TComment | TColon | TComma) | SErr InvalidSymbol => True
  | _ => False
  end.

(* c :: w falls to the identifier rule: not x before a hex digit (hex-literal rule), not r before
   digits only (register rule); logos prefers those two on equal length *)
Definition ident_like (c : Z) (w : str) : Prop :=
  is_alpha_us c = true /\
  (is_x c = true -> match w with [] => True | d :: _ => is_dec d || is_hex_letter d = false end) /\
  (is_r c = true -> negb (is_nil w) && forallb is_dec w = false).

(* [res] is what a rule's callback returns on [pre ++ w]; the decimal rules forget their prefix, so the
   form only serves backwards (no panic, well-formedness, bytes); forwards is LexStepProofs *)
Inductive word_rule : str -> str -> step_res -> Prop :=
| WDirective w : word_rule [46] w (lex_directive (46 :: w))
| WSignedDec pre w : word_rule pre w (lex_signed_dec (pre ++ w))
| WUnsignedDec pre w : word_rule pre w (lex_unsigned_dec (pre ++ w))
| WSignedHex c w : is_x c = true -> word_rule [c; 45] w (lex_signed_hex (c :: 45 :: w))
| WUnsignedHex c w : is_x c = true -> word_rule [c] w (lex_unsigned_hex (c :: w))
| WReg c w : is_r c = true -> word_rule [c] w (lex_reg (c :: w))
| WIdent c w : ident_like c w -> word_rule [c] w (SOk (TIdent (ident_of (c :: w)))).

Inductive res_form (fx : bool) (r rest : str) (res : step_res) : Prop :=
| FPlain : plain res -> res_form fx r rest res
| FString k : lex_str_literal fx r = (res, k, rest) -> res_form fx r rest res
| FWord pre w : forallb is_word w = true -> word_rule pre w res -> res_form fx r rest res.

Definition step_form (fx : bool) (c : Z) (r : str) (out : step_res * Z * str) : Prop :=
  let '(res, n, rest) := out in consumed c r n rest /\ res_form fx r rest res.

Lemma plain_form fx c m rest res : plain res -> step_form fx c (m ++ rest) (res, utf8_len c + byte_len m, rest).
Proof. intros Hp. split; [exists m; split; reflexivity|apply FPlain; exact Hp]. Qed.

Lemma word_tok_form fx f c m0 npre r r' :
  r = m0 ++ r' -> npre = byte_len (c :: m0) ->
  (forall w rest, r' = w ++ rest -> forallb is_word w = true -> word_rule (c :: m0) w (f ((c :: m0) ++ w))) ->
  step_form fx c r (word_tok f (c :: m0) npre r').
Proof.
  intros -> -> Hf. unfold word_tok, span_word. destruct (span_p is_word r') as [w rest] eqn:E.
  apply span_p_spec in E. destruct E as [E [Hw _]]. split.
  - exists (m0 ++ w). rewrite E, byte_len_app, app_assoc. cbn [byte_len]. split; [reflexivity|lia].
  - apply (FWord _ _ _ _ (c :: m0) w); [exact Hw|]. apply (Hf w rest); assumption.
Qed.
(* a branch of [lex_step] that calls [word_tok] under rule R; leaves the equations that do not compute *)
Ltac word_case R := apply word_tok_form; [try reflexivity|try reflexivity|intros; apply R; try assumption].

Lemma lex_step_form fx c r : step_form fx c r (lex_step fx c r).
Proof.
  unfold lex_step.
  destruct (c =? 10) eqn:E10; [eqb_true E10; apply (plain_form _ 10 []); exact Logic.I|].
  destruct (c =? 13) eqn:E13.
  { eqb_true E13. destruct r as [|d r']; [|destruct (d =? 10) eqn:Ed; [eqb_true Ed|]].
    - apply (plain_form _ 13 []). exact Logic.I.
    - apply (plain_form _ 13 [10]). exact Logic.I.
    - apply (plain_form _ 13 []). exact Logic.I. }
  destruct (c =? 59) eqn:E59.
  { eqb_true E59. destruct (span_p (fun x => negb (x =? 10)) r) as [w rest] eqn:E.
    apply span_p_spec in E. destruct E as [-> _]. apply (plain_form _ 59 w). exact Logic.I. }
  destruct (c =? 58) eqn:E58; [eqb_true E58; apply (plain_form _ 58 []); exact Logic.I|].
  destruct (c =? 44) eqn:E44; [eqb_true E44; apply (plain_form _ 44 []); exact Logic.I|].
  destruct (c =? 34) eqn:E34.
  { eqb_true E34. destruct (lex_str_literal fx r) as [[res k] rest] eqn:E.
    split; [|apply (FString _ _ _ _ k); exact E].
    apply lex_str_literal_post in E. destruct E as [[m [Hm Hk]] _]. exists m. split; [exact Hm|].
    change (utf8_len 34) with 1. lia. }
  destruct (c =? 46) eqn:E46; [eqb_true E46; word_case WDirective|].
  destruct (c =? 35) eqn:E35.
  { eqb_true E35. destruct r as [|d r1]; [word_case WUnsignedDec|].
    destruct (d =? 45) eqn:Ed45; [eqb_true Ed45; word_case WSignedDec|].
    destruct (d =? 35) eqn:Ed35; [eqb_true Ed35|word_case WUnsignedDec].
    destruct (span_p (fun x => x =? 35) r1) as [hs r2] eqn:Eh. apply span_p_spec in Eh. destruct Eh as [-> _].
    destruct r2 as [|m r3]; [word_case WSignedDec|]. destruct (m =? 45) eqn:Em; [eqb_true Em|word_case WSignedDec].
    word_case WSignedDec.
    - cbn [app]. rewrite <- app_assoc. reflexivity.
    - cbn [app byte_len]. rewrite byte_len_app. cbn [byte_len]. change (utf8_len 45) with 1. lia. }
  destruct (c =? 45) eqn:E45.
  { eqb_true E45. destruct r as [|d r1]; [word_case WSignedDec|].
    destruct (d =? 35) eqn:Ed35; [eqb_true Ed35|word_case WSignedDec].
    destruct (span_p (fun x => x =? 35) r1) as [hs r2] eqn:Eh. apply span_p_spec in Eh. destruct Eh as [-> _].
    word_case WSignedDec. }
  destruct (is_dec c) eqn:Edec; [word_case WUnsignedDec; cbn [byte_len]; lia|].
  destruct (is_alpha_us c) eqn:Eal.
  2: { split; [exists []; split; [reflexivity|cbn [byte_len]; lia]|apply FPlain; exact Logic.I]. }
  pose proof (alpha_len c Eal) as Hc.
  destruct (is_x c) eqn:Ex.
  { assert (Er : is_r c = false) by (unfold is_x, is_r in *; lia).
    destruct r as [|d r1].
    - split; [exists []; split; [reflexivity|cbn [byte_len]; lia]|].
      apply (FWord _ _ _ _ [c] []); [reflexivity|]. apply WIdent. split; [exact Eal|split; [trivial|congruence]].
    - destruct (d =? 45) eqn:Ed; [eqb_true Ed; word_case WSignedHex; cbn [byte_len]; change (utf8_len 45) with 1; lia|].
      destruct (is_dec d || is_hex_letter d) eqn:Edh; [word_case WUnsignedHex; cbn [byte_len]; lia|].
      apply word_tok_form; [reflexivity|cbn [byte_len]; lia|]. intros w rest Hr _.
      apply WIdent. split; [exact Eal|split; [|congruence]]. intros _.
      (* the word is empty or starts with d, which is neither a digit nor a hex letter *)
      destruct w as [|d' w']; [exact Logic.I|]. cbn [app] in Hr. injection Hr as <- _. exact Edh. }
  destruct (is_r c) eqn:Er; [|word_case WIdent; [cbn [byte_len]; lia|split; [exact Eal|split; congruence]]].
  destruct (span_word r) as [w rest] eqn:E. unfold span_word in E. apply span_p_spec in E. destruct E as [-> [Hw _]].
  split; [exists w; split; [reflexivity|lia]|]. apply (FWord _ _ _ _ [c] w); [exact Hw|].
  destruct (negb (is_nil w) && forallb is_dec w) eqn:Ed; [apply WReg; exact Er|].
  apply WIdent. split; [exact Eal|split; [congruence|intros _; exact Ed]].
Qed.

Lemma lex_step_consumed fx c r res n rest : lex_step fx c r = (res, n, rest) -> consumed c r n rest.
Proof. intros H. pose proof (lex_step_form fx c r) as F. rewrite H in F. apply F. Qed.

Lemma lex_step_shorter fx c r res n rest : lex_step fx c r = (res, n, rest) -> (length rest <= length r)%nat.
Proof.
  intros H. apply lex_step_consumed in H. destruct H as [m [Hr _]]. subst r. rewrite app_length. lia.
Qed.

Lemma lex_step_bytes fx c r res n rest : lex_step fx c r = (res, n, rest) ->
  n + byte_len rest = byte_len (c :: r) /\ 1 <= n.
Proof.
  intros H. apply lex_step_consumed in H. destruct H as [m [Hr Hn]]. subst r n.
  cbn [byte_len]. rewrite byte_len_app. pose proof (utf8_len_pos c). pose proof (byte_len_nonneg m). lia.
Qed.

Lemma conv_int_no_panic mk r a b c s : conv_int mk r a b c s <> SPanic.
Proof. unfold conv_int. destruct r; try discriminate. destruct (str_eqb s [45]); discriminate. Qed.

Lemma lex_signed_dec_no_panic s : lex_signed_dec s <> SPanic.
Proof. apply conv_int_no_panic. Qed.
Lemma lex_unsigned_dec_no_panic s : lex_unsigned_dec s <> SPanic.
Proof. apply conv_int_no_panic. Qed.

(* the slicing callbacks only meet texts that start with an ASCII character, the hex ones with x *)
Lemma word_rule_no_panic pre w res : word_rule pre w res -> res <> SPanic.
Proof.
  destruct 1 as [w|pre w|pre w|c w Hx|c w Hx|c w Hr|c w _]; try discriminate.
  - apply lex_signed_dec_no_panic.
  - apply lex_unsigned_dec_no_panic.
  - cbn [lex_signed_hex]. rewrite Hx. apply conv_int_no_panic.
  - cbn [lex_unsigned_hex]. rewrite Hx. apply conv_int_no_panic.
  - cbn [lex_reg]. replace (c <? 128) with true by (unfold is_r in Hr; lia).
    destruct (parse_u8 10 w); try discriminate. destruct (v <? 8); discriminate.
Qed.

Lemma lex_step_repaired_no_panic c r res n rest : lex_step true c r = (res, n, rest) -> res <> SPanic.
Proof.
  intros H. pose proof (lex_step_form true c r) as F. rewrite H in F. destruct F as [_ [Hp|k Hk|pre w _ Hw]].
  - intros ->. exact Hp.
  - intros E. apply lex_str_literal_post in Hk. destruct Hk as [_ Hk]. discriminate (Hk E).
  - apply (word_rule_no_panic pre w). exact Hw.
Qed.

Definition lex_emit (pos : Z) (res : step_res) (n : Z) (tail : lex_res) : lex_res :=
  match res with
  | SOk t => lex_cons (t, (pos, pos + n)) tail
  | SErr e => LexErr [] e (pos, pos + n)
  | SPanic => LexPanic
  end.

Lemma lex_go_S fx f pos c r :
  lex_go fx (S f) pos (c :: r) =
    if is_blank c then lex_go fx f (pos + 1) r
    else let '(res, n, rest) := lex_step fx c r in lex_emit pos res n (lex_go fx f (pos + n) rest).
Proof. reflexivity. Qed.

Lemma lex_go_fuel fx : forall f1 f2 pos s, (length s < f1)%nat -> (length s < f2)%nat ->
  lex_go fx f1 pos s = lex_go fx f2 pos s.
Proof.
  induction f1 as [|f1 IH]; intros f2 pos s H1 H2; [lia|].
  destruct f2 as [|f2]; [lia|].
  destruct s as [|c r]; [reflexivity|]. rewrite !lex_go_S. cbn [length] in H1, H2.
  destruct (is_blank c).
  - apply IH; lia.
  - destruct (lex_step fx c r) as [[res n] rest] eqn:E.
    pose proof (lex_step_shorter _ _ _ _ _ _ E) as Hl.
    destruct res; [|reflexivity|reflexivity]. f_equal. apply IH; lia.
Qed.

Definition lex_at (fx : bool) (pos : Z) (s : str) : lex_res := lex_go fx (S (length s)) pos s.

Lemma lex_with_at fx s : lex_with fx s = lex_at fx 0 s.
Proof. reflexivity. Qed.

Lemma lex_at_nil fx pos : lex_at fx pos [] = LexOk [].
Proof. reflexivity. Qed.

Lemma lex_at_cons fx pos c r :
  lex_at fx pos (c :: r) =
    if is_blank c then lex_at fx (pos + 1) r
    else let '(res, n, rest) := lex_step fx c r in lex_emit pos res n (lex_at fx (pos + n) rest).
Proof.
  unfold lex_at. cbn [length]. rewrite lex_go_S. destruct (is_blank c); [reflexivity|].
  destruct (lex_step fx c r) as [[res n] rest] eqn:E.
  pose proof (lex_step_shorter _ _ _ _ _ _ E) as Hl.
  destruct res; cbn [lex_emit]; [|reflexivity|reflexivity]. f_equal. apply lex_go_fuel; lia.
Qed.

Lemma lex_at_ind fx (P : Z -> str -> lex_res -> Prop) :
  (forall pos, P pos [] (LexOk [])) ->
  (forall pos c r, is_blank c = true -> P (pos + 1) r (lex_at fx (pos + 1) r) -> P pos (c :: r) (lex_at fx (pos + 1) r)) ->
  (forall pos c r res n rest, is_blank c = false -> lex_step fx c r = (res, n, rest) ->
     P (pos + n) rest (lex_at fx (pos + n) rest) -> P pos (c :: r) (lex_emit pos res n (lex_at fx (pos + n) rest))) ->
  forall s pos, P pos s (lex_at fx pos s).
Proof.
  intros Hnil Hblank Hstep.
  enough (H : forall k s pos, (length s <= k)%nat -> P pos s (lex_at fx pos s)) by (intros s pos; apply (H (length s)); apply le_n).
  induction k as [|k IH]; intros s pos Hk.
  - destruct s; [apply Hnil|cbn [length] in Hk; lia].
  - destruct s as [|c r]; [apply Hnil|]. cbn [length] in Hk. rewrite lex_at_cons.
    destruct (is_blank c) eqn:Eb; [apply Hblank; [exact Eb|apply IH; lia]|].
    destruct (lex_step fx c r) as [[res n] rest] eqn:E.
    pose proof (lex_step_shorter _ _ _ _ _ _ E) as Hl.
    apply (Hstep pos c r res n rest Eb E). apply IH. lia.
Qed.

Lemma lex_cons_no_panic t r : lex_cons t r = LexPanic -> r = LexPanic.
Proof. destruct r; cbn; congruence. Qed.

Lemma lex_at_repaired_no_panic s pos : lex_at true pos s <> LexPanic.
Proof.
  revert s pos. apply (lex_at_ind true (fun _ _ r => r <> LexPanic)).
  - discriminate.
  - intros pos c r _ IH. exact IH.
  - intros pos c r res n rest _ E IH. apply lex_step_repaired_no_panic in E.
    destruct res; cbn [lex_emit]; [|discriminate|congruence].
    intros Hc. apply lex_cons_no_panic in Hc. exact (IH Hc).
Qed.

Theorem lex_no_panic s : lex s <> LexPanic.
Proof. unfold lex. rewrite lex_with_at. apply lex_at_repaired_no_panic. Qed.

Definition span_in (lo hi : Z) (sp : span) : Prop := lo <= fst sp /\ fst sp <= snd sp /\ snd sp <= hi.

Fixpoint spans_sorted (lo hi : Z) (l : list tok) : Prop :=
  match l with
  | [] => lo <= hi
  | (_, sp) :: r => lo <= fst sp /\ fst sp < snd sp /\ spans_sorted (snd sp) hi r
  end.

Lemma spans_sorted_le lo hi l : spans_sorted lo hi l -> lo <= hi.
Proof.
  revert lo. induction l as [|[t sp] r IH]; intros lo H; cbn [spans_sorted] in H; [exact H|].
  destruct H as [H1 [H2 H3]]. apply IH in H3. lia.
Qed.

Lemma spans_sorted_lower lo lo' hi l : lo' <= lo -> spans_sorted lo hi l -> spans_sorted lo' hi l.
Proof. destruct l as [|[t sp] l]; cbn [spans_sorted]; intros Hlo Hs; [lia|]. split; [lia|apply Hs]. Qed.

Definition spans_post (pos : Z) (s : str) (r : lex_res) : Prop :=
  match r with
  | LexOk l => spans_sorted pos (pos + byte_len s) l
  | LexErr l e sp => exists mid, spans_sorted pos mid l /\ mid <= fst sp /\ fst sp < snd sp /\ snd sp <= pos + byte_len s
  | LexPanic => True
  end.

Lemma lex_at_spans fx s pos : spans_post pos s (lex_at fx pos s).
Proof.
  revert s pos. apply (lex_at_ind fx spans_post).
  - intros pos. cbn. lia.
  - intros pos c r Eb IH.
    assert (Hc : utf8_len c = 1) by (apply utf8_len_ascii; unfold is_blank in Eb; lia).
    destruct (lex_at fx (pos + 1) r) as [l|l e sp|]; cbn [spans_post byte_len] in *; [| |exact Logic.I]; rewrite Hc.
    + apply (spans_sorted_lower (pos + 1)); [lia|]. replace (pos + (1 + byte_len r)) with (pos + 1 + byte_len r) by lia. exact IH.
    + destruct IH as [mid [H1 H2]]. exists mid. split; [apply (spans_sorted_lower (pos + 1)); [lia|exact H1]|lia].
  - intros pos c r res n rest _ E IH. apply lex_step_bytes in E. destruct E as [Hb Hn].
    destruct res; cbn [lex_emit]; [| |exact Logic.I].
    + destruct (lex_at fx (pos + n) rest) as [l|l e sp|]; cbn [lex_cons spans_post spans_sorted fst snd] in *; [| |exact Logic.I];
        replace (pos + byte_len (c :: r)) with (pos + n + byte_len rest) by lia.
      * split; [lia|]. split; [lia|exact IH].
      * destruct IH as [mid [H1 H2]]. exists mid. split; [|exact H2]. split; [lia|]. split; [lia|exact H1].
    + exists pos. cbn [spans_post spans_sorted fst snd]. pose proof (byte_len_nonneg rest). lia.
Qed.
