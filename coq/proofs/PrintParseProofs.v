(* PrintParseProofs.v — C36's vocabulary, also used by C03, C05, C07: an upper bound of what the parser
   returns ([in_parser_image]),
   statements up to source positions ([shape_stmt]), and the printed statement and program as pieces,
   each of which lexes to its token. *)
From Coq Require Import ZArith List Bool Lia String.
From Model Require Import Text Instr AsmAst Lexer Parser Print.

From Proofs Require Import ListFacts LexNumProofs OffsetProofs ParserProofs PiecesProofs.
Import ListNotations.
Open Scope Z_scope.

Definition reg_okb (r : Z) : bool := (0 <=? r) && (r <? 8).
Lemma reg_okb_ok r : reg_okb r = reg_ok r.
Proof. reflexivity. Qed.
Definition label_okb (l : label) : bool := label_name_ok (l_name l).
Definition ior_okb (o : imm_or_reg) : bool := match o with Imm v => fits_s 5 v | RegOp r => reg_okb r end.
Definition pcoff_okb (n : Z) (o : pcoff) : bool := match o with POff v => fits_s n v | PLab l => label_okb l end.

Definition instr_okb (i : asm_instr) : bool :=
  match i with
  | AADD dr sr o | AAND dr sr o => reg_okb dr && reg_okb sr && ior_okb o
  | ABR cc o => (1 <=? cc) && (cc <=? 7) && pcoff_okb 9 o
  | AJMP r | AJSRR r => reg_okb r
  | AJSR o => pcoff_okb 11 o
  | ALD r o | ALDI r o | ALEA r o | AST r o | ASTI r o => reg_okb r && pcoff_okb 9 o
  | ALDR a b o | ASTR a b o => reg_okb a && reg_okb b && fits_s 6 o
  | ANOT a b => reg_okb a && reg_okb b
  | ATRAP v => fits_u 8 v
  | ANOP o => pcoff_okb 9 o
  | ARET | ARTI | AGETC | AOUT | APUTC | APUTS | AIN | APUTSP | AHALT => true
  end.
Definition directive_okb (d : directive) : bool :=
  match d with
  | DOrig a => fits_u 16 a
  | DFill (POff v) => fits_u 16 v
  | DFill (PLab l) => label_okb l
  | DBlkw n => fits_u 16 n && negb (n =? 0)
  | DStringz s => byte_len s <? 65535
  | DEnd => true
  | DExternal l => label_okb l
  end.
Definition nucleus_okb (n : nucleus) : bool :=
  match n with NInstr i => instr_okb i | NDir d => directive_okb d end.
Definition in_parser_image (s : stmt) : bool :=
  forallb label_okb (s_labels s) && nucleus_okb (s_nucleus s).
Definition printable_strings (s : stmt) : bool :=
  match s_nucleus s with NDir (DStringz v) => forallb alpha_char v | _ => true end.

Definition shape_label (l : label) : label := mkLabel (l_name l) 0.
Definition shape_pcoff (o : pcoff) : pcoff := match o with POff v => POff v | PLab l => PLab (shape_label l) end.
Definition shape_instr (i : asm_instr) : asm_instr :=
  match i with
  | ABR cc o => ABR cc (shape_pcoff o) | AJSR o => AJSR (shape_pcoff o)
  | ALD r o => ALD r (shape_pcoff o) | ALDI r o => ALDI r (shape_pcoff o) | ALEA r o => ALEA r (shape_pcoff o)
  | AST r o => AST r (shape_pcoff o) | ASTI r o => ASTI r (shape_pcoff o) | ANOP o => ANOP (shape_pcoff o)
  | _ => i
  end.
Definition shape_directive (d : directive) : directive :=
  match d with DFill o => DFill (shape_pcoff o) | DExternal l => DExternal (shape_label l) | _ => d end.
Definition shape_nucleus (n : nucleus) : nucleus :=
  match n with NInstr i => NInstr (shape_instr i) | NDir d => NDir (shape_directive d) end.
Definition shape_stmt (s : stmt) : stmt :=
  mkStmt (map shape_label (s_labels s)) (shape_nucleus (s_nucleus s)) 0 0.

Definition Wreg (r : Z) : piece := W (print_reg r) (TReg r).
Definition Woff (v : Z) : piece := W (print_off v) (tok_of_off v).
Definition Wlab (l : label) : piece := W (l_name l) (TIdent (ILabel (l_name l))).
Definition Wior (o : imm_or_reg) : piece := match o with Imm v => Woff v | RegOp r => Wreg r end.
Definition Wpc (o : pcoff) : piece := match o with POff v => Woff v | PLab l => Wlab l end.
Definition Wkw (m : string) (k : kw) : piece := W (zs m) (TIdent (IKw k)).
Definition Whex (w : nat) (v : Z) : piece := W (120 :: hex_pad w v) (TUnsigned v).
Definition Wdir (m : string) : piece := W (46 :: zs m) (TDirective (zs m)).

(* the last branch (br_name 0 = "NOP") is never met: [instr_okb] asks 1 <= cc *)
Definition br_kw (cc : Z) : kw :=
  if cc =? 1 then KBRP else if cc =? 2 then KBRZ else if cc =? 3 then KBRZP else if cc =? 4 then KBRN
  else if cc =? 5 then KBRNP else if cc =? 6 then KBRNZ else if cc =? 7 then KBRNZP else KNOP.

Definition instr_pieces (i : asm_instr) : list piece :=
  match i with
  | AADD dr sr o => [Wkw "ADD" KADD; Sp; Wreg dr; Cm; Sp; Wreg sr; Cm; Sp; Wior o]
  | AAND dr sr o => [Wkw "AND" KAND; Sp; Wreg dr; Cm; Sp; Wreg sr; Cm; Sp; Wior o]
  | ABR cc o => [W (br_name cc) (TIdent (IKw (br_kw cc))); Sp; Wpc o]
  | AJMP r => [Wkw "JMP" KJMP; Sp; Wreg r]
  | AJSR o => [Wkw "JSR" KJSR; Sp; Wpc o]
  | AJSRR r => [Wkw "JSRR" KJSRR; Sp; Wreg r]
  | ALD r o => [Wkw "LD" KLD; Sp; Wreg r; Cm; Sp; Wpc o]
  | ALDI r o => [Wkw "LDI" KLDI; Sp; Wreg r; Cm; Sp; Wpc o]
  | ALDR a b o => [Wkw "LDR" KLDR; Sp; Wreg a; Cm; Sp; Wreg b; Cm; Sp; Woff o]
  | ALEA r o => [Wkw "LEA" KLEA; Sp; Wreg r; Cm; Sp; Wpc o]
  | ANOT a b => [Wkw "NOT" KNOT; Sp; Wreg a; Cm; Sp; Wreg b]
  | ARET => [Wkw "RET" KRET]
  | ARTI => [Wkw "RTI" KRTI]
  | AST r o => [Wkw "ST" KST; Sp; Wreg r; Cm; Sp; Wpc o]
  | ASTI r o => [Wkw "STI" KSTI; Sp; Wreg r; Cm; Sp; Wpc o]
  | ASTR a b o => [Wkw "STR" KSTR; Sp; Wreg a; Cm; Sp; Wreg b; Cm; Sp; Woff o]
  | ATRAP v => [Wkw "TRAP" KTRAP; Sp; Whex 2 v]
  | ANOP o => [Wkw "NOP" KNOP; Sp; Wpc o]
  | AGETC => [Wkw "GETC" KGETC] | AOUT => [Wkw "OUT" KOUT] | APUTC => [Wkw "PUTC" KPUTC]
  | APUTS => [Wkw "PUTS" KPUTS] | AIN => [Wkw "IN" KIN] | APUTSP => [Wkw "PUTSP" KPUTSP]
  | AHALT => [Wkw "HALT" KHALT]
  end.
Definition directive_pieces (d : directive) : list piece :=
  match d with
  | DOrig a => [Wdir "orig"; Sp; Whex 4 a]
  | DFill o => [Wdir "fill"; Sp; Wpc o]
  | DBlkw n => [Wdir "blkw"; Sp; Woff n]
  | DStringz s => [Wdir "stringz"; Sp; St (debug_str s) s]
  | DEnd => [Wdir "end"]
  | DExternal l => [Wdir "external"; Sp; Wlab l]
  end.
Definition nucleus_pieces (n : nucleus) : list piece :=
  match n with NInstr i => instr_pieces i | NDir d => directive_pieces d end.
Definition label_pieces (ls : list label) : list piece := flat_map (fun l => [Wlab l; Sp]) ls.
Definition stmt_pieces (s : stmt) : list piece := label_pieces (s_labels s) ++ nucleus_pieces (s_nucleus s).

Lemma print_instr_pieces i : print_instr i = text_of (instr_pieces i).
Proof.
  destruct i; try destruct o; cbn [instr_pieces print_instr op1 op2 op3 print_ior print_pcoff print_label csp
    text_of flat_map piece_text Wkw Wreg Woff Wior Wpc Wlab Whex app];
    rewrite ?app_nil_r; reflexivity.
Qed.
Lemma print_directive_pieces d : print_directive d = text_of (directive_pieces d).
Proof.
  destruct d; try destruct o; cbn [directive_pieces print_directive op1 print_pcoff print_label
    text_of flat_map piece_text Wdir Woff Wpc Wlab Whex app]; rewrite ?app_nil_r; reflexivity.
Qed.
Lemma print_stmt_pieces s : print_stmt s = text_of (stmt_pieces s).
Proof.
  unfold print_stmt, stmt_pieces. rewrite text_of_app. f_equal.
  - unfold label_pieces, text_of. induction (s_labels s) as [|l ls IH]; [reflexivity|].
    cbn [flat_map app piece_text Wlab print_label]. rewrite IH. rewrite <- app_assoc. reflexivity.
  - destruct (s_nucleus s); [apply print_instr_pieces|apply print_directive_pieces].
Qed.

Lemma off_word_s n v : 1 <= n <= 16 -> fits_s n v = true -> word_ok (print_off v) (tok_of_off v).
Proof. intros Hn H. apply word_ok_off, (fits_s_range n v Hn H). Qed.
Lemma off_word_u n v : 1 <= n <= 16 -> fits_u n v = true -> word_ok (print_off v) (tok_of_off v).
Proof. intros Hn H. apply word_ok_off. pose proof (fits_u_range n v Hn H). lia. Qed.
Lemma hex_word n w v : 1 <= n <= 16 -> fits_u n v = true -> word_ok (120 :: hex_pad w v) (TUnsigned v).
Proof. intros Hn H. apply word_ok_hex, (fits_u_range n v Hn H). Qed.

Lemma br_name_ok cc : 1 <= cc <= 7 -> kw_text_ok (br_name cc) (br_kw cc) = true.
Proof.
  intros H. assert (Hc : cc = 1 \/ cc = 2 \/ cc = 3 \/ cc = 4 \/ cc = 5 \/ cc = 6 \/ cc = 7) by lia.
  destruct Hc as [->|[->|[->|[->|[->|[->| ->]]]]]]; reflexivity.
Qed.

(* words alternate with blanks and commas: [pieces_ok] is the conjunction of the words' facts *)
Ltac word_pieces :=
  repeat apply conj;
  try first [ exact Logic.I | apply word_ok_kw; reflexivity | apply word_ok_directive; reflexivity
            | apply word_ok_reg; assumption | apply word_ok_label; assumption
            | eapply off_word_s; [|eassumption]; lia | eapply off_word_u; [|eassumption]; lia
            | eapply hex_word; [|eassumption]; lia ].

Lemma instr_pieces_ok i : instr_okb i = true -> pieces_ok (instr_pieces i).
Proof.
  destruct i; try destruct o;
    cbn [instr_okb ior_okb pcoff_okb instr_pieces Wkw Wreg Woff Wior Wpc Wlab Whex pieces_ok delim_next];
    intros H; split_andb; word_pieces; apply word_ok_kw, br_name_ok; lia.
Qed.

Lemma directive_pieces_ok d : directive_okb d = true -> (match d with DStringz v => forallb alpha_char v = true | _ => True end) ->
  pieces_ok (directive_pieces d).
Proof.
  destruct d; try destruct o;
    cbn [directive_okb directive_pieces Wdir Woff Wpc Wlab Whex pieces_ok delim_next];
    intros H Ha; split_andb; word_pieces. apply str_piece_ok; assumption.
Qed.

Lemma label_pieces_ok ls rest : forallb label_okb ls = true -> pieces_ok rest -> pieces_ok (label_pieces ls ++ rest).
Proof.
  induction ls as [|l ls IH]; intros H Hr; [exact Hr|].
  cbn [forallb] in H. apply andb_prop in H. destruct H as [Hl Hls].
  cbn [label_pieces flat_map app]. fold (label_pieces ls). cbn [pieces_ok Wlab].
  split; [apply word_ok_label; exact Hl|]. split; [exact Logic.I|]. apply IH; assumption.
Qed.

Lemma stmt_pieces_ok s : in_parser_image s = true -> printable_strings s = true -> pieces_ok (stmt_pieces s).
Proof.
  unfold in_parser_image, printable_strings, stmt_pieces. intros H Hp. apply andb_prop in H. destruct H as [Hl Hn].
  apply label_pieces_ok; [exact Hl|]. destruct (s_nucleus s) as [i|d]; cbn [nucleus_okb nucleus_pieces] in *.
  - apply instr_pieces_ok; exact Hn.
  - apply directive_pieces_ok; [exact Hn|]. destruct d; try exact Logic.I. exact Hp.
Qed.

Definition starts_nucleus (ts : list tok) : Prop :=
  match ts with
  | (TIdent (IKw _), _) :: _ | (TDirective _, _) :: _ => True
  | _ => False
  end.
Lemma nucleus_starts n pos : starts_nucleus (toks_of pos (nucleus_pieces n)).
Proof. destruct n as [i|d]; [destruct i|destruct d]; exact Logic.I. Qed.

Lemma skip_labels_stop ts prev last : starts_nucleus ts -> skip_labels ts prev last = ([], last, (ts, prev)).
Proof.
  destruct ts as [|[t sp] ts]; [contradiction|]. cbn [starts_nucleus]. destruct t; try contradiction.
  - destruct i; [|contradiction]. intros _. reflexivity.
  - intros _. reflexivity.
Qed.

Definition keeps_tok (p : piece) : bool :=
  match p with W _ t => negb (is_comment t) | Cmt _ => false | _ => true end.
Lemma filter_toks ps pos :
  forallb keeps_tok ps = true ->
  filter (fun t : tok => negb (is_comment (fst t))) (toks_of pos ps) = toks_of pos ps.
Proof.
  revert pos. induction ps as [|p ps IH]; intros pos H; [reflexivity|].
  cbn [forallb] in H. apply andb_prop in H. destruct H as [Hp Hps]. unfold keeps_tok in Hp.
  destruct p; try discriminate; cbn [toks_of filter fst]; try rewrite Hp; try (cbn [is_comment negb]); rewrite ?IH by exact Hps; reflexivity.
Qed.

Lemma stmt_pieces_no_comment s :
  forallb keeps_tok (stmt_pieces s) = true.
Proof.
  unfold stmt_pieces. rewrite forallb_app. apply andb_true_intro. split.
  - unfold label_pieces. induction (s_labels s) as [|l ls IH]; [reflexivity|]. cbn [flat_map app forallb Wlab is_comment negb andb]. exact IH.
  - destruct (s_nucleus s) as [i|d]; [destruct i|destruct d]; try destruct o; cbn [nucleus_pieces instr_pieces directive_pieces];
      unfold Wior, Wpc, Woff, tok_of_off; cbn [forallb Wkw Wreg Wlab Whex Wdir is_comment negb andb];
      repeat match goal with |- context [if ?b then _ else _] => destruct b end; reflexivity.
Qed.

(* statements joined by LF: mirrors nothing in the Rust source, it is the text C36 and C07 speak of *)
Fixpoint program_pieces (l : list stmt) : list piece :=
  match l with
  | [] => []
  | s :: r => stmt_pieces s ++ match r with [] => [] | _ :: _ => Nl false :: program_pieces r end
  end.
Fixpoint print_program (l : list stmt) : str :=
  match l with
  | [] => []
  | s :: r => print_stmt s ++ match r with [] => [] | _ :: _ => 10 :: print_program r end
  end.

Lemma print_program_pieces l : print_program l = text_of (program_pieces l).
Proof.
  induction l as [|s r IH]; [reflexivity|]. cbn [print_program program_pieces].
  rewrite text_of_app, print_stmt_pieces. destruct r; [reflexivity|]. rewrite IH. reflexivity.
Qed.

Lemma program_pieces_ok l : Forall (fun s => in_parser_image s = true /\ printable_strings s = true) l ->
  pieces_ok (program_pieces l) /\
  forallb keeps_tok (program_pieces l) = true.
Proof.
  induction 1 as [|s r [Hi Hp] _ [IH1 IH2]]; [split; reflexivity|]. cbn [program_pieces].
  rewrite forallb_app, stmt_pieces_no_comment. destruct r as [|s2 r2].
  - rewrite app_nil_r. split; [apply stmt_pieces_ok; assumption|reflexivity].
  - split; [|exact IH2]. apply pieces_ok_app; [apply stmt_pieces_ok; assumption|exact IH1|exact Logic.I].
Qed.
