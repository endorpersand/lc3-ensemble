(* ParserProofs.v — the parser model.  A component that consumes one token reads it by a partial
   function ([reads rd]); [reads_run] forwards and [reads_ok] backwards are all the walks need of it.
   One walk for an open token predicate [T]: no panic, errors at spans inside the input, leaves read
   from tokens satisfying [T].  [T] trivial is C04; ImageProofs takes [T := tok_wf]. *)
From Coq Require Import ZArith List Bool Lia.
From Model Require Import Text Bits Offset Instr AsmAst Lexer Parser.
From Proofs Require Import TextFacts ListFacts LexerProofs OffsetProofs.
Import ListNotations.
Open Scope Z_scope.

Definition pos_wf (T : token -> Prop) (hi : Z) (p : ppos) : Prop :=
  Forall (fun t : tok => T (fst t) /\ span_in 0 hi (snd t)) (fst p) /\ span_in 0 hi (snd p).

Definition res_ok {A} (hi : Z) (Q : A -> Prop) (r : pres A) : Prop :=
  match r with POk a => Q a | PErr _ sp => span_in 0 hi sp | PPanic => False end.

Lemma res_ok_bind {A B} hi (Q : A -> Prop) (R : B -> Prop) (r : pres A) (f : A -> pres B) :
  res_ok hi Q r -> (forall a, Q a -> res_ok hi R (f a)) -> res_ok hi R (pbind r f).
Proof. destruct r; cbn [res_ok pbind]; intros H Hf; [apply Hf; exact H|exact H|exact H]. Qed.

Lemma res_ok_weaken {A} hi (Q R : A -> Prop) r : res_ok hi Q r -> (forall a, Q a -> R a) -> res_ok hi R r.
Proof. destruct r; cbn [res_ok]; intros H HQ; [apply HQ; exact H|exact H|exact H]. Qed.

(* d: the component consumed at least d tokens *)
Definition pos_after T hi (d : nat) (p p' : ppos) : Prop :=
  pos_wf T hi p' /\ (length (fst p') + d <= length (fst p))%nat.
Definition ret_after {A} T hi (d : nat) (p : ppos) (Q : A -> Prop) (x : A * ppos) : Prop :=
  Q (fst x) /\ pos_after T hi d p (snd x).

Lemma ret_after_intro {A} T hi d p (Q : A -> Prop) a q :
  Q a -> pos_wf T hi q -> (length (fst q) + d <= length (fst p))%nat -> res_ok hi (ret_after T hi d p Q) (POk (a, q)).
Proof. intros HQ Hq Hl. split; [exact HQ|split; [exact Hq|exact Hl]]. Qed.

Lemma pos_wf_cursor T hi p : pos_wf T hi p -> span_in 0 hi (cursor (fst p) (snd p)).
Proof.
  intros [Hts Hprev]. destruct p as [[|[t sp] ts] prev]; cbn [fst snd cursor] in *; [exact Hprev|].
  inversion Hts as [|x l Hx Hl]; subst. apply Hx.
Qed.
Lemma pos_wf_tail T hi t sp ts prev : pos_wf T hi ((t, sp) :: ts, prev) -> T t /\ span_in 0 hi sp /\ pos_wf T hi (ts, sp).
Proof. intros [Hts _]. cbn [fst snd] in Hts. inversion Hts as [|x l [Ht Hsp] Hl]; subst.
  split; [exact Ht|]. split; [exact Hsp|]. split; [exact Hl|exact Hsp].
Qed.

(* r is what a component returns at p when it reads the next token by [rd]: the value and the
   position behind the token, or an error at the token (at the last span when none is left) *)
Definition reads {A} (rd : token -> span -> option A) (p : ppos) (r : pres (A * ppos)) : Prop :=
  match fst p with
  | (t, sp) :: ts => match rd t sp with Some a => r = POk (a, (ts, sp)) | None => exists k, r = PErr k sp end
  | [] => exists k, r = PErr k (snd p)
  end.

Lemma reads_run {A} rd t sp ts prev r (a : A) : reads rd ((t, sp) :: ts, prev) r -> rd t sp = Some a -> r = POk (a, (ts, sp)).
Proof. unfold reads. cbn [fst]. intros H E. rewrite E in H. exact H. Qed.

Definition rd_reg (t : token) (_ : span) : option Z :=
  match t with TReg r => if reg_ok r then Some r else None | _ => None end.
Definition rd_lab (t : token) (sp : span) : option label :=
  match t with TIdent (ILabel s) => Some (mkLabel s (fst sp)) | _ => None end.
Definition rd_str (t : token) (_ : span) : option str :=
  match t with TString s => Some s | _ => None end.

Definition num_value (t : token) : option Z :=
  match t with TUnsigned v | TSigned v => Some v | _ => None end.
(* `Either<Offset<_, N>, _>::match_`: a numeric token is converted and that outcome stands *)
Definition num_or {A} (fits : Z -> bool) (F : Z -> A) (other : token -> span -> option A) (t : token) (sp : span) : option A :=
  match num_value t with Some v => if fits v then Some (F v) else None | None => other t sp end.
Definition rd_num (fits : Z -> bool) : token -> span -> option Z := num_or fits (fun v => v) (fun _ _ => None).
Definition rd_ior (n : Z) : token -> span -> option imm_or_reg :=
  num_or (fits_s n) Imm (fun t sp => option_map RegOp (rd_reg t sp)).
Definition rd_pc (n : Z) : token -> span -> option pcoff :=
  num_or (fits_s n) POff (fun t sp => option_map PLab (rd_lab t sp)).

(* on a numeric token of value v [conv] answers, with POk v exactly when [fits v]; on others None *)
Definition converts (fits : Z -> bool) (conv : token -> span -> option (pres Z)) : Prop :=
  forall t sp,
    match num_value t with
    | Some v => exists r, conv t sp = Some r /\ if fits v then r = POk v else exists k, r = PErr k sp
    | None => conv t sp = None
    end.

(* a token of the other signedness is converted first; where that fails the value does not fit either *)
Lemma conv_s_converts n : 1 <= n <= 16 -> converts (fits_s n) (conv_s n).
Proof.
  intros Hn t sp. destruct t; cbn [num_value conv_s]; try reflexivity; eexists; (split; [reflexivity|]);
    rewrite new_s_spec by exact Hn.
  - destruct (fits_s n v) eqn:F; destruct (v <? 32768) eqn:E; cbn [off_res]; try reflexivity; try (eexists; reflexivity).
    apply (fits_s_i16 n v Hn) in F. lia.
  - destruct (fits_s n v); cbn [off_res]; [reflexivity|eexists; reflexivity].
Qed.
Lemma conv_u_converts n : 1 <= n <= 16 -> converts (fits_u n) (conv_u n).
Proof.
  intros Hn t sp. destruct t; cbn [num_value conv_u]; try reflexivity; eexists; (split; [reflexivity|]);
    rewrite new_u_spec by exact Hn.
  - destruct (fits_u n v); cbn [off_res]; [reflexivity|eexists; reflexivity].
  - destruct (fits_u n v) eqn:F; destruct (0 <=? v) eqn:E; cbn [off_res]; try reflexivity; try (eexists; reflexivity).
    unfold fits_u in F. lia.
Qed.

Ltac read_head p := destruct p as [[|[t sp] ts] prev]; cbn [reads fst snd]; [eexists; reflexivity|].

Lemma p_reg_reads p : reads rd_reg p (p_reg p).
Proof.
  unfold p_reg. read_head p. destruct t; cbn [rd_reg]; try (eexists; reflexivity).
  change ((0 <=? r) && (r <? 8)) with (reg_ok r). destruct (reg_ok r); [reflexivity|eexists; reflexivity].
Qed.
Lemma p_label_reads p : reads rd_lab p (p_label p).
Proof. unfold p_label. read_head p. destruct t; try destruct i; cbn [rd_lab]; eexists; reflexivity. Qed.
Lemma p_str_reads p : reads rd_str p (p_str p).
Proof. unfold p_str. read_head p. destruct t; cbn [rd_str]; eexists; reflexivity. Qed.

(* p_off, p_ior, p_pcoff; [e]: what is done with a token that is no number *)
Lemma num_or_reads {A} fits conv (F : Z -> A) other t sp q (e : pres (A * ppos)) :
  converts fits conv ->
  match other t sp with Some a => e = POk (a, q) | None => exists k, e = PErr k sp end ->
  match num_or fits F other t sp with
  | Some a => match conv t sp with Some r => let* v := r in POk (F v, q) | None => e end = POk (a, q)
  | None => exists k, match conv t sp with Some r => let* v := r in POk (F v, q) | None => e end = PErr k sp
  end.
Proof.
  intros Hc He. specialize (Hc t sp). unfold num_or. destruct (num_value t) as [v|].
  - destruct Hc as [r [-> Hr]]. destruct (fits v); [subst r; reflexivity|destruct Hr as [k ->]; exists k; reflexivity].
  - rewrite Hc. exact He.
Qed.

Lemma p_off_reads fits conv p : converts fits conv -> reads (rd_num fits) p (p_off conv p).
Proof.
  intros Hc. unfold p_off. read_head p. apply (num_or_reads fits conv (fun v => v)); [exact Hc|]. eexists; reflexivity.
Qed.
Lemma p_off_s_reads n p : 1 <= n <= 16 -> reads (rd_num (fits_s n)) p (p_off (conv_s n) p).
Proof. intros Hn. apply p_off_reads, conv_s_converts, Hn. Qed.
Lemma p_off_u_reads n p : 1 <= n <= 16 -> reads (rd_num (fits_u n)) p (p_off (conv_u n) p).
Proof. intros Hn. apply p_off_reads, conv_u_converts, Hn. Qed.
Lemma p_ior_reads n p : 1 <= n <= 16 -> reads (rd_ior n) p (p_ior n p).
Proof.
  intros Hn. unfold p_ior. read_head p. apply (num_or_reads (fits_s n) (conv_s n) Imm); [apply conv_s_converts, Hn|].
  destruct t; cbn [rd_reg option_map]; try (eexists; reflexivity).
  change ((0 <=? r) && (r <? 8)) with (reg_ok r). destruct (reg_ok r); [reflexivity|eexists; reflexivity].
Qed.
Lemma p_pcoff_reads n p : 1 <= n <= 16 -> reads (rd_pc n) p (p_pcoff n p).
Proof.
  intros Hn. unfold p_pcoff. read_head p. apply (num_or_reads (fits_s n) (conv_s n) POff); [apply conv_s_converts, Hn|].
  destruct t; try destruct i; cbn [rd_lab option_map]; eexists; reflexivity.
Qed.

Definition read_from {A} (T : token -> Prop) (rd : token -> span -> option A) (a : A) : Prop :=
  exists t sp, T t /\ rd t sp = Some a.
Lemma read_from_lab (T : token -> Prop) s (sp : span) : T (TIdent (ILabel s)) -> read_from T rd_lab (mkLabel s (fst sp)).
Proof. intros Ht. exists (TIdent (ILabel s)), sp. split; [exact Ht|reflexivity]. Qed.
Lemma read_from_num_or {A} T fits (F : Z -> A) other a : read_from T (num_or fits F other) a ->
  (exists v, a = F v /\ fits v = true) \/ read_from T other a.
Proof.
  intros [t [sp [Ht E]]]. unfold num_or in E. destruct (num_value t) as [v|]; [left|right; exists t, sp; split; assumption].
  destruct (fits v) eqn:Hf; [injection E as <-; exists v; split; [reflexivity|exact Hf]|discriminate E].
Qed.
Definition instr_from T (i : asm_instr) : Prop :=
  match i with
  | AADD dr sr o | AAND dr sr o => read_from T rd_reg dr /\ read_from T rd_reg sr /\ read_from T (rd_ior 5) o
  | ABR cc o => 1 <= cc <= 7 /\ read_from T (rd_pc 9) o
  | AJMP r | AJSRR r => read_from T rd_reg r
  | AJSR o => read_from T (rd_pc 11) o
  | ALD r o | ALDI r o | ALEA r o | AST r o | ASTI r o => read_from T rd_reg r /\ read_from T (rd_pc 9) o
  | ALDR a b o | ASTR a b o => read_from T rd_reg a /\ read_from T rd_reg b /\ read_from T (rd_num (fits_s 6)) o
  | ANOT a b => read_from T rd_reg a /\ read_from T rd_reg b
  | ATRAP v => read_from T (rd_num (fits_u 8)) v
  (* a NOP without operand gets the offset 0 *)
  | ANOP o => read_from T (rd_pc 9) o \/ o = POff 0
  | ARET | ARTI | AGETC | AOUT | APUTC | APUTS | AIN | APUTSP | AHALT => True
  end.
Definition directive_from T (d : directive) : Prop :=
  match d with
  | DOrig a => read_from T (rd_num (fits_u 16)) a
  (* .FILL truncates whatever number it is given to 16 bits *)
  | DFill (POff w) => exists v, w = zext 16 v
  | DFill (PLab l) => read_from T rd_lab l
  | DBlkw n => read_from T (rd_num (fits_u 16)) n /\ n <> 0
  | DStringz s => read_from T rd_str s
  | DEnd => True
  | DExternal l => read_from T rd_lab l
  end.
Definition nucleus_from T (n : nucleus) : Prop :=
  match n with NInstr i => instr_from T i | NDir d => directive_from T d end.
Definition stmt_from T (s : stmt) : Prop := Forall (read_from T rd_lab) (s_labels s) /\ nucleus_from T (s_nucleus s).

(* the head token (t, sp) of p with Ht : T t, Hsp : its span, Hts : pos_wf of the rest *)
Ltac head_tok p Hwf :=
  destruct p as [[|[t sp] ts] prev]; cbn [fst snd];
  [ | apply pos_wf_tail in Hwf; destruct Hwf as [Ht [Hsp Hts]] ].
Ltac close_after := apply ret_after_intro; [ | assumption | cbn [fst snd length] in *; lia ].

Lemma p_tok_ok T hi want m p : pos_wf T hi p -> res_ok hi (pos_after T hi 1 p) (p_tok want m p).
Proof.
  intros Hwf. unfold p_tok. head_tok p Hwf; [apply Hwf|].
  destruct (want t); [|exact Hsp]. split; [exact Hts|cbn [fst length]; lia].
Qed.

Lemma p_end_ok T hi p : pos_wf T hi p -> res_ok hi (pos_after T hi 0 p) (p_end p).
Proof.
  intros Hwf. unfold p_end. pose proof Hwf as Hwf0. head_tok p Hwf; [split; [exact Hwf0|lia]|].
  destruct t; try exact Hsp. split; [exact Hts|cbn [fst length]; lia].
Qed.

Lemma reads_ok {A} T hi (rd : token -> span -> option A) p r : reads rd p r -> pos_wf T hi p ->
  res_ok hi (ret_after T hi 1 p (read_from T rd)) r.
Proof.
  unfold reads. intros H Hwf. head_tok p Hwf; cbn [fst snd] in H; [destruct H as [k ->]; apply Hwf|].
  destruct (rd t sp) as [a|] eqn:E; [subst r|destruct H as [k ->]; exact Hsp].
  close_after. exists t, sp. split; assumption.
Qed.

(* what a step of a [let*] chain returns: a with Ha, q with Hw : pos_wf, Hl : the length bound *)
Ltac name_step :=
  let a := fresh "a" in let q := fresh "q" in let Ha := fresh "Ha" in let Hw := fresh "Hw" in let Hl := fresh "Hl" in
  intros [a q] [Ha [Hw Hl]]; cbn [fst snd] in Ha, Hw, Hl; cbn beta iota.
Ltac step_with L := eapply res_ok_bind; [eapply L; try reflexivity; try eassumption|]; name_step.
Ltac read_with R := eapply res_ok_bind; [eapply reads_ok; [eapply R; lia|eassumption]|]; name_step.

Lemma p_reg_comma_ok T hi p : pos_wf T hi p -> res_ok hi (ret_after T hi 1 p (read_from T rd_reg)) (p_reg_comma p).
Proof.
  intros Hwf. unfold p_reg_comma. read_with p_reg_reads.
  eapply res_ok_bind; [apply p_tok_ok; exact Hw|]. intros p2 [Hw2 Hl2]. close_after. exact Ha.
Qed.

Lemma p_br_ok T hi cc p : 1 <= cc <= 7 -> pos_wf T hi p -> res_ok hi (ret_after T hi 0 p (instr_from T)) (p_br cc p).
Proof. intros Hcc Hwf. unfold p_br. read_with (p_pcoff_reads 9). close_after. split; assumption. Qed.

Lemma p_operands_ok T hi k p : pos_wf T hi p -> res_ok hi (ret_after T hi 0 p (instr_from T)) (p_operands k p).
Proof.
  intros Hwf.
  (* left: ADD AND NOT JMP JSR JSRR LD LDI LDR LEA ST STI STR TRAP NOP *)
  destruct k; cbn [p_operands]; try (apply p_br_ok; [lia|exact Hwf]); try (close_after; exact Logic.I).
  - step_with p_reg_comma_ok. step_with p_reg_comma_ok. read_with (p_ior_reads 5). close_after. cbn; auto.
  - step_with p_reg_comma_ok. step_with p_reg_comma_ok. read_with (p_ior_reads 5). close_after. cbn; auto.
  - step_with p_reg_comma_ok. read_with p_reg_reads. close_after. cbn; auto.
  - read_with p_reg_reads. close_after. exact Ha.
  - read_with (p_pcoff_reads 11). close_after. exact Ha.
  - read_with p_reg_reads. close_after. exact Ha.
  - step_with p_reg_comma_ok. read_with (p_pcoff_reads 9). close_after. cbn; auto.
  - step_with p_reg_comma_ok. read_with (p_pcoff_reads 9). close_after. cbn; auto.
  - step_with p_reg_comma_ok. step_with p_reg_comma_ok. read_with (p_off_s_reads 6). close_after. cbn; auto.
  - step_with p_reg_comma_ok. read_with (p_pcoff_reads 9). close_after. cbn; auto.
  - step_with p_reg_comma_ok. read_with (p_pcoff_reads 9). close_after. cbn; auto.
  - step_with p_reg_comma_ok. read_with (p_pcoff_reads 9). close_after. cbn; auto.
  - step_with p_reg_comma_ok. step_with p_reg_comma_ok. read_with (p_off_s_reads 6). close_after. cbn; auto.
  - read_with (p_off_u_reads 8). close_after. exact Ha.
  - (* NOP looks ahead for an operand *)
    assert (Hdef : res_ok hi (ret_after T hi 0 p (instr_from T)) (let* v := off_res (new_trunc_s 9 0) (snd p) in POk (ANOP (POff v), p))).
    { change (off_res (new_trunc_s 9 0) (snd p)) with (@POk Z 0). cbn [pbind]. close_after. right. reflexivity. }
    destruct p as [[|[t sp] ts] prev]; cbn [fst]; [exact Hdef|].
    destruct t; try exact Hdef; try (read_with (p_pcoff_reads 9); close_after; left; exact Ha).
    destruct i; try exact Hdef. read_with (p_pcoff_reads 9). close_after. left. exact Ha.
Qed.

Lemma p_directive_ok T hi name dsp p :
  span_in 0 hi dsp -> pos_wf T hi p -> res_ok hi (ret_after T hi 0 p (directive_from T)) (p_directive name dsp p).
Proof.
  intros Hd Hwf. unfold p_directive.
  destruct (assoc_str (kw_upper name) dir_names) as [z|]; [|exact Hd].
  destruct z as [|z|z]; [| |exact Hd].
  - read_with (p_off_u_reads 16). close_after. exact Ha.
  - (* the index is a binary numeral: EXTERNAL, STRINGZ, END, BLKW, FILL *)
    destruct z as [z|z|]; try destruct z as [z|z|]; try destruct z as [z|z|]; try exact Hd.
    + read_with p_label_reads. close_after. exact Ha.
    + read_with p_str_reads. close_after. exact Ha.
    + close_after. exact Logic.I.
    + pose proof (pos_wf_cursor T hi p Hwf) as Hcur. read_with (p_off_u_reads 16).
      destruct (a =? 0) eqn:E0; [exact Hcur|]. close_after. split; [exact Ha|lia].
    + pose proof (pos_wf_cursor T hi p Hwf) as Hcur.
      head_tok p Hwf; [apply Hwf|]. cbn [cursor] in Hcur.
      destruct t; try exact Hcur.
      * rewrite new_trunc_u_spec by lia. cbn [off_res pbind]. close_after. exists v. reflexivity.
      * rewrite new_trunc_u_spec by lia. cbn [off_res pbind]. close_after. exists (to_u16 v). reflexivity.
      * destruct i; try exact Hcur. close_after. apply read_from_lab, Ht.
Qed.

Definition labels_post T hi (n : nat) (out : list label * option span * ppos) : Prop :=
  let '(ls, last, p) := out in
  Forall (read_from T rd_lab) ls /\ pos_wf T hi p /\ (length (fst p) <= n)%nat /\
  match last with Some sp => span_in 0 hi sp | None => True end.

Lemma labels_post_cons T hi n m l out : read_from T rd_lab l -> (n <= m)%nat -> labels_post T hi n out ->
  labels_post T hi m (let '(ls, last, p) := out in (l :: ls, last, p)).
Proof.
  destruct out as [[ls last] p]. intros Hl Hn [H1 [H2 [H3 H4]]].
  split; [constructor; assumption|]. split; [exact H2|]. split; [lia|exact H4].
Qed.

Lemma skip_labels_ok T hi ts : forall prev last, pos_wf T hi (ts, prev) ->
  match last with Some sp => span_in 0 hi sp | None => True end ->
  labels_post T hi (length ts) (skip_labels ts prev last).
Proof.
  induction ts as [|[t sp] ts1 IH1 IH2] using list_ind2; intros prev last Hwf Hlast.
  { split; [constructor|]. split; [exact Hwf|]. split; [apply le_n|exact Hlast]. }
  unfold skip_labels; fold skip_labels. change (length ((t, sp) :: ts1)) with (S (length ts1)).
  assert (Hstop : labels_post T hi (S (length ts1)) ([], last, ((t, sp) :: ts1, prev))).
  { split; [constructor|]. split; [exact Hwf|]. split; [apply le_n|exact Hlast]. }
  destruct (all_nl _); [exact Hstop|].
  destruct (pos_wf_tail _ _ _ _ _ _ Hwf) as [Ht [Hsp Hts]].
  destruct t; try exact Hstop.
  - destruct i; [exact Hstop|].
    assert (Hone : labels_post T hi (S (length ts1))
                     (let '(ls, last', p) := skip_labels ts1 sp (Some sp) in (mkLabel s (fst sp) :: ls, last', p))).
    { apply (labels_post_cons _ _ (length ts1)); [apply read_from_lab, Ht|lia|]. apply IH1; assumption. }
    destruct ts1 as [|[t2 sp2] ts2]; [exact Hone|]. destruct t2; try exact Hone.
    apply (labels_post_cons _ _ (length ts2)); [apply read_from_lab, Ht|cbn [length]; lia|].
    apply (IH2 _ _ eq_refl); [|exact Hsp]. apply pos_wf_tail in Hts. apply Hts.
  - pose proof (IH1 sp last Hts Hlast) as H. destruct (skip_labels ts1 sp last) as [[ls last'] p'].
    destruct H as [H1 [H2 [H3 H4]]]. split; [exact H1|]. split; [exact H2|]. split; [lia|exact H4].
Qed.

Lemma skip_nl_ok T hi : forall ts prev, pos_wf T hi (ts, prev) -> pos_after T hi 0 (ts, prev) (skip_nl ts prev).
Proof.
  induction ts as [|[t sp] ts IH]; intros prev Hwf; [split; [exact Hwf|cbn; lia]|].
  unfold skip_nl; fold skip_nl. destruct (all_nl _); [split; [exact Hwf|lia]|].
  destruct t; try (split; [exact Hwf|lia]).
  apply pos_wf_tail in Hwf. destruct (IH sp) as [H1 H2]; [apply Hwf|]. split; [exact H1|cbn [fst length] in *; lia].
Qed.

Lemma p_nucleus_ok T hi last p : pos_wf T hi p ->
  (match last with Some sp => span_in 0 hi sp | None => True end) ->
  res_ok hi (ret_after T hi 1 p (nucleus_from T)) (p_nucleus last p).
Proof.
  intros Hwf Hlast. unfold p_nucleus.
  assert (Herr : span_in 0 hi (match last with Some sp => sp | None => cursor (fst p) (snd p) end)).
  { destruct last; [exact Hlast|apply (pos_wf_cursor T); exact Hwf]. }
  head_tok p Hwf; [exact Herr|]. cbn [fst snd] in Herr.
  destruct t; try exact Herr.
  - destruct i; [|exact Herr]. step_with p_operands_ok. close_after. exact Ha.
  - step_with p_directive_ok. close_after. exact Ha.
Qed.

Lemma p_stmt_ok T hi p : pos_wf T hi p -> res_ok hi (ret_after T hi 1 p (stmt_from T)) (p_stmt p).
Proof.
  intros Hwf. unfold p_stmt. destruct p as [ts prev]. cbn [fst snd].
  pose proof (skip_labels_ok T hi ts prev None Hwf Logic.I) as Hs.
  destruct (skip_labels ts prev None) as [[labels last] p1]. destruct Hs as [Hls [Hw1 [Hl1 Hlast]]].
  step_with p_nucleus_ok.
  eapply res_ok_bind; [apply p_end_ok; exact Hw|]. intros [ts3 prev3] [Hw3 Hl3].
  destruct (skip_nl_ok T hi ts3 prev3 Hw3) as [H1 H2]. close_after. split; assumption.
Qed.

Lemma p_stmts_ok T hi : forall fuel p, (length (fst p) < fuel)%nat -> pos_wf T hi p ->
  res_ok hi (Forall (stmt_from T)) (p_stmts fuel p).
Proof.
  induction fuel as [|f IH]; intros p Hf Hwf; [lia|].
  cbn [p_stmts]. destruct (all_nl (fst p)); [constructor|].
  step_with p_stmt_ok.
  eapply res_ok_bind; [apply IH; [lia|exact Hw]|]. intros l Hl'. constructor; assumption.
Qed.

Lemma spans_sorted_in lo hi l : spans_sorted lo hi l -> 0 <= lo -> Forall (fun t : tok => span_in 0 hi (snd t)) l.
Proof.
  revert lo. induction l as [|[t sp] l IH]; intros lo H Hlo; [constructor|].
  cbn [spans_sorted] in H. destruct H as [H1 [H2 H3]]. pose proof (spans_sorted_le _ _ _ H3) as Hle.
  constructor; [cbn [snd]; unfold span_in; lia|]. apply (IH (snd sp)); [exact H3|lia].
Qed.

Lemma parse_tokens_ok T hi l : Forall (fun t : tok => T (fst t) /\ span_in 0 hi (snd t)) l -> 0 <= hi ->
  res_ok hi (Forall (stmt_from T)) (parse_tokens l).
Proof.
  intros Hl Hhi. unfold parse_tokens. apply p_stmts_ok; [cbn [fst]; apply le_n|].
  split; cbn [fst snd]; [|unfold span_in; cbn; lia].
  induction Hl as [|t l Ht _ IH]; cbn [filter]; [constructor|]. destruct (negb (is_comment (fst t))); [constructor; assumption|assumption].
Qed.

(* the parser proper has no panic of its own, in either code version *)
Theorem parse_ast_post T fx s :
  lex_with fx s <> LexPanic -> (forall l, lex_with fx s = LexOk l -> Forall (fun t : tok => T (fst t)) l) ->
  res_ok (byte_len s) (Forall (stmt_from T)) (parse_ast_with fx s).
Proof.
  intros Hnp HT. unfold parse_ast_with. rewrite lex_with_at in *. pose proof (lex_at_spans fx s 0) as Hsp.
  destruct (lex_at fx 0 s) as [l|l e sp|]; cbn [spans_post] in Hsp; [| |congruence].
  - apply parse_tokens_ok; [|apply byte_len_nonneg].
    apply Forall_and; [apply HT; reflexivity|]. apply (spans_sorted_in 0); [exact Hsp|lia].
  - destruct Hsp as [mid [H1 [H2 [H3 H4]]]]. pose proof (spans_sorted_le _ _ _ H1). cbn [res_ok]. unfold span_in. lia.
Qed.

Theorem parse_ast_ok s : res_ok (byte_len s) (fun _ => True) (parse_ast s).
Proof.
  apply (res_ok_weaken _ (Forall (stmt_from (fun _ => True)))); [|trivial].
  apply (parse_ast_post _ true); [apply lex_no_panic|]. intros l _. apply Forall_forall. trivial.
Qed.

(* C04_pinned_refuted's texts: a backslash at the end of input; a backslash before e-acute *)
Definition w_backslash_eol : str := [46; 115; 116; 114; 105; 110; 103; 122; 32; 34; 97; 98; 99; 92].
Definition w_backslash_multibyte : str := [46; 115; 116; 114; 105; 110; 103; 122; 32; 34; 97; 92; 233; 34].

Lemma pbind_ok {A B} (a : A) (f : A -> pres B) : pbind (POk a) f = f a.
Proof. reflexivity. Qed.
Lemma p_reg_tok r sp ts prev : reg_ok r = true -> p_reg ((TReg r, sp) :: ts, prev) = POk (r, (ts, sp)).
Proof. intros H. apply (reads_run _ _ _ _ _ _ _ (p_reg_reads _)). cbn [rd_reg]. rewrite H. reflexivity. Qed.
Lemma p_reg_comma_tok r sp sp2 ts prev : reg_ok r = true ->
  p_reg_comma ((TReg r, sp) :: (TComma, sp2) :: ts, prev) = POk (r, (ts, sp2)).
Proof. intros H. unfold p_reg_comma. rewrite p_reg_tok by exact H. reflexivity. Qed.
Lemma skip_labels_colon s sp c ts prev last :
  skip_labels ((TIdent (ILabel s), sp) :: (TColon, c) :: ts) prev last =
    let '(ls, last', p) := skip_labels ts c (Some sp) in (mkLabel s (fst sp) :: ls, last', p).
Proof. reflexivity. Qed.
Lemma skip_labels_label s sp ts1 prev last :
  match ts1 with (TColon, _) :: _ => False | _ => True end ->
  skip_labels ((TIdent (ILabel s), sp) :: ts1) prev last =
    let '(ls, last', p) := skip_labels ts1 sp (Some sp) in (mkLabel s (fst sp) :: ls, last', p).
Proof.
  intros H. destruct ts1 as [|[t2 sp2] ts2]; [reflexivity|]. destruct t2; try reflexivity. contradiction.
Qed.
Lemma all_nl_cons_false t sp ts : is_newline t = false -> all_nl ((t, sp) :: ts) = false.
Proof. intros H. unfold all_nl. cbn [forallb fst]. rewrite H. reflexivity. Qed.
Lemma skip_nl_all ts prev : all_nl ts = true -> skip_nl ts prev = (ts, prev).
Proof. destruct ts as [|t ts]; [reflexivity|]. intros H. unfold skip_nl; fold skip_nl. rewrite H. reflexivity. Qed.
Lemma p_stmts_all_nl f p : all_nl (fst p) = true -> p_stmts f p = POk [].
Proof. intros H. destruct f; cbn [p_stmts]; rewrite H; reflexivity. Qed.
