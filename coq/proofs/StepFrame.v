(* StepFrame.v — what a step leaves alone, through every operation of the monad of Sim.v by one walk.  [pres f m]: m
   keeps the component f; [step_instrs]: a step leaves the instruction counter alone or, only when it completes, adds
   one modulo 2^64.  [oi m], [step_obs]: the access observer is write-only. *)
From Coq Require Import ZArith List Bool.
From Model Require Import Word Sim.
From Proofs Require Import SimHoare.
Import ListNotations.
Open Scope Z_scope.

Definition pres {X A} (f : sim -> X) (m : M A) : Prop := forall s, f (fst (m s)) = f s.

Lemma pres_ret {X A} (f : sim -> X) (a : A) : pres f (ret a).
Proof. intro s. reflexivity. Qed.
Lemma pres_fail {X A} (f : sim -> X) b : pres f (@fail A b).
Proof. intro s. reflexivity. Qed.
Lemma pres_err {X A} (f : sim -> X) e : pres f (@err A e).
Proof. intro s. reflexivity. Qed.
Lemma pres_get {X} (f : sim -> X) : pres f get.
Proof. intro s. reflexivity. Qed.
Lemma pres_of_opt {X A} (f : sim -> X) (o : option A) e : pres f (of_opt o e).
Proof. intro s. destruct o; reflexivity. Qed.
Lemma pres_modify {X} (f : sim -> X) g : (forall s, f (g s) = f s) -> pres f (modify g).
Proof. intros H s. cbn. apply H. Qed.
Lemma pres_bind {X A B} (f : sim -> X) (m : M A) (k : A -> M B) :
  pres f m -> (forall a, pres f (k a)) -> pres f (bind m k).
Proof.
  intros Hm Hk s. unfold bind. specialize (Hm s). destruct (m s) as [s1 [a|b]]; cbn in *.
  - rewrite Hk. exact Hm.
  - exact Hm.
Qed.

Lemma pres_run {X A} (f : sim -> X) (m : M A) s s' r : pres f m -> m s = (s', r) -> f s' = f s.
Proof. intros H E. specialize (H s). rewrite E in H. exact H. Qed.

Definition oi {A} (m : M A) : Prop :=
  forall s o, exists o', m (upd_obs s o) = (upd_obs (fst (m s)) o', snd (m s)).

Lemma oi_ret {A} (a : A) : oi (ret a).
Proof. intros s o. exists o. reflexivity. Qed.
Lemma oi_fail {A} b : oi (@fail A b).
Proof. intros s o. exists o. reflexivity. Qed.
Lemma oi_err {A} e : oi (@err A e).
Proof. intros s o. exists o. reflexivity. Qed.
Lemma oi_of_opt {A} (x : option A) e : oi (of_opt x e).
Proof. intros s o. exists o. destruct x; reflexivity. Qed.
Lemma oi_modify g : (forall s o, g (upd_obs s o) = upd_obs (g s) o) -> oi (modify g).
Proof. intros H s o. exists o. unfold modify. rewrite H. reflexivity. Qed.
Lemma oi_bind {A B} (m : M A) (k : A -> M B) : oi m -> (forall a, oi (k a)) -> oi (bind m k).
Proof.
  intros Hm Hk s o. unfold bind. destruct (Hm s o) as [o1 E1]. rewrite E1.
  destruct (m s) as [s1 [a|b]]; cbn [fst snd].
  - destruct (Hk a s1 o1) as [o2 E2]. exists o2. exact E2.
  - exists o1. reflexivity.
Qed.
(* the second premise holds by computation: no continuation of a [get] in Sim.v reads [s_obs] from its snapshot *)
Lemma oi_bind_get {B} (k : sim -> M B) :
  (forall s0, oi (k s0)) -> (forall s0 o x, k (upd_obs s0 o) x = k s0 x) -> oi (bind get k).
Proof.
  intros Hk Hp s o. unfold bind, get. rewrite Hp. destruct (Hk s s o) as [o' E]. exists o'. exact E.
Qed.

(* [walk db]: binds and [modify] by the rules above, case analyses by [destruct], every other operation by its own lemma
   from the database [db] (so the lemma of an operation is registered before the operations that call it) *)
Ltac walk_step db :=
  lazymatch goal with
  | |- oi (bind get _) => apply oi_bind_get; [intro | intros; reflexivity]
  | |- oi (bind _ _) => apply oi_bind; [| intro]
  | |- pres _ (bind _ _) => apply pres_bind; [| intro]
  | |- oi (modify _) => apply oi_modify; intros; reflexivity
  | |- pres _ (modify _) => apply pres_modify; intro; reflexivity
  | |- _ (if ?c then _ else _) => destruct c
  | |- _ (match ?x with _ => _ end) => destruct x
  | |- _ (let _ := _ in _) => cbv zeta
  | |- _ => solve [auto with db]
  end.
Ltac walk db := repeat (walk_step db).

Create HintDb pres_db.
#[export] Hint Resolve pres_ret pres_fail pres_err pres_get pres_of_opt : pres_db.
Create HintDb oi_db.
#[export] Hint Resolve oi_ret oi_fail oi_err oi_of_opt : oi_db.

Lemma pres_instrs_read_mem e a c : pres s_instrs (read_mem e a c).
Proof. intro s. apply read_mem_keeps_field; reflexivity. Qed.
Lemma pres_instrs_write_mem e a d c : pres s_instrs (write_mem e a d c).
Proof. intro s. apply write_mem_keeps_field; try reflexivity. intros s0 []; reflexivity. Qed.
#[export] Hint Resolve pres_instrs_read_mem pres_instrs_write_mem : pres_db.

Lemma pres_instrs_set_cc r : pres s_instrs (set_cc r).
Proof. unfold set_cc. walk pres_db. Qed.
Lemma pres_instrs_set_pc w b : pres s_instrs (set_pc w b).
Proof. unfold set_pc. walk pres_db. Qed.
#[export] Hint Resolve pres_instrs_set_cc pres_instrs_set_pc : pres_db.
Lemma pres_instrs_offset_pc o b : pres s_instrs (offset_pc o b).
Proof. unfold offset_pc. walk pres_db. Qed.
Lemma pres_instrs_push_frame a b ft : pres s_instrs (push_frame a b ft).
Proof. intro s. rewrite push_frame_run. reflexivity. Qed.
Lemma pres_instrs_pop_frame : pres s_instrs pop_frame.
Proof. unfold pop_frame. walk pres_db. Qed.
Lemma pres_instrs_swap_sp : pres s_instrs swap_sp.
Proof. unfold swap_sp. walk pres_db. Qed.
#[export] Hint Resolve pres_instrs_offset_pc pres_instrs_push_frame pres_instrs_pop_frame pres_instrs_swap_sp : pres_db.
Lemma pres_instrs_call_subroutine a : pres s_instrs (call_subroutine a).
Proof. unfold call_subroutine. walk pres_db. Qed.
Lemma pres_instrs_call_interrupt e v ft : pres s_instrs (call_interrupt e v ft).
Proof. unfold call_interrupt. walk pres_db. Qed.
#[export] Hint Resolve pres_instrs_call_subroutine pres_instrs_call_interrupt : pres_db.
Lemma pres_instrs_handle_interrupt e v p : pres s_instrs (handle_interrupt e v p).
Proof. unfold handle_interrupt. walk pres_db. Qed.
Lemma pres_instrs_set_reg_if_init dr v st : pres s_instrs (set_reg_if_init dr v st).
Proof. unfold set_reg_if_init. walk pres_db. Qed.
#[export] Hint Resolve pres_instrs_handle_interrupt pres_instrs_set_reg_if_init : pres_db.
Lemma pres_instrs_exec e i : pres s_instrs (exec e i).
Proof. unfold exec. walk pres_db. Qed.
Lemma pres_instrs_decode_m w : pres s_instrs (decode_m w).
Proof. unfold decode_m. walk pres_db. Qed.
#[export] Hint Resolve pres_instrs_exec pres_instrs_decode_m : pres_db.

Definition instrs_post (s s' : sim) (r : unit + brk) : Prop :=
  s_instrs s' = s_instrs s \/ (r = inl tt /\ s_instrs s' = (s_instrs s + 1) mod 18446744073709551616).
Definition post_m (m : M unit) : Prop := forall s, instrs_post s (fst (m s)) (snd (m s)).

Lemma post_of_pres m : pres s_instrs m -> post_m m.
Proof. intros H s. left. apply H. Qed.
Lemma post_bind_pres {A} (m : M A) (k : A -> M unit) :
  pres s_instrs m -> (forall a, post_m (k a)) -> post_m (bind m k).
Proof.
  intros Hm Hk s. unfold bind. specialize (Hm s). destruct (m s) as [s1 [a|b]]; cbn in *.
  - specialize (Hk a s1). unfold instrs_post in *. rewrite <- Hm. exact Hk.
  - left. exact Hm.
Qed.
Lemma post_incr : post_m (modify (fun s => upd_instrs s ((s_instrs s + 1) mod 18446744073709551616))).
Proof. intro s. right. split; reflexivity. Qed.

Lemma step_inner_instrs e : post_m (step_inner e).
Proof.
  unfold step_inner.
  apply post_bind_pres; [walk pres_db | intros _].
  apply post_bind_pres; [walk pres_db | intro s0].
  destruct (poll_all e (s_devs s0) (e_draws e) None) as [[ds i] dr].
  apply post_bind_pres; [walk pres_db | intros _]. cbv zeta.
  destruct i as [[v p|]|]; [destruct (psr_priority (s_psr s0) <? p)| |].
  1,3: apply post_of_pres; walk pres_db.
  all: repeat (apply post_bind_pres; [walk pres_db | intro]); apply post_incr.
Qed.

Lemma step_instrs e s s' r : step e s = (s', r) -> instrs_post s s' r.
Proof.
  rewrite step_eq. pose proof (step_inner_instrs e s) as H.
  destruct (step_inner e s) as [s1 r1]. cbn [fst snd] in H.
  destruct (if fl_real (s_flags s1) then redirect r1 else None) as [v|] eqn:R; intro E; [|inversion E; subst; exact H].
  left. rewrite (pres_run s_instrs _ s1 s' r (pres_instrs_handle_interrupt e v None) E).
  destruct H as [H|[-> _]]; [exact H|]. destruct (fl_real (s_flags s1)); discriminate R.
Qed.

Ltac sim_cbn := cbn [s_mem s_regs s_pc s_psr s_saved_sp s_frame_no s_frames s_sr_defns s_alloca s_instrs
                     s_prefetch s_obs s_mcr s_flags s_ireg s_devs upd_obs upd_mem upd_devs fst snd].

Lemma io_read_obs e a io s o : io_read e a io (upd_obs s o) = upd_obs (io_read e a io s) o.
Proof.
  unfold io_read. sim_cbn. destruct (assoc (s_ireg s) a) as [[]|]; try reflexivity.
  destruct (dev_read e (nth_dev (s_devs s) (port_dev a)) a io) as [d' [v|]]; reflexivity.
Qed.
Lemma io_write_obs e a d s o : io_write e a d (upd_obs s o) = (upd_obs (fst (io_write e a d s)) o, snd (io_write e a d s)).
Proof.
  unfold io_write. sim_cbn. destruct (assoc (s_ireg s) a) as [[]|]; try reflexivity.
  destruct (dev_write e (nth_dev (s_devs s) (port_dev a)) a d) as [d' ok]; reflexivity.
Qed.

Lemma oi_read_mem e a c : oi (read_mem e a c).
Proof.
  intros s o. rewrite !read_mem_eq. destruct (negb (c_priv c) && negb (in_user a)); [exists o; reflexivity|].
  unfold read_state. destruct (IO_START <=? a); rewrite ?io_read_obs; destruct (c_track c); eexists; reflexivity.
Qed.

Lemma oi_write_mem e a d c : oi (write_mem e a d c).
Proof.
  intros s o. rewrite !write_mem_eq. destruct (negb (c_priv c) && negb (in_user a)); [exists o; reflexivity|].
  unfold mark_write, put.
  destruct (IO_START <=? a); destruct (may_store d c); try (destruct (c_track c); eexists; reflexivity).
  rewrite io_write_obs. destruct (io_write e a (w_data d) s) as [s1 [|]]; cbn [fst snd]; destruct (c_track c); eexists; reflexivity.
Qed.
#[export] Hint Resolve oi_read_mem oi_write_mem : oi_db.

Lemma oi_set_cc r : oi (set_cc r).
Proof. unfold set_cc. walk oi_db. Qed.
Lemma oi_set_pc w b : oi (set_pc w b).
Proof. unfold set_pc. walk oi_db. Qed.
#[export] Hint Resolve oi_set_cc oi_set_pc : oi_db.
Lemma oi_offset_pc o b : oi (offset_pc o b).
Proof. unfold offset_pc. walk oi_db. Qed.
Lemma oi_push_frame a b ft : oi (push_frame a b ft).
Proof. intros s o. exists o. rewrite !push_frame_run. reflexivity. Qed.
Lemma oi_pop_frame : oi pop_frame.
Proof. unfold pop_frame. walk oi_db. Qed.
Lemma oi_swap_sp : oi swap_sp.
Proof. unfold swap_sp. walk oi_db. Qed.
#[export] Hint Resolve oi_offset_pc oi_push_frame oi_pop_frame oi_swap_sp : oi_db.
Lemma oi_call_subroutine a : oi (call_subroutine a).
Proof. unfold call_subroutine. walk oi_db. Qed.
Lemma oi_call_interrupt e v ft : oi (call_interrupt e v ft).
Proof. unfold call_interrupt. walk oi_db. Qed.
#[export] Hint Resolve oi_call_subroutine oi_call_interrupt : oi_db.
Lemma oi_handle_interrupt e v p : oi (handle_interrupt e v p).
Proof. unfold handle_interrupt. walk oi_db. Qed.
Lemma oi_set_reg_if_init dr v st : oi (set_reg_if_init dr v st).
Proof. unfold set_reg_if_init. walk oi_db. Qed.
#[export] Hint Resolve oi_handle_interrupt oi_set_reg_if_init : oi_db.
Lemma oi_exec e i : oi (exec e i).
Proof. unfold exec. walk oi_db. Qed.
Lemma oi_decode_m w : oi (decode_m w).
Proof. unfold decode_m. walk oi_db. Qed.
#[export] Hint Resolve oi_exec oi_decode_m : oi_db.
Lemma oi_step_inner e : oi (step_inner e).
Proof. unfold step_inner. walk oi_db. Qed.

Lemma step_obs e s o :
  exists o', step e (upd_obs s o) = (upd_obs (fst (step e s)) o', snd (step e s)).
Proof.
  rewrite !step_eq. destruct (oi_step_inner e s o) as [o1 E1]. rewrite E1.
  destruct (step_inner e s) as [s1 r1]. cbn [fst snd]. sim_cbn.
  destruct (if fl_real (s_flags s1) then redirect r1 else None) as [v|]; [apply oi_handle_interrupt|exists o1; reflexivity].
Qed.
