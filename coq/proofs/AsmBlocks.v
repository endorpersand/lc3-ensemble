(* AsmBlocks.v — the block map of pass 2 (a BTreeMap, here a list sorted by start address).
   [neighbour_check_complete]: on a map of non-empty, pairwise disjoint blocks, a non-empty block
   that overlaps neither its predecessor nor its successor entry overlaps no entry — the check at
   asm.rs:1136 is exactly sufficient. *)
From Coq Require Import ZArith List Bool Lia Permutation Sorted.
From Gen Require Import Constants.
From Model Require Import Tree Text Bits AsmAst Obj Assembler.
From Proofs Require Import AsmBase.
Import ListNotations.
Open Scope Z_scope.

Definition key_lt {V} (x y : Z * V) : Prop := fst x < fst y.
Definition ksorted {V} (m : list (Z * V)) : Prop := StronglySorted key_lt m.

Lemma ksorted_inv {V} (x : Z * V) m : ksorted (x :: m) -> ksorted m /\ forall y, In y m -> fst x < fst y.
Proof. intros H. apply StronglySorted_inv in H. rewrite Forall_forall in H. exact H. Qed.
Lemma ksorted_unique {V} (m : list (Z * V)) k v v' : ksorted m -> In (k, v) m -> In (k, v') m -> v = v'.
Proof.
  induction m as [|x m IH]; intros S H1 H2; [contradiction|].
  apply ksorted_inv in S. destruct S as [S F].
  destruct H1 as [H1|H1]; destruct H2 as [H2|H2].
  - congruence.
  - subst x. specialize (F _ H2). cbn in F. lia.
  - subst x. specialize (F _ H1). cbn in F. lia.
  - exact (IH S H1 H2).
Qed.

Lemma bt_ge_in {V} (m : list (Z * V)) k x : bt_ge k m = Some x -> In x m.
Proof.
  induction m as [|[k0 v0] m IH]; cbn [bt_ge]; [discriminate|]. destruct (k <=? k0); [intros [= <-]; left; reflexivity | intros H; right; exact (IH H)].
Qed.

Lemma bt_le_spec {V} (m : list (Z * V)) k : ksorted m ->
  match bt_le k m with
  | Some (k', v) => In (k', v) m /\ k' <= k /\ forall x, In x m -> fst x <= k -> fst x <= k'
  | None => forall x, In x m -> k < fst x
  end.
Proof.
  induction m as [|[k0 v0] m IH]; intros S; cbn [bt_le]; [intros x []|].
  apply ksorted_inv in S. destruct S as [S F]. specialize (IH S).
  destruct (k0 <=? k) eqn:E.
  - apply Z.leb_le in E. destruct (bt_le k m) as [[k1 v1]|].
    + destruct IH as [I1 [I2 I3]]. split; [right; exact I1|]. split; [exact I2|].
      intros x [<-|Hx] Hk; [|exact (I3 x Hx Hk)]. cbn. specialize (F _ I1). cbn in F. lia.
    + split; [left; reflexivity|]. split; [exact E|].
      intros x [<-|Hx] Hk; [cbn; lia|]. specialize (IH x Hx). lia.
  - apply Z.leb_gt in E. intros x [<-|Hx]; [cbn; lia|]. specialize (F _ Hx). cbn in F. lia.
Qed.
Lemma bt_ge_spec {V} (m : list (Z * V)) k : ksorted m ->
  match bt_ge k m with
  | Some (k', v) => In (k', v) m /\ k <= k' /\ forall x, In x m -> k <= fst x -> k' <= fst x
  | None => forall x, In x m -> fst x < k
  end.
Proof.
  induction m as [|[k0 v0] m IH]; intros S; cbn [bt_ge]; [intros x []|].
  apply ksorted_inv in S. destruct S as [S F]. specialize (IH S).
  destruct (k <=? k0) eqn:E.
  - apply Z.leb_le in E. split; [left; reflexivity|]. split; [exact E|].
    intros x [<-|Hx] Hk; [cbn; lia|]. specialize (F _ Hx). cbn in F. lia.
  - apply Z.leb_gt in E. destruct (bt_ge k m) as [[k' v]|].
    + destruct IH as [I1 [I2 I3]]. split; [right; exact I1|]. split; [exact I2|].
      intros x [<-|Hx] Hk; [cbn in Hk; lia|]. exact (I3 x Hx Hk).
    + intros x [<-|Hx]; [cbn; lia|]. exact (IH x Hx).
Qed.

(* [ob_range] without the wrap at 2^16; equal to it below the I/O page ([ob_range_ok]) *)
Definition rng (b : oblock) : Z * Z := (ob_start b, ob_start b + len (ob_words b)).
Definition block_ok (b : oblock) : Prop :=
  ob_words b <> [] /\ 0 <= ob_start b /\ ob_start b + len (ob_words b) <= asm.IO_START.

Lemma ob_range_ok b : block_ok b -> ob_range b = Some (rng b).
Proof.
  intros [_ [H1 H2]]. unfold asm.IO_START in H2. unfold ob_range, rng, wrap16. pose proof (len_nonneg (ob_words b)).
  rewrite Z.mod_small by lia. destruct (ob_start b + len (ob_words b) <? 65536) eqn:E; [reflexivity|lia].
Qed.

Definition map_inv (m : blockmap) : Prop :=
  ksorted m
  /\ (forall k b, In (k, b) m -> k = ob_start b /\ block_ok b)
  /\ (forall k b k' b', In (k, b) m -> In (k', b') m -> k <> k' -> ranges_overlap (rng b) (rng b') = false).

Lemma ranges_overlap_false a b : ranges_overlap a b = false <-> (snd b <= fst a \/ snd a <= fst b).
Proof. unfold ranges_overlap. destruct (fst a <? snd b) eqn:E1; destruct (fst b <? snd a) eqn:E2; cbn; split; intros H; try reflexivity; try discriminate; lia. Qed.

Lemma find_overlap_post blk cands :
  post (find_overlap blk cands) (fun r => forall b, r = Some b -> exists k, In (k, b) cands) (fun _ _ => False) True.
Proof.
  induction cands as [|[k0 b0] cands IH]; cbn [find_overlap post]; [discriminate|].
  destruct (ob_range blk) as [rb|]; [|exact Logic.I]. destruct (ob_range b0) as [r0|]; [|exact Logic.I].
  destruct (ranges_overlap rb r0); [intros b [= <-]; exists k0; left; reflexivity|].
  generalize IH. apply post_mono; [|auto|auto]. intros r H b E. destruct (H b E) as [k Hk]. exists k. right. exact Hk.
Qed.

Lemma find_overlap_find blk cands : block_ok blk -> (forall k b, In (k, b) cands -> block_ok b) ->
  find_overlap blk cands = AOk (option_map snd (find (fun kb => ranges_overlap (rng blk) (rng (snd kb))) cands)).
Proof.
  intros OK. induction cands as [|[k0 b0] cands IH]; intros HC; cbn [find_overlap find snd]; [reflexivity|].
  rewrite (ob_range_ok blk OK), (ob_range_ok b0 (HC k0 b0 (or_introl eq_refl))).
  destruct (ranges_overlap (rng blk) (rng b0)); [reflexivity|]. apply IH. intros k b Hb. exact (HC k b (or_intror Hb)).
Qed.

Definition neighbours (blk : oblock) (m : blockmap) : list (Z * oblock) :=
  opt_list (bt_le (ob_start blk) m) ++ opt_list (bt_ge (ob_start blk) m).

Lemma neighbours_in blk m x : In x (neighbours blk m) -> In x m.
Proof.
  unfold neighbours. intros H. apply in_app_or in H. destruct H as [H|H].
  - destruct (bt_le (ob_start blk) m) as [y|] eqn:E; [|contradiction]. destruct H as [<-|[]]. exact (proj1 (block_le_in _ _ _ E)).
  - destruct (bt_ge (ob_start blk) m) as [y|] eqn:E; [|contradiction]. destruct H as [<-|[]]. exact (bt_ge_in _ _ _ E).
Qed.

(* b' starts between blk and b: if blk does not reach b', it does not reach b *)
Lemma between_decides blk m k b k' b' :
  map_inv m -> block_ok blk -> In (k, b) m -> In (k', b') m ->
  (k <= k' <= ob_start blk \/ ob_start blk <= k' <= k) ->
  ranges_overlap (rng blk) (rng b') = false -> ranges_overlap (rng blk) (rng b) = false.
Proof.
  intros [S [OK DJ]] [NE _] Hb Hb' Hk HN.
  destruct (Z.eq_dec k k') as [->|Hne]; [rewrite (ksorted_unique m k' b b' S Hb Hb'); exact HN|].
  destruct (OK k b Hb) as [Ek [NEb _]]. destruct (OK k' b' Hb') as [Ek' [NEb' _]].
  pose proof (len_pos _ NE). pose proof (len_pos _ NEb). pose proof (len_pos _ NEb').
  pose proof (DJ k b k' b' Hb Hb' Hne) as D. apply ranges_overlap_false in D, HN. apply ranges_overlap_false.
  unfold rng in *. cbn [fst snd] in *. lia.
Qed.

Theorem neighbour_check_complete blk m :
  map_inv m -> block_ok blk ->
  (forall k b, In (k, b) (neighbours blk m) -> ranges_overlap (rng blk) (rng b) = false) ->
  forall k b, In (k, b) m -> ranges_overlap (rng blk) (rng b) = false.
Proof.
  intros MI BO HN k b Hb. pose proof MI as [S _].
  destruct (Z_le_gt_dec k (ob_start blk)) as [Hle|Hgt].
  - (* b starts at or before blk: the predecessor decides *)
    pose proof (bt_le_spec m (ob_start blk) S) as B. destruct (bt_le (ob_start blk) m) as [[k' b']|] eqn:E.
    + destruct B as [I1 [I2 I3]]. pose proof (I3 (k, b) Hb Hle) as Hkk. cbn in Hkk.
      apply (between_decides blk m k b k' b' MI BO Hb I1); [left; lia|].
      apply (HN k' b'). unfold neighbours. rewrite E. left. reflexivity.
    + pose proof (B (k, b) Hb) as F. cbn in F. lia.
  - (* b starts after blk: the successor decides *)
    pose proof (bt_ge_spec m (ob_start blk) S) as B. destruct (bt_ge (ob_start blk) m) as [[k' b']|] eqn:E.
    + destruct B as [I1 [I2 I3]]. assert (Hkk : k' <= k) by (apply (I3 (k, b) Hb); cbn; lia).
      apply (between_decides blk m k b k' b' MI BO Hb I1); [right; lia|].
      apply (HN k' b'). unfold neighbours. rewrite E. apply in_or_app. right. left. reflexivity.
    + pose proof (B (k, b) Hb) as F. cbn in F. lia.
Qed.

Lemma map_inv_insert blk m :
  map_inv m -> block_ok blk ->
  (forall k b, In (k, b) m -> ranges_overlap (rng blk) (rng b) = false) ->
  map_inv (bt_insert (ob_start blk) blk m) /\ Permutation (bt_insert (ob_start blk) blk m) ((ob_start blk, blk) :: m).
Proof.
  intros [S [OK DJ]] BO NO.
  assert (FR : forall x, In x m -> fst x <> ob_start blk).
  { intros [k b] Hb E. cbn in E. subst k. destruct (OK _ b Hb) as [Ek [NEb [Bb0 Bb1]]].
    destruct BO as [NE [B0 B1]]. pose proof (len_pos _ NE). pose proof (len_pos _ NEb).
    pose proof (NO _ b Hb) as D. apply ranges_overlap_false in D. unfold rng in D. cbn [fst snd] in D. lia. }
  pose proof (bt_insert_sorted (ob_start blk) blk m S) as S'.
  assert (P : Permutation (bt_insert (ob_start blk) blk m) ((ob_start blk, blk) :: m)).
  { apply bt_insert_perm. intros H. apply in_map_iff in H as (x & E & Hx). exact (FR x Hx E). }
  split; [|exact P].
  split; [exact S'|]. split.
  - intros k b Hb. apply (Permutation_in _ P) in Hb. destruct Hb as [Hb|Hb]; [injection Hb as <- <-; split; [reflexivity|exact BO] | exact (OK k b Hb)].
  - intros k b k' b' Hb Hb' Hne. apply (Permutation_in _ P) in Hb, Hb'.
    destruct Hb as [Hb|Hb]; destruct Hb' as [Hb'|Hb'].
    + injection Hb as <- <-. injection Hb' as <- <-. congruence.
    + injection Hb as <- <-. exact (NO k' b' Hb').
    + injection Hb' as <- <-. pose proof (NO k b Hb) as D. apply ranges_overlap_false in D. apply ranges_overlap_false. lia.
    + exact (DJ k b k' b' Hb Hb' Hne).
Qed.
