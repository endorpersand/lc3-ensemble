(* LinkSyms.v — the symbol-table half of the linker model (model/Link.v): the relocation map and
   the label-map merge, one iteration (merge_step) and the whole loop by its outcome (merge_post). *)
From Coq Require Import ZArith List Bool Lia.
From Model Require Import Tree Bits Text SourceInfo Obj Link.
From Proofs Require Import ListFacts TextFacts.
From Proofs Require Export KeyMaps.
Import ListNotations.
Open Scope Z_scope.

Lemma lookup_cons {V} n k (v : V) l : lookup n ((k, v) :: l) = if str_eqb n k then Some v else lookup n l.
Proof. reflexivity. Qed.
Lemma lookup_replace_key {V} n k (v : V) l :
  lookup n (replace_key k v l) =
  if str_eqb n k then match lookup k l with Some _ => Some v | None => None end else lookup n l.
Proof.
  induction l as [|(k', v') r IH]; cbn.
  - destruct (str_eqb n k); reflexivity.
  - destruct (str_eqb_spec k k') as [<-|E1]; cbn; [destruct (str_eqb n k); reflexivity|].
    rewrite IH. destruct (str_eqb_spec n k') as [->|E2]; [|reflexivity].
    rewrite (proj2 (str_eqb_neq k' k)) by congruence. reflexivity.
Qed.
Lemma replace_key_keys {V} k (v : V) l : map fst (replace_key k v l) = map fst l.
Proof.
  induction l as [|(k', v') r IH]; cbn; [reflexivity|].
  destruct (str_eqb k k'); cbn; [reflexivity|]. rewrite IH. reflexivity.
Qed.
Lemma replace_key_in {V} k (v : V) l x : In x (replace_key k v l) -> In x l \/ x = (k, v).
Proof.
  induction l as [|(k', v') r IH]; cbn; [tauto|]. destruct (str_eqb_spec k k') as [<-|E]; cbn.
  - intros [H|H]; auto.
  - intros [H|H]; auto. destruct (IH H); auto.
Qed.

Lemma nodup_str_iff l : nodup_str l = true <-> NoDup l.
Proof.
  induction l as [|x r IH]; cbn [nodup_str]; [split; [constructor|reflexivity]|].
  rewrite andb_true_iff, negb_true_iff, IH, NoDup_cons_iff, <- (existsb_eqb str_eqb str_eqb_eq), not_true_iff_false.
  reflexivity.
Qed.
Lemma nodup_z_iff l : nodup_z l = true <-> NoDup l.
Proof.
  induction l as [|x r IH]; cbn [nodup_z]; [split; [constructor|reflexivity]|].
  rewrite andb_true_iff, negb_true_iff, IH, NoDup_cons_iff, <- (existsb_eqb Z.eqb Z.eqb_eq), not_true_iff_false.
  reflexivity.
Qed.

Fixpoint rel_find (a : Z) (l : list (Z * str)) : option str :=
  match l with [] => None | (k, v) :: r => if k =? a then Some v else rel_find a r end.

Lemma rel_find_none a l : rel_find a l = None <-> ~ In a (map fst l).
Proof.
  induction l as [|(k, v) r IH]; cbn; [tauto|].
  destruct (Z.eqb_spec k a) as [->|E].
  - split; [discriminate|]. intro H. exfalso. apply H. auto.
  - rewrite IH. split; [intros H [K|K]; [congruence|auto]|auto].
Qed.
Lemma rel_find_in a l n : rel_find a l = Some n -> In (a, n) l.
Proof.
  induction l as [|(k, v) r IH]; cbn; [discriminate|].
  destruct (Z.eqb_spec k a) as [->|E]; [|auto]. intro H. inversion H. auto.
Qed.
Lemma in_rel_find a l n : NoDup (map fst l) -> In (a, n) l -> rel_find a l = Some n.
Proof.
  induction l as [|(k, v) r IH]; cbn; intros Hn Hin; [contradiction|].
  inversion Hn as [|? ? Hk Hr]; subst. destruct Hin as [E|Hin].
  - inversion E; subst. rewrite Z.eqb_refl. reflexivity.
  - destruct (Z.eqb_spec k a) as [->|E]; [|auto]. exfalso. apply Hk.
    apply (in_map fst) in Hin. exact Hin.
Qed.

Lemma rel_find_put a k v l : rel_find a (rel_put k v l) = if k =? a then Some v else rel_find a l.
Proof.
  induction l as [|(k', v') r IH]; cbn; [reflexivity|].
  destruct (Z.eqb_spec k k') as [<-|E]; cbn; [destruct (k =? a); reflexivity|].
  rewrite IH. destruct (Z.eqb_spec k' a) as [<-|E2]; [|reflexivity].
  rewrite (proj2 (Z.eqb_neq k k')) by exact E. reflexivity.
Qed.
Lemma rel_put_keys k v l : NoDup (map fst l) -> NoDup (map fst (rel_put k v l)).
Proof.
  induction l as [|(k', v') r IH]; cbn; intro H.
  - constructor; [intros []|constructor].
  - inversion H as [|? ? Hk Hr]; subst. destruct (Z.eqb_spec k k') as [<-|E]; cbn; [constructor; assumption|].
    constructor; [|auto]. rewrite <- rel_find_none in *. rewrite rel_find_put.
    rewrite (proj2 (Z.eqb_neq k k')) by exact E. exact Hk.
Qed.
Lemma rel_extend_find a x y : NoDup (map fst y) ->
  rel_find a (rel_extend x y) = match rel_find a y with Some n => Some n | None => rel_find a x end.
Proof.
  unfold rel_extend. revert x. induction y as [|(k, v) y IH]; intros x Hn; cbn; [reflexivity|].
  inversion Hn as [|? ? Hk Hy]; subst. rewrite (IH _ Hy), rel_find_put.
  destruct (Z.eqb_spec k a) as [<-|E]; [|reflexivity].
  rewrite (proj2 (rel_find_none k y) Hk). reflexivity.
Qed.
Lemma rel_extend_keys x y : NoDup (map fst x) -> NoDup (map fst (rel_extend x y)).
Proof.
  unfold rel_extend. revert x. induction y as [|(k, v) y IH]; intros x Hn; cbn; [assumption|].
  apply IH. apply rel_put_keys. assumption.
Qed.

Lemma rel_find_filter P a l : NoDup (map fst l) ->
  rel_find a (filter P l) = match rel_find a l with Some n => if P (a, n) then Some n else None | None => None end.
Proof.
  induction l as [|(k, v) r IH]; cbn; intro H; [reflexivity|]. inversion H as [|? ? Hk Hr]; subst.
  destruct (Z.eqb_spec k a) as [->|E].
  - destruct (P (a, v)) eqn:EP; cbn; [rewrite Z.eqb_refl; reflexivity|].
    rewrite (IH Hr), (proj2 (rel_find_none a r) Hk). reflexivity.
  - destruct (P (k, v)); cbn; [rewrite (proj2 (Z.eqb_neq k a)) by exact E|]; apply IH; assumption.
Qed.

Definition LblAgree (al bl : list (str * symdata)) : Prop :=
  forall n ad bd, lookup n al = Some ad -> lookup n bl = Some bd ->
    sd_external ad = false -> sd_external bd = false -> sd_addr ad = sd_addr bd.

Definition mrule (x y : option symdata) : option symdata :=
  match x, y with
  | None, _ => y
  | _, None => x
  | Some ad, Some bd => if sd_external ad && negb (sd_external bd) then Some bd else Some ad
  end.
(* entry bd of the second file resolves the name: exactly one side is external *)
Definition entry_res (x : option symdata) (bd : symdata) : bool :=
  match x with Some ad => xorb (sd_external ad) (sd_external bd) | None => false end.
Definition entry_target (x : option symdata) (bd : symdata) : Z :=
  match x with Some ad => if sd_external ad then sd_addr bd else sd_addr ad | None => 0 end.
Definition resolvedb (al bl : list (str * symdata)) (n : str) : bool :=
  match lookup n bl with Some bd => entry_res (lookup n al) bd | None => false end.
Definition target (al bl : list (str * symdata)) (n : str) : Z :=
  match lookup n bl with Some bd => entry_target (lookup n al) bd | None => 0 end.

(* One iteration: both sides define the name at different addresses and the loop stops, or it goes
   on with the merged entry in al'; if the entry resolves the name, the relocation entries waiting
   for it become sites to patch.  The last clause is this name's share of [LblAgree]. *)
Lemma merge_step name bd r al rel q :
  let res := entry_res (lookup name al) bd in
  (exists ad, lookup name al = Some ad /\ sd_external ad = false /\ sd_external bd = false /\
     sd_addr ad <> sd_addr bd /\
     merge_labels ((name, bd) :: r) al rel q =
     match sym_span ad name, sym_span bd name with Some sa, Some sb => MErr [sa; sb] | _, _ => MPanic end) \/
  (exists al',
     merge_labels ((name, bd) :: r) al rel q =
       merge_labels r al' (filter (fun p => negb (res && str_eqb (snd p) name)) rel)
         (q ++ map (fun p => (fst p, entry_target (lookup name al) bd)) (filter (fun p => res && str_eqb (snd p) name) rel)) /\
     (forall n, lookup n al' = if str_eqb n name then mrule (lookup name al) (Some bd) else lookup n al) /\
     (NoDup (map fst al) -> NoDup (map fst al')) /\
     (forall e, In e al' -> In e al \/ e = (name, bd)) /\
     (forall ad, lookup name al = Some ad -> sd_external ad = false -> sd_external bd = false ->
        sd_addr ad = sd_addr bd)).
Proof.
  intro res. subst res.
  (* an entry that resolves nothing leaves the relocation map and the sites alone *)
  assert (Idle : forall al' tg, merge_labels r al' rel q =
            merge_labels r al' (filter (fun p => negb (false && str_eqb (snd p) name)) rel)
              (q ++ map (fun p => (fst p, tg)) (filter (fun p => false && str_eqb (snd p) name) rel))).
  { intros al' tg. cbn [andb negb]. rewrite !filter_const, app_nil_r. reflexivity. }
  cbn [merge_labels]. destruct (lookup name al) as [ad|] eqn:Ea.
  - assert (Keep : mrule (Some ad) (Some bd) = Some ad ->
              (sd_external ad = false -> sd_external bd = false -> sd_addr ad = sd_addr bd) ->
              (forall n, lookup n al = if str_eqb n name then mrule (Some ad) (Some bd) else lookup n al) /\
              (NoDup (map fst al) -> NoDup (map fst al)) /\ (forall e, In e al -> In e al \/ e = (name, bd)) /\
              (forall ad0, Some ad = Some ad0 -> sd_external ad0 = false -> sd_external bd = false ->
                 sd_addr ad0 = sd_addr bd)).
    { intros -> NC. split; [|split; [auto|split; [auto|]]].
      - intro n. destruct (str_eqb_spec n name) as [->|]; auto.
      - intros ad0 [= <-]. exact NC. }
    assert (Same : replace_key name ad al = al).
    { clear Keep. induction al as [|(k, v) l IH]; [reflexivity|]. cbn in *.
      destruct (str_eqb_spec name k) as [<-|]; [congruence|]. rewrite IH; auto. }
    cbn [entry_res entry_target].
    destruct (sd_external ad) eqn:Xa, (sd_external bd) eqn:Xb; cbn [xorb].
    + right. exists al. split; [apply Idle|]. apply Keep; [cbn; rewrite Xa, Xb; reflexivity|congruence].
    + right. exists (replace_key name bd al). split; [reflexivity|]. split; [|split; [|split]].
      * intro n. rewrite lookup_replace_key, Ea. cbn. rewrite Xa, Xb. reflexivity.
      * rewrite replace_key_keys. auto.
      * apply replace_key_in.
      * congruence.
    + right. exists al. rewrite Same. split; [reflexivity|]. apply Keep; [cbn; rewrite Xa; reflexivity|congruence].
    + destruct (Z.eqb_spec (sd_addr ad) (sd_addr bd)) as [E|E].
      * right. exists al. split; [apply Idle|]. apply Keep; [cbn; rewrite Xa; reflexivity|congruence].
      * left. exists ad. auto.
  - right. exists ((name, bd) :: al). split; [apply Idle|]. split; [|split; [|split]].
    + intro n. apply lookup_cons.
    + intro H. cbn. constructor; [apply lookup_none; exact Ea|exact H].
    + intros e [<-|H]; auto.
    + discriminate.
Qed.

(* the usize `+` in `SymbolData::span` does not overflow; [span_fits] of LinkProofs.v as a disequation *)
Definition span_some (p : str * symdata) : Prop := sym_span (snd p) (fst p) <> None.

(* [resolvedb] and [target] look at the initial [al]: a name occurs once in [bl], so the entry of a
   later name is still the one [al] had *)
Record merged (al bl : list (str * symdata)) (rel : list (Z * str)) (q : list (Z * Z))
              (Ls : list (str * symdata)) (Rs : list (Z * str)) (Qs : list (Z * Z)) : Prop := {
  mg_agree : LblAgree al bl;
  mg_lookup : forall n, lookup n Ls = mrule (lookup n al) (lookup n bl);
  mg_nodup : NoDup (map fst al) -> NoDup (map fst Ls);
  mg_from : forall e, In e Ls -> In e al \/ In e bl;
  mg_rel : Rs = filter (fun p => negb (resolvedb al bl (snd p))) rel;
  mg_sites : exists Q', Qs = q ++ Q' /\
               forall a t, In (a, t) Q' <-> exists n, In (a, n) rel /\ resolvedb al bl n = true /\ t = target al bl n
}.

Lemma merge_post bl : NoDup (map fst bl) -> forall al rel q,
  match merge_labels bl al rel q with
  | MOk Ls Rs Qs => merged al bl rel q Ls Rs Qs
  | MErr _ => ~ LblAgree al bl
  | MPanic => ~ LblAgree al bl /\ ~ (Forall span_some al /\ Forall span_some bl)
  end.
Proof.
  induction bl as [|(name, bd) r IH]; intros Hnd al rel q.
  - cbn. constructor; auto.
    + intros n ad bd0 _ Hb. discriminate.
    + intro n. destruct (lookup n al); reflexivity.
    + symmetry. exact (filter_const true rel).
    + exists []. split; [rewrite app_nil_r; reflexivity|]. intros a t. split; [intros []|]. intros (n & _ & Hr & _). discriminate.
  - inversion Hnd as [|? ? Hname Hr']; subst.
    assert (Lr : lookup name r = None) by (apply lookup_none; exact Hname).
    assert (Hd : lookup name ((name, bd) :: r) = Some bd) by (rewrite lookup_cons, str_eqb_refl; reflexivity).
    destruct (merge_step name bd r al rel q) as [(ad & Ea & Xa & Xb & Ne & E)|(al' & E & Lk & Nd & Hin & NC)]; rewrite E; clear E.
    + assert (NA : ~ LblAgree al ((name, bd) :: r)) by (intro Hc; exact (Ne (Hc name ad bd Ea Hd Xa Xb))).
      destruct (sym_span ad name) as [sa|] eqn:Sa, (sym_span bd name) as [sb|] eqn:Sb; [exact NA|split; [exact NA|]..];
        intros (Fa & Fb); inversion Fb as [|? ? Fbd _]; subst;
        rewrite Forall_forall in Fa; pose proof (Fa _ (lookup_in _ _ _ Ea)) as Fad; first [exact (Fbd Sb)|exact (Fad Sa)].
    + set (res := entry_res (lookup name al) bd) in *. set (tg := entry_target (lookup name al) bd) in *.
      specialize (IH Hr' al' (filter (fun p => negb (res && str_eqb (snd p) name)) rel)
                     (q ++ map (fun p => (fst p, tg)) (filter (fun p => res && str_eqb (snd p) name) rel))).
      (* al agrees with the whole list iff it agrees on name (NC) and al' agrees with the rest *)
      assert (Ag : LblAgree al ((name, bd) :: r) <-> LblAgree al' r).
      { split; intros Hc n ad0 bd0 Ha Hb.
        - rewrite Lk in Ha. destruct (str_eqb_spec n name) as [->|Nn]; [congruence|].
          apply (Hc n); [exact Ha|]. rewrite lookup_cons, (proj2 (str_eqb_neq n name) Nn). exact Hb.
        - rewrite lookup_cons in Hb. destruct (str_eqb_spec n name) as [->|Nn]; [injection Hb as <-; exact (NC _ Ha)|].
          apply (Hc n); [|exact Hb]. rewrite Lk, (proj2 (str_eqb_neq n name) Nn). exact Ha. }
      destruct (merge_labels r al' _ _) as [Ls Rs Qs|sp|]; [|rewrite Ag; exact IH|rewrite Ag].
      2:{ destruct IH as (I0 & I1). split; [exact I0|]. intros (Fa & Fb). apply I1. inversion Fb as [|? ? Fbd Fr]; subst. split; [|exact Fr].
          rewrite Forall_forall in *. intros e He. destruct (Hin e He) as [K| ->]; auto. }
      destruct IH as [Agr Look Nod Orig Rel (Q' & Qeq & Sites)].
      assert (Res : forall n, resolvedb al ((name, bd) :: r) n = if str_eqb n name then res else resolvedb al' r n).
      { intro n. unfold resolvedb. rewrite lookup_cons, Lk. destruct (str_eqb_spec n name) as [->|]; reflexivity. }
      assert (Tg : forall n, target al ((name, bd) :: r) n = if str_eqb n name then tg else target al' r n).
      { intro n. unfold target. rewrite lookup_cons, Lk. destruct (str_eqb_spec n name) as [->|]; reflexivity. }
      assert (Nr : resolvedb al' r name = false) by (unfold resolvedb; rewrite Lr; reflexivity).
      constructor; [apply Ag; exact Agr| |auto|..].
      * intro n. rewrite Look, Lk, lookup_cons. destruct (str_eqb_spec n name) as [->|]; [|reflexivity].
        rewrite Lr. destruct (mrule (lookup name al) (Some bd)); reflexivity.
      * intros e He. destruct (Orig e He) as [K|K]; [destruct (Hin e K) as [K'| ->]|]; cbn; auto.
      * rewrite Rel, filter_filter. apply filter_ext. intro p. rewrite Res.
        destruct (str_eqb_spec (snd p) name) as [->|]; [rewrite Nr|]; destruct res; reflexivity.
      * exists (map (fun p => (fst p, tg)) (filter (fun p => res && str_eqb (snd p) name) rel) ++ Q').
        split; [rewrite Qeq, app_assoc; reflexivity|].
        intros a t. rewrite in_app_iff, Sites, in_map_iff. split.
        -- intros [((a0, n0) & [= <- <-] & Hi)|(n & H1 & H2 & H3)].
           ++ apply filter_In in Hi. destruct Hi as (Hi & En). cbn in En. apply andb_true_iff in En. destruct En as (Er & En).
              apply str_eqb_eq in En. subst n0. exists name. rewrite Res, Tg, str_eqb_refl. auto.
           ++ apply filter_In in H1. destruct H1 as (H1 & _). exists n. rewrite Res, Tg.
              destruct (str_eqb_spec n name) as [->|]; [congruence|auto].
        -- intros (n & H1 & H2 & H3). rewrite Res in H2. rewrite Tg in H3.
           destruct (str_eqb n name) eqn:En.
           ++ left. exists (a, n). split; [cbn; congruence|]. apply filter_In. cbn. rewrite H2, En. auto.
           ++ right. exists n. split; [|auto]. apply filter_In. cbn. rewrite En, andb_false_r. auto.
Qed.

Lemma merge_labels_err bl : forall al rel relocs sp, merge_labels bl al rel relocs = MErr sp ->
  exists n ad bd sa sb, sp = [sa; sb] /\ sym_span ad n = Some sa /\ sym_span bd n = Some sb.
Proof.
  induction bl as [|(name, bd) r IH]; intros al rel relocs sp H; [discriminate|].
  destruct (merge_step name bd r al rel relocs) as [(ad & _ & _ & _ & _ & E)|(al' & E & _)]; rewrite E in H.
  - destruct (sym_span ad name) as [sa|] eqn:Sa, (sym_span bd name) as [sb|] eqn:Sb; try discriminate.
    injection H as <-. exists name, ad, bd, sa, sb. auto.
  - eauto.
Qed.
