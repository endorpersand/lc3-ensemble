(* SimAccess.v — facts about the primitives of the model.  Registers; memory access: the closed
   forms of permitted plain, denied and unprivileged accesses (C09), the fields no access changes, the access
   observer (C28); the PC update as readings of [set_pc_eq]; the frame stack (C27). *)
From Coq Require Import ZArith List Bool Lia FMapPositive.
From Gen Require Import Constants.
From Model Require Import Tree Bits Word Instr Sim.
From Proofs Require Import SimHoare.
From Proofs Require Export WordProofs.
Import ListNotations.
Open Scope Z_scope.

Lemma set_if_init_new d st : set_if_init (new_init d) st = Some (new_init d).
Proof. unfold set_if_init, new_init, is_init. cbn [w_init]. rewrite Z.eqb_refl, orb_true_r. reflexivity. Qed.

Lemma nth_set_nth_same {A} (l : list A) : forall n x d, (n < length l)%nat -> nth n (set_nth l n x) d = x.
Proof.
  induction l as [|h t IH]; intros [|n] x d H; cbn [set_nth nth length] in *; try lia; [reflexivity|].
  apply IH. lia.
Qed.
Lemma nth_set_nth_other {A} (l : list A) : forall n k x d, n <> k -> nth k (set_nth l n x) d = nth k l d.
Proof.
  induction l as [|h t IH]; intros [|n] [|k] x d H; cbn [set_nth nth]; try reflexivity; try congruence.
  apply IH. congruence.
Qed.
Lemma set_nth_twice {A} (l : list A) : forall n x y, set_nth (set_nth l n x) n y = set_nth l n y.
Proof. induction l as [|h t IH]; intros [|n] x y; cbn [set_nth]; try reflexivity. rewrite IH. reflexivity. Qed.
Lemma rget_rset_same rs r w : length rs = 8%nat -> 0 <= r < 8 -> rget (rset rs r w) r = w.
Proof. intros L H. unfold rget, rset. apply nth_set_nth_same. lia. Qed.
Lemma rget_rset_other rs r k w : 0 <= r -> 0 <= k -> r <> k -> rget (rset rs r w) k = rget rs k.
Proof. intros. unfold rget, rset. apply nth_set_nth_other. lia. Qed.

Lemma rget_rset rs a b v : 0 <= a -> (Z.to_nat a < length rs)%nat -> 0 <= b ->
  rget (rset rs a v) b = if a =? b then v else rget rs b.
Proof.
  intros Ha Hl Hb. destruct (Z.eqb_spec a b) as [<-|Hne]; [apply nth_set_nth_same | apply rget_rset_other]; assumption.
Qed.

Lemma bind_inl {A B} (m : M A) (k : A -> M B) s s' r :
  bind m k s = (s', inl r) -> exists s1 a, m s = (s1, inl a) /\ k a s1 = (s', inl r).
Proof. rewrite run_bind. destruct (m s) as [s1 [a|b]]; [|discriminate]. intros E. exists s1, a. auto. Qed.
Lemma get_if_init_inl {B} w st x (k : Z -> M B) s s' r :
  bind (of_opt (get_if_init w st) x) k s = (s', inl r) -> k (w_data w) s = (s', inl r).
Proof. unfold get_if_init. destruct (negb st || is_init w); [exact (fun E => E)|discriminate]. Qed.

Lemma hi_of_opt_any {A} (I : sim -> Prop) (o : option A) x : hoareI I (of_opt o x) anyv anyv.
Proof. apply hi_of_opt; intros; exact Logic.I. Qed.
#[export] Hint Resolve hi_of_opt_any : hoare.

Lemma in_user_below_io a : in_user a = true -> (IO_START <=? a) = false.
Proof. unfold in_user. intros H. apply andb_prop in H. destruct H as [_ H]. apply Z.ltb_lt in H. apply Z.leb_gt. exact H. Qed.
Lemma in_user_range a : in_user a = true -> 12288 <= a < 65024.
Proof. unfold in_user, USER_START, IO_START, sim.USER_START, sim.IO_START. intros H. apply andb_prop in H. destruct H as [H1 H2]. apply Z.leb_le in H1. apply Z.ltb_lt in H2. lia. Qed.

Lemma in_user_nonneg a : in_user a = true -> 0 <= a.
Proof. intros H. apply in_user_range in H. lia. Qed.

Lemma read_mem_plain e a c s :
  negb (c_priv c) && negb (in_user a) = false -> (IO_START <=? a) = false ->
  read_mem e a c s = ((if c_track c then upd_obs s (obs_update (s_obs s) a OBS_READ) else s), inl (mget (s_mem s) a)).
Proof. intros P IO. rewrite read_mem_eq, P. unfold read_state. rewrite IO. destruct (c_track c); reflexivity. Qed.

Lemma read_mem_ok_plain e a c s s1 w : read_mem e a c s = (s1, inl w) -> (IO_START <=? a) = false ->
  s_mem s1 = s_mem s /\ w = mget (s_mem s) a.
Proof.
  rewrite read_mem_eq. destruct (negb (c_priv c) && negb (in_user a)); [discriminate|]. unfold read_state.
  intros E IO. rewrite IO in E. inversion E. destruct (c_track c); split; reflexivity.
Qed.

Lemma write_mem_plain e a w c s :
  negb (c_priv c) && negb (in_user a) = false -> (IO_START <=? a) = false ->
  write_mem e a w c s =
  let s2 := if c_track c
            then upd_obs s (let o := obs_update (s_obs s) a OBS_WRITTEN in
                            if word_eqb (mget (s_mem s) a) w then o else obs_update o a OBS_MODIFIED)
            else s in
  match set_if_init w (c_strict c) with
  | Some w' => (upd_mem s2 (mset (s_mem s2) a w'), inl tt)
  | None => (s2, inr (BErr StrictMemSetUninit))
  end.
Proof.
  intros P IO. rewrite write_mem_eq, P, IO. unfold may_store, set_if_init, mark_write, put.
  destruct (negb (c_strict c) || is_init w); destruct (c_track c); try destruct (word_eqb (mget (s_mem s) a) w); reflexivity.
Qed.

Lemma read_denied e a c s : c_priv c = false -> in_user a = false ->
  read_mem e a c s = (s, inr (BErr AccessViolation)).
Proof. intros P U. rewrite read_mem_eq, P, U. reflexivity. Qed.
Lemma write_denied e a w c s : c_priv c = false -> in_user a = false ->
  write_mem e a w c s = (s, inr (BErr AccessViolation)).
Proof. intros P U. rewrite write_mem_eq, P, U. reflexivity. Qed.

Definition user_mode (s : sim) : Prop := psr_privileged (s_psr s) = false /\ fl_ignore_priv (s_flags s) = false.
Lemma user_ctx s : user_mode s -> c_priv (default_ctx s) = false.
Proof. intros [P I]. unfold default_ctx. cbn [c_priv]. rewrite P, I. reflexivity. Qed.

Lemma read_user e a c s : c_priv c = false -> in_user a = true ->
  read_mem e a c s = ((if c_track c then upd_obs s (obs_update (s_obs s) a OBS_READ) else s),
                      inl (mget (s_mem s) a)).
Proof. intros P U. apply read_mem_plain; [rewrite U; apply andb_false_r|apply in_user_below_io, U]. Qed.
Lemma write_user e a w c s : c_priv c = false -> in_user a = true ->
  exists s', write_mem e a w c s = (s', match set_if_init w (c_strict c) with Some _ => inl tt | None => inr (BErr StrictMemSetUninit) end)
    /\ s_regs s' = s_regs s /\ s_pc s' = s_pc s /\ s_psr s' = s_psr s /\ s_devs s' = s_devs s
    /\ s_saved_sp s' = s_saved_sp s /\ s_mcr s' = s_mcr s
    /\ (forall b, 0 <= b -> b <> a -> mget (s_mem s') b = mget (s_mem s) b).
Proof.
  intros P U. rewrite write_mem_plain by (rewrite ?U; auto using andb_false_r, in_user_below_io). cbv zeta.
  pose proof (in_user_nonneg a U) as Ha.
  destruct (set_if_init w (c_strict c)) as [w'|]; destruct (c_track c); eexists; (split; [reflexivity|]); repeat split;
    intros b Hb Hne; cbn [s_mem upd_mem upd_obs]; apply mget_mset_other; auto.
Qed.

(* Device registers map to PC, PSR, MCR and the saved SP, so a write may change those; the register
   file, the frame stack and the bookkeeping fields are out of reach of every access. *)
Record kept (s t : sim) : Prop := {
  kp_regs : s_regs t = s_regs s;
  kp_frame_no : s_frame_no t = s_frame_no s;
  kp_frames : s_frames t = s_frames s;
  kp_sr_defns : s_sr_defns t = s_sr_defns s;
  kp_alloca : s_alloca t = s_alloca s;
  kp_instrs : s_instrs t = s_instrs s;
  kp_prefetch : s_prefetch t = s_prefetch s;
  kp_flags : s_flags t = s_flags s;
  kp_ireg : s_ireg t = s_ireg s }.

Lemma read_mem_kept e a c s s1 r : read_mem e a c s = (s1, r) ->
  kept s s1 /\ s_pc s1 = s_pc s /\ s_psr s1 = s_psr s /\ s_saved_sp s1 = s_saved_sp s /\ s_mcr s1 = s_mcr s.
Proof.
  intros E. replace s1 with (fst (read_mem e a c s)) by (rewrite E; reflexivity).
  repeat split; apply read_mem_keeps_field; reflexivity.
Qed.
Lemma write_mem_kept e a w c s s1 r : write_mem e a w c s = (s1, r) -> kept s s1.
Proof.
  intros E. replace s1 with (fst (write_mem e a w c s)) by (rewrite E; reflexivity).
  split; apply write_mem_keeps_field; try reflexivity; intros s0 []; reflexivity.
Qed.

Fixpoint obs_get (o : list (Z * Z)) (a : Z) : Z :=
  match o with [] => 0 | (a', f) :: r => if a =? a' then f else obs_get r a end.

Fixpoint all_gt (x : Z) (o : list (Z * Z)) : Prop :=
  match o with [] => True | (a, _) :: r => x < a /\ all_gt x r end.
Fixpoint sorted_obs (o : list (Z * Z)) : Prop :=
  match o with [] => True | (a, _) :: r => all_gt a r /\ sorted_obs r end.

Lemma all_gt_trans x y o : x < y -> all_gt y o -> all_gt x o.
Proof. induction o as [|[a f] r IH]; cbn; [auto|]. intros H [H1 H2]. split; [lia|auto]. Qed.
Lemma get_all_gt a o : all_gt a o -> obs_get o a = 0.
Proof.
  induction o as [|[a' f'] r IH]; cbn; [reflexivity|]. intros [H1 H2].
  destruct (Z.eqb_spec a a'); [lia|auto].
Qed.
Lemma update_all_gt x o a f : all_gt x o -> x < a -> all_gt x (obs_update o a f).
Proof.
  induction o as [|[a' f'] r IH]; cbn [obs_update all_gt]; intros H Hx; [auto|].
  destruct H as [H1 H2]. destruct (a =? a'); [cbn; auto|]. destruct (a <? a'); cbn; auto.
Qed.
Lemma sorted_update o a f : sorted_obs o -> sorted_obs (obs_update o a f).
Proof.
  induction o as [|[a' f'] r IH]; cbn [obs_update sorted_obs]; intros H; [cbn; auto|].
  destruct H as [H1 H2]. destruct (Z.eqb_spec a a') as [->|Hne]; [cbn; auto|].
  destruct (Z.ltb_spec a a').
  - cbn. repeat split; auto. eapply all_gt_trans; eauto.
  - cbn. split; [apply update_all_gt; [auto|lia] | auto].
Qed.

Lemma obs_get_update o a f b : sorted_obs o ->
  obs_get (obs_update o a f) b = if b =? a then Z.lor (obs_get o a) f else obs_get o b.
Proof.
  induction o as [|[a' f'] r IH]; cbn [obs_update obs_get sorted_obs]; intros S.
  - destruct (b =? a); reflexivity.
  - destruct S as [S1 S2]. destruct (Z.eqb_spec a a') as [->|Hne].
    + cbn [obs_get]. destruct (b =? a'); reflexivity.
    + destruct (Z.ltb_spec a a').
      * cbn [obs_get]. destruct (Z.eqb_spec b a) as [E|Hb]; [|reflexivity].
        destruct (Z.eqb_spec a a'); [contradiction|].
        rewrite (get_all_gt a r) by (eapply all_gt_trans; eauto). reflexivity.
      * cbn [obs_get]. rewrite IH by exact S2. destruct (Z.eqb_spec b a') as [E|Hb].
        -- rewrite E. destruct (Z.eqb_spec a' a); [congruence|reflexivity].
        -- reflexivity.
Qed.

Lemma read_obs e a c s :
  s_obs (fst (read_mem e a c s)) =
  if negb (c_priv c) && negb (in_user a) then s_obs s
  else if c_track c then obs_update (s_obs s) a OBS_READ else s_obs s.
Proof.
  rewrite read_mem_eq. destruct (negb (c_priv c) && negb (in_user a)); [reflexivity|]. unfold read_state, io_read.
  destruct (IO_START <=? a); [|destruct (c_track c); reflexivity].
  destruct (assoc (s_ireg s) a); [destruct (c_track c); reflexivity|].
  destruct (dev_read e (nth_dev (s_devs s) (port_dev a)) a (c_io c)) as [d' [v|]]; destruct (c_track c); reflexivity.
Qed.
Lemma write_obs_plain e a w c s :
  negb (c_priv c) && negb (in_user a) = false -> (IO_START <=? a) = false -> c_track c = true ->
  s_obs (fst (write_mem e a w c s)) =
  let o := obs_update (s_obs s) a OBS_WRITTEN in
  if word_eqb (mget (s_mem s) a) w then o else obs_update o a OBS_MODIFIED.
Proof.
  intros P IO T. rewrite (write_mem_plain e a w c s P IO), T. cbv zeta.
  destruct (set_if_init w (c_strict c)); reflexivity.
Qed.

Lemma set_pc_ok w b s s' u : set_pc w b s = (s', inl u) -> s' = upd_pc s (w_data w).
Proof.
  rewrite set_pc_eq. destruct (negb (strict s) || is_init w); [|discriminate].
  destruct (strict s && b && _); [discriminate|]. intros E. inversion E. reflexivity.
Qed.
Lemma set_pc_lax w b s : fl_strict (s_flags s) = false -> set_pc w b s = (upd_pc s (w_data w), inl tt).
Proof. intros H. rewrite set_pc_eq. unfold strict. rewrite H. reflexivity. Qed.
Lemma offset_pc_lax o b s : fl_strict (s_flags s) = false ->
  offset_pc o b s = (upd_pc s (wrap16 (s_pc s + o)), inl tt).
Proof. intros H. unfold offset_pc. rewrite run_bind, run_get, set_pc_lax by exact H. reflexivity. Qed.
Lemma offset_pc_eq o s : offset_pc o false s = (upd_pc s (wrap16 (s_pc s + o)), inl tt).
Proof.
  unfold offset_pc. rewrite run_bind, run_get, set_pc_eq. unfold is_init at 1. cbn [new_init w_init w_data].
  rewrite Z.eqb_refl, orb_true_r, andb_false_r. reflexivity.
Qed.

Lemma push_frame_depth a b f s :
  s_frame_no (fst (push_frame a b f s)) = s_frame_no s + 1
  /\ match s_frames s, s_frames (fst (push_frame a b f s)) with
     | Some fs, Some (top :: fs') => fs' = fs /\ f_caller top = a /\ f_callee top = b /\ f_type top = f
     | None, None => True
     | _, _ => False
     end.
Proof.
  rewrite push_frame_run. cbn [fst upd_frames s_frame_no s_frames]. split; [reflexivity|].
  destruct (s_frames s) as [fs|]; [|exact Logic.I].
  destruct (push_frs_top f (s_sr_defns s) (s_regs s) (s_mem s) a b fs) as (top & -> & H). exact (conj eq_refl H).
Qed.
Lemma pop_frame_depth s :
  s_frame_no (fst (pop_frame s)) = Z.max 0 (s_frame_no s - 1)
  /\ s_frames (fst (pop_frame s)) = match s_frames s with Some (_ :: r) => Some r | x => x end.
Proof. split; reflexivity. Qed.

Lemma push_frame_args_pbr a b f s fs rs :
  s_frames s = Some fs ->
  frame_sig f (s_sr_defns s) b = Some (PBR rs) ->
  exists top, s_frames (fst (push_frame a b f s)) = Some (top :: fs) /\ f_fp top = None /\ f_args top = map (fun r => rget (s_regs s) r) rs.
Proof.
  intros Hf Hp. rewrite push_frame_run. cbn [fst upd_frames s_frames]. rewrite Hf. unfold push_frs. rewrite Hp. eexists; repeat split.
Qed.
