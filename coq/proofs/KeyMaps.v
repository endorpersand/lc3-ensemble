(* KeyMaps.v — the maps of the model as lists: a HashMap is an association list ([lookup], [hm_insert]),
   a BTreeMap a list kept sorted by [bt_insert].  The model files each bring their own copy of these
   functions ([Link.lookup], [Assembler.assoc], [Lexer.assoc_str]; [ObjBin.bt_insert], [Assembler.bt_insert],
   [Link.bt_put]; [ObjBin.block_le], [Assembler.bt_le]); copies with one body are convertible, so a lemma
   stated here for one of them applies to the others as it stands. *)
From Coq Require Import ZArith List Bool Lia Sorted Permutation.
From Model Require Import Text ObjBin.
From Model Require Link.
From Proofs Require Import ListFacts TextFacts.
Import ListNotations.
Open Scope Z_scope.

Lemma lookup_none {V} n (l : list (str * V)) : Link.lookup n l = None <-> ~ In n (map fst l).
Proof.
  induction l as [|(k, v) r IH]; cbn; [tauto|].
  destruct (str_eqb_spec n k) as [->|E].
  - split; [discriminate|]. intro H. exfalso. apply H. auto.
  - rewrite IH. split; [intros H [K|K]; [congruence|auto]|auto].
Qed.
Lemma lookup_in {V} n (l : list (str * V)) v : Link.lookup n l = Some v -> In (n, v) l.
Proof.
  induction l as [|(k, w) r IH]; cbn; [discriminate|].
  destruct (str_eqb_spec n k) as [->|E]; [|auto]. intro H. inversion H. auto.
Qed.
Lemma in_lookup {V} n (l : list (str * V)) v : NoDup (map fst l) -> In (n, v) l -> Link.lookup n l = Some v.
Proof.
  induction l as [|(k, w) r IH]; cbn; intros Hn Hin; [contradiction|].
  inversion Hn as [|? ? Hk Hr]; subst.
  destruct Hin as [E|Hin].
  - inversion E; subst. rewrite str_eqb_refl. reflexivity.
  - destruct (str_eqb_spec n k) as [->|E]; [|auto]. exfalso. apply Hk. apply (in_map fst) in Hin. exact Hin.
Qed.

(* strictly sorted by key; [AsmBlocks.ksorted] unfolds to this *)
Local Notation ksorted m := (StronglySorted (fun x y => fst x < fst y) m).

Lemma ksorted_cons {V} (x : Z * V) m : ksorted (x :: m) <-> ksorted m /\ Forall (fun y => fst x < fst y) m.
Proof. split; [apply StronglySorted_inv | intros [S F]; constructor; assumption]. Qed.

Lemma ksorted_bool {V} (m : list (Z * V)) : strictly_sorted (map fst m) = true <-> ksorted m.
Proof.
  induction m as [|x m IH]; [split; [constructor|reflexivity]|]. rewrite ksorted_cons, <- IH. clear IH.
  destruct m as [|y m]; [cbn; intuition constructor|].
  change (strictly_sorted (map fst (x :: y :: m))) with ((fst x <? fst y) && strictly_sorted (map fst (y :: m))).
  rewrite andb_true_iff, Z.ltb_lt. split.
  - intros [L S]. split; [exact S|]. constructor; [exact L|].
    revert L S. generalize (fst x). generalize y. induction m as [|z m IHm]; intros y0 a L S; [constructor|].
    change (strictly_sorted (map fst (y0 :: z :: m))) with ((fst y0 <? fst z) && strictly_sorted (map fst (z :: m))) in S.
    apply andb_true_iff in S. destruct S as [L' S]. apply Z.ltb_lt in L'.
    constructor; [lia|]. apply (IHm z a); [lia|exact S].
  - intros [S F]. split; [inversion F; assumption|exact S].
Qed.
Lemma bt_insert_in {V} k (v : V) m x : In x (bt_insert k v m) -> x = (k, v) \/ In x m.
Proof.
  induction m as [|[k' v'] m IH]; cbn [bt_insert In]; [intuition|].
  destruct (k <? k'); [cbn [In]; intuition|]. destruct (k =? k'); cbn [In]; intuition.
Qed.
Lemma bt_insert_perm {V} k (v : V) m : ~ In k (map fst m) -> Permutation (bt_insert k v m) ((k, v) :: m).
Proof.
  induction m as [|[k' v'] m IH]; cbn [bt_insert map fst In]; intros N; [reflexivity|].
  destruct (k <? k'); [reflexivity|]. destruct (Z.eqb_spec k k') as [E|_]; [exfalso; auto|].
  rewrite IH by auto. apply perm_swap.
Qed.
Lemma bt_insert_sorted {V} k (v : V) m : ksorted m -> ksorted (bt_insert k v m).
Proof.
  induction m as [|[k' v'] m IH]; intros S; cbn [bt_insert]; [repeat constructor|].
  apply ksorted_cons in S as [S F]. cbn [fst] in F.
  destruct (Z.ltb_spec k k') as [L|L]; [|destruct (Z.eqb_spec k k') as [->|N]].
  - apply ksorted_cons. split; [apply ksorted_cons; auto|]. constructor; [exact L|].
    eapply Forall_impl; [|exact F]. cbn. intros; lia.
  - apply ksorted_cons. auto.
  - apply ksorted_cons. split; [auto|]. apply Forall_forall. intros x Hx. cbn [fst].
    apply bt_insert_in in Hx as [->|Hx]; [cbn; lia|]. rewrite Forall_forall in F. auto.
Qed.
Lemma bt_insert_last {V} k (v : V) m : Forall (fun p => fst p < k) m -> bt_insert k v m = m ++ [(k, v)].
Proof.
  induction 1 as [|[k' v'] m Hk _ IH]; [reflexivity|]. cbn [fst] in Hk. cbn [bt_insert app].
  destruct (Z.ltb_spec k k'); [lia|]. destruct (Z.eqb_spec k k'); [lia|]. rewrite IH. reflexivity.
Qed.
Lemma ksorted_app {V} (a b : list (Z * V)) : ksorted (a ++ b) -> ksorted b /\ forall p q, In p a -> In q b -> fst p < fst q.
Proof.
  induction a as [|x a IH]; cbn [app]; intro S; [split; [exact S|intros p q []]|]. apply ksorted_cons in S as [S F].
  destruct (IH S) as [Sb Hab]. split; [exact Sb|]. intros p q [<-|Hp] Hq; [|exact (Hab p q Hp Hq)].
  rewrite Forall_forall in F. apply F, in_or_app. right. exact Hq.
Qed.
Lemma ksorted_app_lt {V} (acc : list (Z * V)) x l : ksorted (acc ++ x :: l) -> Forall (fun p => fst p < fst x) acc.
Proof. intro S. apply Forall_forall. intros p Hp. exact (proj2 (ksorted_app acc (x :: l) S) p x Hp (or_introl eq_refl)). Qed.
(* keys that arrive in increasing order, all above those already there: every insertion is an append *)
Lemma fold_bt_append {V} (l : list (Z * V)) : forall acc, ksorted l -> (forall p q, In p acc -> In q l -> fst p < fst q) ->
  fold_left (fun m p => bt_insert (fst p) (snd p) m) l acc = acc ++ l.
Proof.
  induction l as [|[k v] l IH]; intros acc S H; [rewrite app_nil_r; reflexivity|]. apply ksorted_cons in S as [S F].
  cbn [fold_left fst snd]. rewrite bt_insert_last by (apply Forall_forall; intros p Hp; exact (H p (k, v) Hp (or_introl eq_refl))).
  rewrite IH, <- app_assoc; [reflexivity|exact S|]. intros p q Hp Hq. apply in_app_or in Hp. destruct Hp as [Hp|[<-|[]]].
  - exact (H p q Hp (or_intror Hq)).
  - rewrite Forall_forall in F. exact (F q Hq).
Qed.
Lemma fold_bt_sorted {V} (l : list (Z * V)) : forall acc, strictly_sorted (map fst (acc ++ l)) = true ->
  fold_left (fun m p => bt_insert (fst p) (snd p) m) l acc = acc ++ l.
Proof. intros acc H. apply ksorted_bool, ksorted_app in H. exact (fold_bt_append l acc (proj1 H) (proj2 H)). Qed.
Lemma bt_mem_spec {V} k (m : list (Z * V)) : bt_mem k m = true <-> In k (map fst m).
Proof.
  induction m as [|[k' v'] m IH]; cbn [bt_mem map fst In]; [intuition discriminate|].
  rewrite orb_true_iff, Z.eqb_eq, IH. intuition.
Qed.

Lemma hm_insert_fresh {K V} (eqb : K -> K -> bool) (Heq : forall a b, eqb a b = true <-> a = b) k (v : V) m :
  ~ In k (map fst m) -> hm_insert eqb k v m = m ++ [(k, v)].
Proof.
  induction m as [|[k' v'] m IH]; intro H; [reflexivity|]. cbn [hm_insert app].
  destruct (eqb k k') eqn:E.
  - apply Heq in E. exfalso. apply H. left. cbn. congruence.
  - rewrite IH; [reflexivity|]. intro Hin. apply H. right. exact Hin.
Qed.
Lemma fold_hm_nodup {K V} (eqb : K -> K -> bool) (Heq : forall a b, eqb a b = true <-> a = b) (l : list (K * V)) :
  forall acc, NoDup (map fst (acc ++ l)) ->
  fold_left (fun m p => hm_insert eqb (fst p) (snd p) m) l acc = acc ++ l.
Proof.
  induction l as [|[k v] l IH]; intros acc H; [rewrite app_nil_r; reflexivity|].
  cbn [fold_left fst snd]. rewrite (hm_insert_fresh eqb Heq) by (eapply fresh_key; exact H).
  rewrite IH; rewrite <- app_assoc; [reflexivity|exact H].
Qed.
Lemma hm_insert_keys {K V} (eqb : K -> K -> bool) k (v : V) m p :
  In p (hm_insert eqb k v m) -> p = (k, v) \/ In p m.
Proof.
  induction m as [|[k' v'] m IH]; cbn [hm_insert In]; intro H.
  - destruct H as [H|[]]. left. congruence.
  - destruct (eqb k k').
    + destruct H as [H|H]; [left; congruence|right; right; exact H].
    + destruct H as [H|H]; [right; left; exact H|]. destruct (IH H) as [H'|H']; [left; exact H'|right; right; exact H'].
Qed.
Lemma nodup_by_NoDup {K} (eqb : K -> K -> bool) (Heq : forall a b, eqb a b = true <-> a = b) l :
  nodup_by eqb l = true <-> NoDup l.
Proof.
  induction l as [|k l IH]; cbn [nodup_by]; [split; [constructor|reflexivity]|].
  rewrite andb_true_iff, negb_true_iff, IH, NoDup_cons_iff, <- (existsb_eqb eqb Heq), not_true_iff_false. reflexivity.
Qed.

Lemma nodup_by_perm {K} (eqb : K -> K -> bool) (Heq : forall a b, eqb a b = true <-> a = b) l l' :
  Permutation l l' -> nodup_by eqb l = true -> nodup_by eqb l' = true.
Proof.
  intros P H. apply (nodup_by_NoDup eqb Heq). apply (nodup_by_NoDup eqb Heq) in H.
  eapply Permutation_NoDup; eassumption.
Qed.

Lemma block_le_in {V} k (m : list (Z * V)) x : block_le k m = Some x -> In x m /\ fst x <= k.
Proof.
  induction m as [|[k' v'] m IH]; cbn [block_le]; [discriminate|].
  destruct (Z.leb_spec k' k) as [L|L]; [|discriminate].
  destruct (block_le k m) as [y|]; intros [= <-].
  - destruct (IH eq_refl) as [I B]. split; [right; exact I|exact B].
  - split; [left; reflexivity|exact L].
Qed.

(* [ObjBin.runs_disjoint] as a proposition, for blocks of any kind *)
Fixpoint adj_disjoint {V} (m : list (Z * list V)) : Prop :=
  match m with
  | (a_st, a_bl) :: (((b_st, _) :: _) as r) => a_st + len a_bl <= b_st /\ adj_disjoint r
  | _ => True
  end.
Lemma block_le_found {V} addr (m : list (Z * list V)) s v :
  strictly_sorted (map fst m) = true -> adj_disjoint m ->
  In (s, v) m -> s <= addr < s + len v -> block_le addr m = Some (s, v).
Proof.
  induction m as [|[k w] m IH]; intros Hs Hd Hin Ha; [destruct Hin|].
  apply ksorted_bool, ksorted_cons in Hs. destruct Hs as [Hs' Hf]. apply ksorted_bool in Hs'. cbn [fst] in Hf.
  assert (Hd' : adj_disjoint m) by (destruct m as [|[k2 w2] r]; [exact Logic.I|apply Hd]).
  cbn [block_le]. destruct Hin as [Hin|Hin].
  - inversion Hin; subst. replace (s <=? addr) with true by lia.
    destruct m as [|[k2 w2] r]; [reflexivity|]. destruct Hd as [Hd _].
    cbn [block_le]. replace (k2 <=? addr) with false by lia. reflexivity.
  - assert (k < s) by (rewrite Forall_forall in Hf; exact (Hf _ Hin)).
    replace (k <=? addr) with true by lia.
    rewrite (IH Hs' Hd' Hin Ha). reflexivity.
Qed.
