(* AsmBase.v — what the assembler proofs share: results read as post-conditions ([post]), the loops
   as one fold with one invariant rule ([afold_inv]), a step of each pass cut into phases
   ([p1_step_eq], [p2_step_emit]); lemmas on the positional layout and its cells. *)
From Coq Require Import ZArith List Bool Lia Permutation.
From Model Require Import Tree Text Bits Instr Offset AsmAst Obj SourceInfo Assembler.
From Spec Require Import LayoutSpec WfSpec.
From Proofs Require Import ListFacts OffsetProofs SourceInfoProofs.
From Proofs Require Export TextFacts KeyMaps.
Import ListNotations.
Open Scope Z_scope.

Lemma byte_len_upper s : byte_len (upper s) = byte_len s.
Proof.
  induction s as [|c s IH]; cbn [upper map byte_len]; [reflexivity|]. fold (upper s). rewrite IH. f_equal.
  unfold upper_c, is_lower, utf8_len.
  destruct ((97 <=? c) && (c <=? 122)) eqn:E; [|reflexivity].
  apply andb_prop in E. destruct E as [E1 E2]. apply Z.leb_le in E1, E2.
  destruct (c - 32 <? 128) eqn:A; destruct (c <? 128) eqn:B; try reflexivity; lia.
Qed.
Lemma upper_c_idem c : upper_c (upper_c c) = upper_c c.
Proof.
  unfold upper_c, is_lower. destruct ((97 <=? c) && (c <=? 122)) eqn:E.
  - apply andb_prop in E. destruct E as [E1 E2]. apply Z.leb_le in E1, E2.
    destruct ((97 <=? c - 32) && (c - 32 <=? 122)) eqn:F; [|reflexivity].
    apply andb_prop in F. destruct F as [F1 F2]. apply Z.leb_le in F1, F2. lia.
  - rewrite E. reflexivity.
Qed.
Lemma upper_idem s : upper (upper s) = upper s.
Proof. unfold upper. rewrite map_map. apply map_ext. intros c. apply upper_c_idem. Qed.

Lemma assoc_app {A} k (l l' : list (str * A)) :
  assoc k (l ++ l') = match assoc k l with Some v => Some v | None => assoc k l' end.
Proof.
  induction l as [|[k' v] l IH]; cbn [assoc app]; [reflexivity|].
  destruct (str_eqb k k'); [reflexivity | exact IH].
Qed.

Lemma app_cons_snoc {A} (l : list A) x r : l ++ x :: r = (l ++ [x]) ++ r.
Proof. rewrite <- app_assoc. reflexivity. Qed.

Lemma final_app c p q : final c (p ++ q) = final (final c p) q.
Proof. unfold final. apply fold_left_app. Qed.
Lemma final_snoc c p s : final c (p ++ [s]) = next (final c p) s.
Proof. rewrite final_app. reflexivity. Qed.
Lemma place_app p : forall c q, place c (p ++ q) = place c p ++ place (final c p) q.
Proof.
  induction p as [|s p IH]; intros c q; cbn [place app]; [reflexivity|].
  rewrite IH. reflexivity.
Qed.
Lemma placed_snoc p s : placed (p ++ [s]) = placed p ++ [(final None p, s)].
Proof. unfold placed. rewrite place_app. reflexivity. Qed.
Lemma v_snoc_false f pre s :
  existsb f (placed pre) = false -> f (final None pre, s) = false -> existsb f (placed (pre ++ [s])) = false.
Proof. intros H1 H2. rewrite placed_snoc, existsb_snoc, H1, H2. reflexivity. Qed.
Lemma placed_app p q : placed (p ++ q) = placed p ++ place (final None p) q.
Proof. unfold placed. apply place_app. Qed.
Lemma flat_map_placed_snoc {B} (f : pos * stmt -> list B) p s :
  flat_map f (placed (p ++ [s])) = flat_map f (placed p) ++ f (final None p, s).
Proof. rewrite placed_snoc, flat_map_app. cbn [flat_map]. rewrite app_nil_r. reflexivity. Qed.
Lemma bindings_app p q : bindings (p ++ q) = bindings p ++ flat_map binds_of (place (final None p) q).
Proof. unfold bindings. rewrite placed_app, flat_map_app. reflexivity. Qed.

Lemma to_i16_wrap_r a b : to_i16 (a - wrap16 b) = to_i16 (a - b).
Proof. unfold to_i16, wrap16. rewrite Zminus_mod_idemp_r. reflexivity. Qed.

Lemma len_app {A} (l l' : list A) : len (l ++ l') = len l + len l'.
Proof. unfold len. rewrite app_length. lia. Qed.
Lemma len_nonneg {A} (l : list A) : 0 <= len l.
Proof. unfold len. lia. Qed.
Lemma len_pos {A} (l : list A) : l <> [] -> 0 < len l.
Proof. destruct l; [congruence|]. intros _. unfold len. cbn [length]. lia. Qed.
Lemma len_repeat {A} (x : A) n : len (repeat x n) = Z.of_nat n.
Proof. unfold len. rewrite repeat_length. reflexivity. Qed.
Lemma len_map {A B} (f : A -> B) l : len (map f l) = len l.
Proof. unfold len. rewrite map_length. reflexivity. Qed.
Lemma len_snoc {A} (l : list A) x : len (snoc l x) = len l + 1.
Proof. unfold snoc. rewrite len_app. reflexivity. Qed.

Lemma nth_z_len {A} (l : list A) n a : nth_z l n = Some a -> 0 <= n < len l.
Proof. exact (nth_z_some l n a). Qed.

Lemma enum_from_app {A} (l l' : list A) : forall k, enum_from k (l ++ l') = enum_from k l ++ enum_from (k + len l) l'.
Proof.
  induction l as [|x l IH]; intros k; cbn [enum_from app].
  - unfold len. cbn. rewrite Z.add_0_r. reflexivity.
  - rewrite IH. do 3 f_equal. unfold len. cbn [length]. lia.
Qed.
Lemma enum_from_cells a (ws : list (option Z)) : enum_from a ws = cells_from a ws.
Proof. revert a. induction ws as [|w ws IH]; intros a; cbn; [reflexivity|]. rewrite IH. reflexivity. Qed.
Lemma enum_from_in {A} (r : list A) : forall k n a, In (n, a) (enum_from k r) <-> k <= n /\ nth_z r (n - k) = Some a.
Proof.
  induction r as [|x r IH]; intros k n a; cbn [enum_from].
  - split; [contradiction|]. intros [_ H]. apply nth_z_some in H. cbn in H. lia.
  - split.
    + intros [H|H].
      * injection H as <- <-. split; [lia|]. rewrite Z.sub_diag. reflexivity.
      * apply IH in H. destruct H as [H1 H2]. split; [lia|]. rewrite nth_z_cons by lia. replace (n - k - 1) with (n - (k + 1)) by lia. exact H2.
    + intros [H1 H2]. destruct (Z.eq_dec n k) as [->|Hne].
      * rewrite Z.sub_diag in H2. cbn in H2. injection H2 as ->. left. reflexivity.
      * right. apply IH. split; [lia|]. rewrite nth_z_cons in H2 by lia. replace (n - (k + 1)) with (n - k - 1) by lia. exact H2.
Qed.
Lemma cells_from_app a ws ws' : cells_from a (ws ++ ws') = cells_from a ws ++ cells_from (a + len ws) ws'.
Proof. rewrite <- !enum_from_cells. apply enum_from_app. Qed.
Lemma cells_from_keys a ws x w : In (x, w) (cells_from a ws) -> a <= x < a + len ws.
Proof.
  rewrite <- enum_from_cells. intros H. apply enum_from_in in H. destruct H as [H1 H2].
  pose proof (nth_z_len _ _ _ H2). lia.
Qed.
Lemma cells_from_nodup a ws : NoDup (map fst (cells_from a ws)).
Proof.
  revert a. induction ws as [|w ws IH]; intros a; cbn [cells_from map fst]; constructor; [|apply IH].
  intros H. apply in_map_iff in H. destruct H as [[x w'] [E H]]. cbn in E. subst x.
  apply cells_from_keys in H. lia.
Qed.
Lemma cell_at_in {A} (l : list (Z * A)) a v : NoDup (map fst l) -> (cell_at a l = Some v <-> In (a, v) l).
Proof.
  induction l as [|[k w] l IH]; intros N; cbn [cell_at]; [split; [discriminate|contradiction]|].
  cbn [map fst] in N. inversion N as [|? ? N1 N2]; subst. destruct (k =? a) eqn:E.
  - apply Z.eqb_eq in E. subst k. split.
    + intros [= ->]. left. reflexivity.
    + intros [H|H]; [congruence|]. exfalso. apply N1. apply (in_map fst) in H. exact H.
  - apply Z.eqb_neq in E. rewrite (IH N2). split; [intros H; right; exact H|]. intros [H|H]; [congruence|exact H].
Qed.
Lemma cell_at_perm {A} (l l' : list (Z * A)) a : NoDup (map fst l) -> Permutation l l' -> cell_at a l = cell_at a l'.
Proof.
  intros N P. assert (N' : NoDup (map fst l')) by (apply (Permutation_NoDup (Permutation_map fst P)); exact N).
  destruct (cell_at a l) as [v|] eqn:E.
  - apply (cell_at_in l a v N) in E. apply (Permutation_in _ P) in E. apply (cell_at_in l' a v N') in E. congruence.
  - destruct (cell_at a l') as [v|] eqn:E'; [|reflexivity].
    apply (cell_at_in l' a v N') in E'. apply (Permutation_in _ (Permutation_sym P)) in E'. apply (cell_at_in l a v N) in E'. congruence.
Qed.

Lemma field_value_to_i16 n target here : n = 9 \/ n = 11 ->
  field_value n target here =
  if fits_s n (to_i16 (target - (here + 1))) then Some (to_i16 (target - (here + 1))) else None.
Proof.
  intros Hn. unfold fits_s, field_value, to_i16, wrap16.
  pose proof (Z.mod_pos_bound (target - (here + 1)) 65536 eq_refl) as Hd.
  set (d := (target - (here + 1)) mod 65536) in *.
  destruct Hn as [-> | ->]; cbn [Z.sub Z.add Z.opp Z.pos_sub Z.pow Z.pow_pos Pos.iter Z.mul Pos.mul Pos.pred_double];
  destruct (d <? 32768) eqn:A;
  repeat match goal with
         | |- context [?a <=? ?b] => destruct (Z.leb_spec a b)
         | |- context [?a <? ?b] => destruct (Z.ltb_spec a b)
         end; cbn [andb]; try reflexivity; exfalso; lia.
Qed.
Lemma field_value_sound n t a f : n = 9 \/ n = 11 -> field_value n t a = Some f ->
  - 2 ^ (n - 1) <= f < 2 ^ (n - 1) /\ (a + 1 + f) mod 65536 = t mod 65536.
Proof.
  intros Hn. rewrite (field_value_to_i16 n t a Hn).
  destruct (fits_s n (to_i16 (t - (a + 1)))) eqn:FS; [|discriminate]. intros [= <-]. split.
  - unfold fits_s in FS. apply andb_prop in FS. destruct FS as [F1 F2]. apply Z.leb_le in F1. apply Z.ltb_lt in F2. split; assumption.
  - rewrite <- Zplus_mod_idemp_r, to_i16_mod, Zplus_mod_idemp_r. f_equal. lia.
Qed.
Lemma new_s_field_value n target here : n = 9 \/ n = 11 ->
  new_s n (to_i16 (target - (here + 1))) =
  match field_value n target here with Some f => Ok f | None => Err (CannotFitSigned n) end.
Proof.
  intros Hn. rewrite new_s_spec by (try apply to_i16_range; lia). rewrite (field_value_to_i16 n target here Hn).
  destruct (fits_s n (to_i16 (target - (here + 1)))); reflexivity.
Qed.

Definition post {A} (r : ares A) (P : A -> Prop) (E : err_kind -> list span -> Prop) (N : Prop) : Prop :=
  match r with AOk a => P a | AErr k sp => E k sp | APanic => N end.

Lemma post_bind {A B} (r : ares A) (f : A -> ares B) (P : A -> Prop) (Q : B -> Prop) E N :
  post r P E N -> (forall a, P a -> post (f a) Q E N) -> post (abind r f) Q E N.
Proof. destruct r as [a|k sp|]; cbn [post abind]; intros H G; [exact (G a H) | exact H | exact H]. Qed.

Lemma post_mono {A} (r : ares A) (P P' : A -> Prop) (E E' : err_kind -> list span -> Prop) (N N' : Prop) :
  (forall a, P a -> P' a) -> (forall k sp, E k sp -> E' k sp) -> (N -> N') -> post r P E N -> post r P' E' N'.
Proof. destruct r; cbn [post]; auto. Qed.

Lemma post_seq {A B} {r : ares A} {f : A -> ares B} {P : A -> Prop} {Q : B -> Prop} {E E' : err_kind -> list span -> Prop} {N : Prop} :
  post r P E' False -> (forall k sp, E' k sp -> E k sp) -> (forall a, P a -> post (f a) Q E N) -> post (abind r f) Q E N.
Proof. intros H HE. apply post_bind. revert H. apply post_mono; [auto | exact HE | intros []]. Qed.

Lemma abind_ok {A B} (r : ares A) (f : A -> ares B) b : abind r f = AOk b -> exists a, r = AOk a /\ f a = AOk b.
Proof. destruct r as [a|k sp|]; cbn [abind]; intros H; [exists a; split; [reflexivity|exact H] | discriminate | discriminate]. Qed.

Lemma abind_ext {A B} (r : ares A) (f g : A -> ares B) : (forall a, f a = g a) -> abind r f = abind r g.
Proof. intros H. destruct r; cbn [abind]; [apply H | reflexivity | reflexivity]. Qed.

Fixpoint afold {S X} (step : S -> X -> ares S) (st : S) (l : list X) : ares S :=
  match l with
  | [] => AOk st
  | x :: r => abind (step st x) (fun st' => afold step st' r)
  end.

Lemma p1_loop_afold src p : forall st, p1_loop src st p = afold (p1_step src) st p.
Proof. induction p as [|s p IH]; intros st; cbn [p1_loop afold]; [reflexivity|]. apply abind_ext. exact IH. Qed.
Lemma p2_loop_afold L p : forall st, p2_loop L st p = afold (p2_step L) st p.
Proof. induction p as [|s p IH]; intros st; cbn [p2_loop afold]; [reflexivity|]. apply abind_ext. exact IH. Qed.
Lemma add_labels_afold ls addr : forall L, add_labels L ls addr = afold (fun L l => add_label L l addr false) L ls.
Proof. induction ls as [|l ls IH]; intros L; cbn [add_labels afold]; [reflexivity|]. apply abind_ext. exact IH. Qed.

(* KEEP_SYM: the symbol table is kept with debug symbols or when some label is external *)
Lemma assemble_ok debug src p o : assemble debug src p = AOk o ->
  exists sym st, pass1 p src = AOk sym /\ p2_loop (st_labels sym) (mkP2 [] None) p = AOk st /\
    o = mkObj (map (fun kb => (fst kb, ob_words (snd kb))) (p2_map st))
              (if debug || existsb (fun kv => sd_external (snd kv)) (st_labels sym) then Some sym else None).
Proof.
  unfold assemble, pass2. intros E. apply abind_ok in E. destruct E as [sym [E1 E]]. apply abind_ok in E. destruct E as [st [E2 E]].
  injection E as <-. exists sym, st. split; [exact E1|]. split; [exact E2 | reflexivity].
Qed.

(* [pre]: what of [l] is folded already; a step is told where in [l] it stands *)
Lemma afold_inv {S X} (step : S -> X -> ares S) (I : list X -> S -> Prop) E N (l : list X) st :
  (forall pre x r st, l = pre ++ x :: r -> I pre st -> post (step st x) (I (pre ++ [x])) E N) ->
  I [] st -> post (afold step st l) (I l) E N.
Proof.
  intros HS. enough (G : forall suf pre st, l = pre ++ suf -> I pre st -> post (afold step st suf) (I l) E N) by exact (G l [] st eq_refl).
  induction suf as [|x suf IH]; intros pre st' EL HI; cbn [afold].
  - rewrite app_nil_r in EL. subst pre. exact HI.
  - apply (post_bind _ _ (I (pre ++ [x]))); [exact (HS pre x suf st' EL HI)|].
    intros st2 HI'. apply (IH (pre ++ [x])); [rewrite <- app_assoc; exact EL | exact HI'].
Qed.

(* sections 1, 2, 3 of Assembler.p1_step, copied; [p1_step_eq] only re-brackets *)
Definition p1_lab (st : p1) (s : stmt) : ares labmap :=
  match s_labels s with
  | [] => AOk (p1_labels st)
  | _ => match p1_cur st with
         | None => AErr UndetAddrLabel (map label_span (s_labels s))
         | Some cur => add_labels (p1_labels st) (s_labels s) (c_lc cur)
         end
  end.
Definition p1_dir (st : p1) (s : stmt) (labels1 : labmap) : ares (option cursor * labmap * list (Z * str)) :=
  match s_nucleus s with
  | NDir (DOrig a) =>
      match p1_cur st with
      | Some cur => AErr OverlappingOrig [c_orig cur; stmt_span s]
      | None => AOk (Some (mkCur a false (stmt_span s)), labels1, p1_rel st)
      end
  | NDir DEnd =>
      match p1_cur st with
      | Some _ => AOk (None, labels1, p1_rel st)
      | None => AErr UnopenedOrig [stmt_span s]
      end
  | NDir (DExternal l) =>
      abind (add_label labels1 l 0 true) (fun labels2 => AOk (p1_cur st, labels2, p1_rel st))
  | NDir (DFill (PLab l)) =>
      let key := upper (l_name l) in
      match p1_cur st with
      | Some cur => AOk (p1_cur st, labels1, snoc (p1_rel st) (c_lc cur, key))
      | None =>
          match assoc key labels1 with
          | Some d => if sd_external d then AErr UndetAddrStmt [stmt_span s] else AOk (p1_cur st, labels1, p1_rel st)
          | None => AOk (p1_cur st, labels1, p1_rel st)
          end
      end
  | _ => AOk (p1_cur st, labels1, p1_rel st)
  end.
Definition p1_line (src : option str) (st : p1) (s : stmt) (cur : cursor) : ares (option (list (option Z))) :=
  match p1_lines st, src with
  | Some lines, Some text =>
      if no_line_entry (s_nucleus s) then AOk (Some lines)
      else
        let idx := get_line text (s_start s) in
        if (0 <=? idx) && (idx <? len lines)
        then AOk (Some (set_nth lines (Z.to_nat idx) (Some (c_lc cur))))
        else APanic
  | other, _ => AOk other
  end.
Definition p1_move (s : stmt) (cur : cursor) : ares cursor :=
  match stmt_len (s_nucleus s) with
  | WLPanic => APanic
  | WL n => match shift cur n with SOk cur' => AOk cur' | SErr k => AErr k [stmt_span s] end
  end.
Definition p1_tail (src : option str) (st : p1) (s : stmt) (cur2 : option cursor) (labels2 : labmap) (rel2 : list (Z * str)) : ares p1 :=
  match cur2 with
  | None => AOk (mkP1 None labels2 rel2 (p1_lines st))
  | Some cur =>
      abind (p1_line src st s cur) (fun lines2 =>
      abind (p1_move s cur) (fun cur' => AOk (mkP1 (Some cur') labels2 rel2 lines2)))
  end.

Lemma p1_step_eq src st s :
  p1_step src st s =
  abind (p1_lab st s) (fun labels1 =>
  abind (p1_dir st s labels1) (fun '(cur2, labels2, rel2) => p1_tail src st s cur2 labels2 rel2)).
Proof.
  unfold p1_step. cbv zeta. apply abind_ext. intros labels1. apply abind_ext. intros [[cur2 labels2] rel2].
  destruct cur2 as [cur|]; [|reflexivity]. cbn [p1_tail]. apply abind_ext. intros lines2.
  unfold p1_move. destruct (stmt_len (s_nucleus s)) as [n|]; [|reflexivity]. destruct (shift cur n); reflexivity.
Qed.

Lemma p1_line_never_err src st s cu k sp : p1_line src st s cu <> AErr k sp.
Proof.
  unfold p1_line. destruct (p1_lines st); destruct src; try discriminate.
  destruct (no_line_entry (s_nucleus s)); [discriminate|]. destruct (_ && _); discriminate.
Qed.
Lemma p1_line_post src st s cu E (N : Prop) :
  (p1_line src st s cu = APanic -> N) -> post (p1_line src st s cu) (fun _ => True) E N.
Proof.
  intros H. destruct (p1_line src st s cu) as [l|k sp|] eqn:EL; cbn [post];
    [exact Logic.I | exact (False_ind _ (p1_line_never_err _ _ _ _ _ _ EL)) | exact (H eq_refl)].
Qed.

(* pass 2 treats every statement that occupies memory alike: [emit] is what it appends *)
Definition emit (L : labmap) (s : stmt) (lc : Z) (words : list (option Z)) : ares (list (option Z)) :=
  match s_nucleus s with
  | NInstr i => abind (into_sim_instr i (wrap16 (lc + 1)) L) (fun sim => AOk (snoc words (Some (encode sim))))
  | NDir d => write_directive words d L
  end.

Lemma p2_step_emit L st s : needs_addr s = true ->
  p2_step L st s =
  match p2_cur st with
  | None => AErr UndetAddrStmt [stmt_span s]
  | Some (lc, blk) =>
      match stmt_len (s_nucleus s) with
      | WLPanic => APanic
      | WL n => abind (emit L s lc (ob_words blk)) (fun w =>
                AOk (mkP2 (p2_map st) (Some (wrap16 (lc + n), mkOB (ob_start blk) w (ob_span blk)))))
      end
  end.
Proof.
  unfold p2_step, emit, needs_addr. destruct (s_nucleus s) as [i|[a|o|n|t| |l]]; intros NA; try discriminate NA;
    destruct (p2_cur st) as [[lc blk]|]; try reflexivity.
  cbn [stmt_len]. destruct (into_sim_instr i (wrap16 (lc + 1)) L); reflexivity.
Qed.
