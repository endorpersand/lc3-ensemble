(* ObjTextProofs.v — C18: the text reader applied to what the text writer produced gives the object
   back (up to the order of the two hash maps), for every object with text_inv.  The reader's stages
   are undone one by one: each section parses back to what was written (a table; the .DEBUG line
   table through the vector of proofs/LineMapProofs.v), the lines are grouped into the sections, and
   the lines survive trim / lines / the comment-and-blank filter. *)
From Coq Require Import ZArith List Bool Lia String Permutation.
From Model Require Import Tree Text Obj SourceInfo ObjBin ObjText.
From Spec Require Import ObjEquiv.
From Proofs Require Import ListFacts TextFacts Ranges ObjBytesProofs ObjBinProofs ObjTextLemmas SourceInfoProofs SrcLinesProofs LineMapProofs.
Import ListNotations.
Open Scope Z_scope.

(* '#' a comment, '.' a section header, '=' a divider *)
Definition first_ok (l : str) : bool :=
  match l with [] => false | c :: _ => negb (is_ws c) && negb ((c =? 35) || (c =? 46) || (c =? 61)) end.

Lemma label_ok_no_ws l : label_text_ok l = true -> no_ws l = true.
Proof.
  unfold label_text_ok. intro H. apply andb_true_iff in H. destruct H as [H _]. apply negb_true_iff in H.
  apply forallb_forall. intros x Hx. apply negb_true_iff.
  destruct (is_ws x) eqn:E; [|reflexivity]. exfalso.
  assert (existsb is_ws l = true) by (apply existsb_exists; exists x; split; assumption). congruence.
Qed.
Lemma label_ok_trim l : label_text_ok l = true -> trim l = l.
Proof. intro H. exact (trim_pad_left l 0 (label_ok_no_ws l H)). Qed.

(* [plain] is what trim / lines, the filter and the grouping need (the dividers are plain),
   [line_ok] what may stand before the divider of .DEBUG *)
Definition plain (l : str) : Prop := nl_free l = true /\ keep_line l = true /\ starts_with 46 l = false.
Definition line_ok (l : str) : Prop := plain l /\ starts_with 61 l = false.
Lemma line_plain ls : Forall line_ok ls -> Forall plain ls.
Proof. apply Forall_impl. intros l H. apply H. Qed.

Lemma line_ok_pad k l : first_ok l = true -> nl_free l = true -> line_ok (repeat 32 k ++ l).
Proof.
  destruct l as [|c r]; [discriminate|]. cbn [first_ok]. intros H Hn. apply andb_true_iff in H. destruct H as [Hw H].
  apply negb_true_iff in Hw. apply negb_true_iff in H.
  assert (S : forall x, (x = 35 \/ x = 46 \/ x = 61) -> starts_with x (repeat 32 k ++ c :: r) = false)
    by (intros x Hx; destruct k; cbn [repeat app starts_with]; lia).
  repeat split; try (apply S; lia); [rewrite nl_free_app, nl_free_spaces; exact Hn|].
  apply (keep_line_intro _ c); [apply in_or_app; right; left; reflexivity|exact Hw|apply S; lia].
Qed.
Lemma label_ok_first l r : label_text_ok l = true -> first_ok (l ++ r) = true.
Proof.
  intro Hl. pose proof (label_ok_no_ws l Hl) as Hw. unfold label_text_ok in Hl. apply andb_true_iff in Hl. destruct Hl as [_ Hf].
  destruct l as [|c t]; [discriminate|]. apply forallb_cons_iff in Hw. destruct Hw as [Hc _]. cbn [app first_ok]. rewrite Hc, Hf. reflexivity.
Qed.
Lemma label_ok_nl_free l : label_text_ok l = true -> nl_free l = true.
Proof. intro H. exact (nl_free_no_ws _ (label_ok_no_ws l H)). Qed.
Lemma line_ok_label k l r : label_text_ok l = true -> nl_free r = true -> line_ok (repeat 32 k ++ l ++ r).
Proof.
  intros Hl Hr. apply line_ok_pad; [apply label_ok_first; exact Hl|]. rewrite nl_free_app, Hr, label_ok_nl_free by exact Hl. reflexivity.
Qed.

Lemma digits_label u s : s <> [] -> forallb (is_digit_char u) s = true -> label_text_ok s = true.
Proof.
  intros Hne Hd. pose proof (digits_no_ws u s Hd) as Hw. unfold label_text_ok. apply andb_true_iff. split.
  - apply negb_true_iff. destruct (existsb is_ws s) eqn:E; [|reflexivity]. apply existsb_exists in E. destruct E as (x & Hx & E).
    unfold no_ws in Hw. rewrite forallb_forall in Hw. rewrite (proj1 (negb_true_iff _) (Hw x Hx)) in E. discriminate.
  - destruct s as [|d ds]; [contradiction|]. apply forallb_cons_iff in Hd. destruct Hd as [Hd _]. apply digit_char_range in Hd. lia.
Qed.
Lemma hex4_label v : 0 <= v < 65536 -> label_text_ok (hex4 v) = true.
Proof.
  intro H. destruct (hex4_props v H) as (_ & H2 & H3 & _). apply (digits_label true); [|exact H3]. intro E. rewrite E in H2. discriminate.
Qed.
Lemma dec_label n : 0 <= n -> label_text_ok (fmt_dec n) = true.
Proof. intro H. destruct (fmt_radix_spec 10 false n ltac:(lia) H) as (H1 & H2 & _). exact (digits_label false _ H1 H2). Qed.
Lemma tword_label w : word_ok w -> label_text_ok (tword w) = true.
Proof. destruct w as [v|]; [exact (hex4_label v)|reflexivity]. Qed.
Lemma tblock_lines_words b : block_inv b = true -> Forall (fun l => label_text_ok l = true) (tblock_lines b).
Proof.
  intro H. destruct (block_inv_spec b H) as (Ha & Hl & Hw). unfold tblock_lines.
  constructor; [exact (hex4_label _ Ha)|]. constructor; [apply dec_label, len_nonneg|].
  apply Forall_forall. intros l Hin. apply in_map_iff in Hin. destruct Hin as [w [<- Hin]].
  rewrite Forall_forall in Hw. apply tword_label. apply Hw. exact Hin.
Qed.
Lemma text_lines_words blocks : forallb block_inv blocks = true -> Forall (fun l => label_text_ok l = true) (flat_map tblock_lines blocks).
Proof.
  induction blocks as [|b bl IH]; intro H; [constructor|]. apply forallb_cons_iff in H. destruct H as [Hb H].
  cbn [flat_map]. apply Forall_app. split; [apply tblock_lines_words; exact Hb|apply IH; exact H].
Qed.

Lemma table_all {X} (P : str -> Prop) (Q : X -> Prop) hdr (row : X -> str) lt xs :
  P hdr -> (forall x, Q x -> P (row x)) -> Forall Q xs ->
  Forall P (match xs with [] => [] | _ :: _ => hdr :: map row (sort_by lt xs) end).
Proof.
  intros Hh Hrow HQ. destruct xs as [|x0 xs0] eqn:E; [constructor|]. rewrite <- E in *. constructor; [exact Hh|].
  apply Forall_forall. intros l Hl. apply in_map_iff in Hl. destruct Hl as [x [<- Hx]]. apply Hrow.
  rewrite Forall_forall in HQ. apply HQ. apply (In_sort_by lt). exact Hx.
Qed.

Lemma take_words_ser ws rest : Forall word_ok ws ->
  take_words (List.length ws) (map tword ws ++ rest) = Some (ws, rest).
Proof.
  induction 1 as [|w ws Hw _ IH]; [reflexivity|].
  cbn [List.length take_words map app]. rewrite maybe_hex2u16_tword by exact Hw. rewrite IH. reflexivity.
Qed.
(* a block takes at least two lines, so one unit of fuel per line is enough *)
Lemma text_group_ser blocks : forall acc fuel,
  forallb block_inv blocks = true -> strictly_sorted (map fst (acc ++ blocks)) = true ->
  (List.length (flat_map tblock_lines blocks) <= fuel)%nat ->
  text_group fuel (flat_map tblock_lines blocks) acc = ROk (acc ++ blocks).
Proof.
  induction blocks as [|[a ws] blocks IH]; intros acc fuel Hi Hs Hl; [rewrite app_nil_r; destruct fuel; reflexivity|].
  apply forallb_cons_iff in Hi. destruct Hi as [Hb Hi]. destruct (block_inv_spec _ Hb) as (Ha & Hlen & Hw). cbn [fst snd] in *.
  cbn [flat_map] in *. change (tblock_lines (a, ws)) with (hex4 a :: fmt_dec (len ws) :: map tword ws) in *.
  cbn [app List.length] in *. rewrite app_length, map_length in Hl.
  destruct fuel as [|f]; [lia|]. cbn [text_group]. rewrite hex2u16_hex4 by exact Ha.
  pose proof (len_nonneg ws). rewrite parse_fmt_dec by (unfold U16_MAX; lia).
  unfold len. rewrite Nat2Z.id, take_words_ser by exact Hw.
  pose proof (sorted_keys_before _ _ _ _ Hs) as Hlt.
  rewrite bt_mem_fresh, bt_insert_last by exact Hlt.
  rewrite IH; rewrite <- ?app_assoc; [reflexivity|exact Hi|exact Hs|lia].
Qed.

Definition flush (cur : option (str * list str)) (acc : list (str * list str)) : list (str * list str) :=
  match cur with Some (h, b) => acc ++ [(h, b)] | None => acc end.
Lemma group_lines_body body : forall rest h b0 acc, Forall plain body ->
  group_lines (body ++ rest) (Some (h, b0)) acc = group_lines rest (Some (h, b0 ++ body)) acc.
Proof.
  induction body as [|l body IH]; intros rest h b0 acc H; [rewrite app_nil_r; reflexivity|].
  inversion H as [|? ? (_ & _ & Hl) H']; subst. cbn [app group_lines]. rewrite Hl. rewrite IH by exact H'.
  rewrite <- app_assoc. reflexivity.
Qed.
Lemma group_lines_header h rest cur acc : starts_with 46 h = true ->
  group_lines (h :: rest) cur acc = group_lines rest (Some (h, [])) (flush cur acc).
Proof. intro H. cbn [group_lines]. rewrite H. destruct cur as [[h0 b0]|]; reflexivity. Qed.
Definition section_lines (secs : list (str * list str)) : list str := flat_map (fun s => fst s :: snd s) secs.
Lemma group_lines_sections secs : forall cur acc,
  Forall (fun s => starts_with 46 (fst s) = true /\ Forall plain (snd s)) secs ->
  group_lines (section_lines secs) cur acc = Some (flush cur acc ++ secs).
Proof.
  induction secs as [|[h b] secs IH]; intros cur acc H; [destruct cur as [[h0 b0]|]; cbn; rewrite app_nil_r; reflexivity|].
  inversion H as [|? ? [Hh Hb] H']; subst. cbn [fst snd] in *. unfold section_lines. cbn [flat_map fst snd].
  rewrite <- app_comm_cons, group_lines_header, group_lines_body by assumption.
  fold (section_lines secs). rewrite IH by exact H'. cbn [flush app]. rewrite <- app_assoc. reflexivity.
Qed.
Lemma filter_kept ls : Forall plain ls -> filter keep_line ls = ls.
Proof. induction 1 as [|l ls (_ & Hk & _) _ IH]; [reflexivity|]. cbn [filter]. rewrite Hk, IH. reflexivity. Qed.

Lemma map_rows_map {T X} (f : list str -> Z -> option T) (g : X -> T) (mk : X -> list str) xs : forall i,
  (forall x j, In x xs -> f (mk x) j = Some (g x)) -> map_rows f (map mk xs) i = Some (map g xs).
Proof.
  induction xs as [|x xs IH]; intros i H; [reflexivity|]. cbn [map map_rows].
  rewrite H by (left; reflexivity). rewrite IH by (intros y j Hy; apply H; right; exact Hy). reflexivity.
Qed.
Lemma table_parse {T X} hdr cols (row : X -> str) rowp (g : X -> T) (Q : X -> Prop) lt xs :
  parse_header hdr cols = true ->
  (forall x j, Q x -> rowp (map trim (parse_row (List.length cols) (row x))) j = Some (g x)) -> Forall Q xs ->
  parse_table (match xs with [] => [] | _ :: _ => hdr :: map row (sort_by lt xs) end) cols rowp true = Some (map g (sort_by lt xs)).
Proof.
  intros Hh Hrow HQ. destruct xs as [|x0 xs0] eqn:E; [reflexivity|]. rewrite <- E in *.
  unfold parse_table. rewrite Hh, map_map. apply map_rows_map. intros x j Hx. apply Hrow.
  rewrite Forall_forall in HQ. apply HQ, (In_sort_by lt), Hx.
Qed.

Lemma hex4_no_sp_bar v : 0 <= v < 65536 -> no_sp_bar (hex4 v) = true.
Proof. intro H. apply no_bar_no_sp_bar. eapply digits_no_bar. apply hex4_digits. exact H. Qed.
Lemma hex4_trim v : 0 <= v < 65536 -> trim (hex4 v) = hex4 v.
Proof. intro H. apply label_ok_trim, hex4_label. exact H. Qed.

Definition lab_ok (p : str * symdata) : Prop :=
  0 <= sd_addr (snd p) < 65536 /\ 0 <= sd_src_start (snd p) <= USIZE_MAX /\ label_text_ok (fst p) = true.
Lemma sym_row_parse p j : lab_ok p ->
  sym_rowp (map trim (parse_row 3 (sym_row p))) j = Some (sd_addr (snd p), sd_external (snd p), fst p).
Proof.
  intros (Ha & _ & Hl). unfold sym_row, parse_row.
  rewrite row_split3; [|apply hex4_no_sp_bar; exact Ha|destruct (sd_external (snd p)); reflexivity].
  cbn [List.length Nat.sub repeat app map]. rewrite hex4_trim by exact Ha.
  rewrite (label_ok_trim (fst p)) by exact Hl.
  unfold sym_rowp. rewrite hex2u16_hex4 by exact Ha.
  destruct (sd_external (snd p)); reflexivity.
Qed.
Lemma sym_row_ok p : lab_ok p -> line_ok (sym_row p).
Proof.
  intros (Ha & _ & Hl). apply (line_ok_label 0 _ _ (hex4_label _ Ha)). rewrite !nl_free_app, (label_ok_nl_free _ Hl).
  destruct (sd_external (snd p)); reflexivity.
Qed.

Definition rel_entry_ok (p : Z * str) : Prop := 0 <= fst p < 65536 /\ label_text_ok (snd p) = true.
Lemma rel_row_parse p j : rel_entry_ok p -> rel_rowp (map trim (parse_row 2 (rel_row p))) j = Some p.
Proof.
  intros [Ha Hl]. unfold rel_row, parse_row. rewrite row_split2 by (apply hex4_no_sp_bar; exact Ha).
  cbn [List.length Nat.sub repeat app map]. rewrite hex4_trim by exact Ha.
  rewrite (label_ok_trim (snd p)) by exact Hl.
  unfold rel_rowp. rewrite hex2u16_hex4 by exact Ha. destruct p; reflexivity.
Qed.
Lemma rel_row_ok p : rel_entry_ok p -> line_ok (rel_row p).
Proof.
  intros [Ha Hl]. apply (line_ok_label 0 _ _ (hex4_label _ Ha)). rewrite nl_free_app, (label_ok_nl_free _ Hl). reflexivity.
Qed.

Lemma idx_row_parse lc ic p j : lab_ok p ->
  idx_rowp (map trim (parse_row 2 (idx_row lc ic p))) j = Some (fst p, sd_src_start (snd p)).
Proof.
  intros (_ & Hs & Hl). unfold idx_row, parse_row, pad_right, pad_left. pose proof (label_ok_no_ws _ Hl) as Hnw.
  rewrite row_split2 by (apply no_ws_pad_no_sp_bar; exact Hnw).
  cbn [List.length Nat.sub repeat app map].
  rewrite trim_pad_right by exact Hnw.
  rewrite trim_pad_left by (eapply digits_no_ws, fmt_radix_digits; lia).
  unfold idx_rowp. rewrite parse_fmt_dec by lia. reflexivity.
Qed.
Lemma idx_row_ok lc ic p : lab_ok p -> line_ok (idx_row lc ic p).
Proof.
  intros (_ & Hs & Hl). unfold idx_row, pad_right, pad_left. rewrite <- app_assoc. apply (line_ok_label 0 _ _ Hl).
  rewrite !nl_free_app, !nl_free_spaces, (label_ok_nl_free _ (dec_label _ (proj1 Hs))). reflexivity.
Qed.
Definition idx_header (lc ic : Z) : str := pad_right 32 lc LABEL ++ TABLE_DIV ++ pad_right 32 ic INDEX.
Lemma idx_header_parse lc ic : parse_header (idx_header lc ic) [LABEL; INDEX] = true.
Proof.
  unfold parse_header, idx_header, pad_right. cbn [List.length].
  rewrite row_split2 by (apply no_ws_pad_no_sp_bar; reflexivity).
  cbn [map]. rewrite !trim_pad_right by reflexivity. reflexivity.
Qed.
Lemma idx_header_ok lc ic : line_ok (idx_header lc ic).
Proof.
  unfold idx_header, pad_right. rewrite <- app_assoc. apply (line_ok_label 0); [reflexivity|].
  rewrite !nl_free_app, !nl_free_spaces. reflexivity.
Qed.

Definition line_header (lc : Z) : str := pad_right 32 lc LINE ++ TABLE_DIV ++ s2z "ADDR" ++ TABLE_DIV ++ s2z "SOURCE".
Lemma tword_no_sp_bar w : word_ok w -> no_sp_bar (tword w) = true.
Proof. destruct w as [v|]; cbn [word_ok tword]; intro H; [apply hex4_no_sp_bar; exact H|reflexivity]. Qed.
Lemma line_row_parse src lc k m : 0 <= k <= USIZE_MAX -> word_ok m ->
  line_rowp (parse_row 3 (line_row src lc (k, m))) k = Some (m, escape (src_line src k)).
Proof.
  intros Hk Hm. unfold line_row, parse_row, pad_left. cbn [fst snd].
  pose proof (fmt_radix_digits 10 false k ltac:(lia) ltac:(lia)) as Hd.
  rewrite row_split3.
  2:{ apply no_bar_no_sp_bar. rewrite forallb_app. apply andb_true_iff. split.
      - apply forallb_repeat. reflexivity.
      - eapply digits_no_bar. exact Hd. }
  2:{ apply tword_no_sp_bar. exact Hm. }
  cbn [List.length Nat.sub repeat app]. unfold line_rowp.
  rewrite trim_pad_left by (eapply digits_no_ws; exact Hd).
  change (fmt_radix 10 false k) with (fmt_dec k). rewrite parse_fmt_dec by lia. rewrite Z.eqb_refl.
  rewrite label_ok_trim by (apply tword_label; exact Hm). rewrite maybe_hex2u16_tword by exact Hm. reflexivity.
Qed.
Lemma line_header_parse lc : parse_header (line_header lc) [LINE; s2z "ADDR"; s2z "SOURCE"] = true.
Proof.
  unfold parse_header, line_header, pad_right. cbn [List.length].
  rewrite row_split3; [|apply no_ws_pad_no_sp_bar; reflexivity|reflexivity].
  cbn [map]. rewrite trim_pad_right by reflexivity. reflexivity.
Qed.
Lemma line_header_ok lc : line_ok (line_header lc).
Proof.
  unfold line_header, pad_right. rewrite <- app_assoc. apply (line_ok_label 0); [reflexivity|].
  rewrite !nl_free_app, nl_free_spaces. reflexivity.
Qed.
Lemma src_line_valid src k : valid_str src = true -> valid_str (src_line src k) = true.
Proof.
  unfold valid_str. intro Hv. apply forallb_forall. intros x Hx. rewrite forallb_forall in Hv. apply Hv.
  unfold src_line in Hx. destruct (raw_line_span src k) as [[a b]|]; [|destruct Hx]. exact (sub_from_in _ _ _ _ _ Hx).
Qed.
Lemma line_row_ok src lc k m : valid_str src = true -> 0 <= k -> word_ok m -> line_ok (line_row src lc (k, m)).
Proof.
  intros Hv Hk Hm. unfold line_row, pad_left. cbn [fst snd]. rewrite <- app_assoc. apply (line_ok_label _ _ _ (dec_label k Hk)).
  rewrite !nl_free_app, (label_ok_nl_free _ (tword_label m Hm)).
  rewrite (nl_free_printable (escape _)) by (apply escape_printable; apply src_line_valid; exact Hv). reflexivity.
Qed.
Lemma line_rows_parse src lc ms : forall i, 0 <= i -> i + len ms <= USIZE_MAX + 1 -> Forall word_ok ms ->
  map_rows line_rowp (map (parse_row 3) (map (line_row src lc) (combine (seqz i (List.length ms)) ms))) i
  = Some (combine ms (map (fun k => escape (src_line src k)) (seqz i (List.length ms)))).
Proof.
  induction ms as [|m ms IH]; intros i Hi Hb Hw; [reflexivity|].
  inversion Hw as [|? ? Hm Hw']; subst. rewrite len_cons in Hb. pose proof (len_nonneg ms).
  cbn [List.length seqz combine map map_rows].
  rewrite line_row_parse by (try exact Hm; lia).
  rewrite IH by (try exact Hw'; lia). reflexivity.
Qed.

Lemma hm_update_fresh k f m : ~ In k (map fst m) -> hm_update k f m = m ++ [(k, f (mkSym 0 0 false))].
Proof.
  induction m as [|[k' v'] m IH]; intro H; [reflexivity|]. cbn [hm_update app].
  destruct (str_eqb k k') eqn:E.
  - apply str_eqb_eq in E. exfalso. apply H. left. cbn. congruence.
  - rewrite IH; [reflexivity|]. intro Hin. apply H. right. exact Hin.
Qed.
Lemma hm_update_present k f m : NoDup (map fst m) -> In k (map fst m) ->
  hm_update k f m = map (fun q => if str_eqb k (fst q) then (fst q, f (snd q)) else q) m.
Proof.
  induction m as [|[k' v'] m IH]; intros Hnd Hin; [destruct Hin|]. cbn [hm_update map fst snd].
  cbn [map fst] in Hnd. inversion Hnd as [|? ? Hn Hnd']; subst.
  destruct (str_eqb k k') eqn:E.
  - apply str_eqb_eq in E. subst k'. f_equal. symmetry. rewrite <- (map_id m) at 2. apply map_ext_in. intros q Hq.
    destruct (str_eqb k (fst q)) eqn:E2; [|reflexivity]. apply str_eqb_eq in E2. exfalso. apply Hn. rewrite E2. apply in_map. exact Hq.
  - f_equal. apply IH; [exact Hnd'|]. destruct Hin as [Hin|Hin]; [|exact Hin]. cbn in Hin. subst. rewrite str_eqb_refl in E. discriminate.
Qed.

Definition strip_src (p : str * symdata) : str * symdata := (fst p, mkSym (sd_addr (snd p)) 0 (sd_external (snd p))).

Lemma fold_sym_update entries : forall acc, NoDup (map fst (acc ++ entries)) ->
  fold_left (fun m '(addr, ext, l) => hm_update l (fun d => mkSym addr (sd_src_start d) ext) m)
            (map (fun p : str * symdata => (sd_addr (snd p), sd_external (snd p), fst p)) entries) acc
  = acc ++ map strip_src entries.
Proof.
  induction entries as [|p entries IH]; intros acc H; [rewrite app_nil_r; reflexivity|].
  cbn [map fold_left]. rewrite hm_update_fresh.
  - rewrite IH.
    + rewrite <- app_assoc. reflexivity.
    + rewrite <- app_assoc. rewrite map_app in *. cbn [map fst app] in *. exact H.
  - rewrite map_app in H. cbn [map] in H. apply NoDup_remove_2 in H. intro Hin. apply H. apply in_or_app. left. exact Hin.
Qed.

Definition set_src (p q : str * symdata) : str * symdata :=
  if str_eqb (fst p) (fst q) then (fst q, mkSym (sd_addr (snd q)) (sd_src_start (snd p)) (sd_external (snd q))) else q.
Lemma set_src_fst p q : fst (set_src p q) = fst q.
Proof. unfold set_src. destruct (str_eqb _ _); reflexivity. Qed.

Lemma fold_set_src E : forall m, NoDup (map fst m) -> (forall p, In p E -> In (fst p) (map fst m)) ->
  fold_left (fun m p => hm_update (fst p) (fun d => mkSym (sd_addr d) (snd p) (sd_external d)) m)
            (map (fun p : str * symdata => (fst p, sd_src_start (snd p))) E) m
  = map (fun q => fold_left (fun q p => set_src p q) E q) m.
Proof.
  induction E as [|p E IH]; intros m Hnd Hin; [cbn [map fold_left]; rewrite map_id; reflexivity|].
  cbn [map fold_left fst snd]. rewrite hm_update_present by (try exact Hnd; apply Hin; left; reflexivity).
  fold (set_src p). assert (Ek : map fst (map (set_src p) m) = map fst m) by (rewrite map_map; apply map_ext; intro q; apply set_src_fst).
  rewrite IH; [rewrite map_map; reflexivity|rewrite Ek; exact Hnd|intros p' Hp'; rewrite Ek; apply Hin; right; exact Hp'].
Qed.

(* .SYMBOL gave the entry without its source position; its own row of the label table restores it *)
Lemma restore_src q E : (forall p, In p E -> fst p = fst q -> p = q) ->
  forall x, x = q \/ (x = strip_src q /\ In q E) -> fold_left (fun x p => set_src p x) E x = q.
Proof.
  induction E as [|p E IH]; intros Hu x Hx; cbn [fold_left].
  - destruct Hx as [->|[_ []]]. reflexivity.
  - apply IH; [intros p' Hp'; apply Hu; right; exact Hp'|].
    assert (Ex : fst x = fst q) by (destruct Hx as [->|[-> _]]; reflexivity).
    unfold set_src. rewrite Ex. destruct (str_eqb (fst p) (fst q)) eqn:E1.
    + left. apply str_eqb_eq in E1. rewrite (Hu p (or_introl eq_refl) E1).
      destruct Hx as [->|[-> _]]; destruct q as [n [a s e]]; reflexivity.
    + destruct Hx as [->|[-> [->|Hin]]]; [left; reflexivity|rewrite str_eqb_refl in E1; discriminate|right; split; [reflexivity|exact Hin]].
Qed.

Lemma label_table_roundtrip labels : NoDup (map fst labels) ->
  fold_left (fun m p => hm_update (fst p) (fun d => mkSym (sd_addr d) (snd p) (sd_external d)) m)
            (map (fun p : str * symdata => (fst p, sd_src_start (snd p))) (sort_by idx_lt labels))
            (map strip_src (sort_by sym_lt labels))
  = sort_by sym_lt labels.
Proof.
  intro Hnd. assert (Ek : map fst (map strip_src (sort_by sym_lt labels)) = map fst (sort_by sym_lt labels))
    by (rewrite map_map; apply map_ext; reflexivity).
  rewrite fold_set_src.
  - rewrite map_map. rewrite <- (map_id (sort_by sym_lt labels)) at 2. apply map_ext_in. intros q Hq. apply restore_src.
    + intros p Hp Ep. apply In_sort_by in Hp. apply In_sort_by in Hq. exact (NoDup_map_inj fst labels p q Hnd Hp Hq Ep).
    + right. split; [reflexivity|]. apply In_sort_by. apply In_sort_by in Hq. exact Hq.
  - rewrite Ek. apply NoDup_sort_by. exact Hnd.
  - intros p Hp. rewrite Ek. apply in_map. apply In_sort_by. apply In_sort_by in Hp. exact Hp.
Qed.

Lemma group_text rest st : group (s2z ".TEXT") rest st
  = rd_bind (text_group (List.length rest) rest (t_blocks st)) (fun bl => ROk (mkT bl (t_labels st) (t_rel st) (t_dbg st))).
Proof. reflexivity. Qed.
Lemma group_symbol rest st : group (s2z ".SYMBOL") rest st
  = match parse_table rest [s2z "ADDR"; s2z "EXT"; LABEL] sym_rowp true with
    | None => RNone
    | Some tab => ROk (mkT (t_blocks st) (fold_left (fun m '(addr, ext, l) => hm_update l (fun d => mkSym addr (sd_src_start d) ext) m) tab (t_labels st))
                           (t_rel st) (t_dbg st))
    end.
Proof. reflexivity. Qed.
Lemma group_linker rest st : group (s2z ".LINKER_INFO") rest st
  = match parse_table rest [s2z "ADDR"; LABEL] rel_rowp true with
    | None => RNone
    | Some tab => ROk (mkT (t_blocks st) (t_labels st) (fold_left (fun m p => hm_insert Z.eqb (fst p) (snd p) m) tab (t_rel st)) (t_dbg st))
    end.
Proof. reflexivity. Qed.
Lemma group_debug rest st : group (s2z ".DEBUG") rest st = debug_group rest st.
Proof. reflexivity. Qed.

Lemma grp_text blocks ls rs dbg : forallb block_inv blocks = true -> strictly_sorted (map fst blocks) = true ->
  group (s2z ".TEXT") (flat_map tblock_lines blocks) (mkT [] ls rs dbg) = ROk (mkT blocks ls rs dbg).
Proof.
  intros Hi Hs. rewrite group_text. cbn [t_blocks t_labels t_rel t_dbg].
  rewrite (text_group_ser blocks []) by (try apply le_n; assumption). reflexivity.
Qed.

Definition sym_table_lines (labels : list (str * symdata)) : list str :=
  match labels with [] => [] | _ => s2z "ADDR | EXT | LABEL" :: map sym_row (sort_by sym_lt labels) end.
Definition rel_table_lines (rel : list (Z * str)) : list str :=
  match rel with [] => [] | _ => s2z "ADDR | LABEL" :: map rel_row (sort_by rel_lt rel) end.

Lemma grp_symbol labels b r d : Forall lab_ok labels -> NoDup (map fst labels) ->
  group (s2z ".SYMBOL") (sym_table_lines labels) (mkT b [] r d)
  = ROk (mkT b (map strip_src (sort_by sym_lt labels)) r d).
Proof.
  intros Hok Hnd. rewrite group_symbol. cbn [t_blocks t_labels t_rel t_dbg].
  unfold sym_table_lines.
  rewrite (table_parse (s2z "ADDR | EXT | LABEL") [s2z "ADDR"; s2z "EXT"; LABEL] sym_row sym_rowp _ lab_ok sym_lt labels eq_refl sym_row_parse Hok).
  rewrite (fold_sym_update (sort_by sym_lt labels) []) by (apply NoDup_sort_by; exact Hnd). reflexivity.
Qed.

Lemma grp_linker rel b l d : Forall rel_entry_ok rel -> NoDup (map fst rel) ->
  group (s2z ".LINKER_INFO") (rel_table_lines rel) (mkT b l [] d) = ROk (mkT b l (sort_by rel_lt rel) d).
Proof.
  intros Hok Hnd. rewrite group_linker. cbn [t_blocks t_labels t_rel t_dbg].
  unfold rel_table_lines.
  rewrite (table_parse (s2z "ADDR | LABEL") [s2z "ADDR"; LABEL] rel_row rel_rowp (fun p => p) rel_entry_ok rel_lt rel eq_refl rel_row_parse Hok).
  rewrite map_id, (fold_hm_nodup Z.eqb Z.eqb_eq (sort_by rel_lt rel) []) by (apply NoDup_sort_by; exact Hnd). reflexivity.
Qed.

Lemma break_div_app ls : forall d rest, Forall line_ok ls -> starts_with 61 d = true ->
  break_div (ls ++ d :: rest) = Some (ls, d :: rest).
Proof.
  induction ls as [|l ls IH]; intros d rest H Hd.
  - cbn [app break_div]. rewrite Hd. reflexivity.
  - inversion H as [|? ? [_ Hl] H']; subst. cbn [app break_div]. rewrite Hl. rewrite IH by assumption. reflexivity.
Qed.

Lemma escape_flat_map {A} (g : A -> str) l : flat_map (fun x => escape (g x)) l = escape (flat_map g l).
Proof. induction l as [|x l IH]; [reflexivity|]. cbn [flat_map]. unfold escape at 3. rewrite flat_map_app. fold (escape (g x)). rewrite IH. reflexivity. Qed.
Lemma runs_separated_cons2 l a l' a' r :
  runs_separated ((l, a) :: (l', a') :: r) = (l + len a <? l') && runs_separated ((l', a') :: r).
Proof. reflexivity. Qed.
Lemma runs_in_of_inv runs n : runs_separated runs = true ->
  forallb (fun p : Z * list Z => negb (match snd p with [] => true | _ => false end) && (fst p + len (snd p) <? n)) runs = true ->
  forall cur, (match runs with [] => cur <= n | (l, _) :: _ => cur <= l end) -> runs_in cur runs n.
Proof.
  induction runs as [|[l a] r IH]; intros Hs Hb cur Hc; [exact Hc|].
  apply forallb_cons_iff in Hb. destruct Hb as [Hb0 Hb].
  cbn [fst snd] in Hb0. apply andb_true_iff in Hb0. destruct Hb0 as [Hne Hlt]. apply Z.ltb_lt in Hlt.
  cbn [runs_in]. split; [exact Hc|]. split; [destruct a; [discriminate|discriminate]|].
  destruct r as [|[l' a'] r'].
  - cbn [runs_in]. lia.
  - rewrite runs_separated_cons2 in Hs. apply andb_true_iff in Hs. destruct Hs as [Hs0 Hs]. apply Z.ltb_lt in Hs0.
    apply IH; [exact Hs|exact Hb|lia].
Qed.
Lemma vec_word_ok runs : forall cur n, forallb run_inv runs = true -> Forall word_ok (vec cur runs n).
Proof.
  induction runs as [|[l a] r IH]; intros cur n H; cbn [vec].
  - apply Forall_forall. intros x Hx. apply repeat_spec in Hx. subst. exact Logic.I.
  - apply forallb_cons_iff in H. destruct H as [Hr H]. apply Forall_app. split.
    + apply Forall_forall. intros x Hx. apply repeat_spec in Hx. subst. exact Logic.I.
    + apply Forall_app. split; [|apply IH; exact H].
      pose proof (rf_u16 _ (run_inv_spec _ Hr)) as Hw. cbn [snd] in Hw.
      apply Forall_forall. intros x Hx. apply in_map_iff in Hx. destruct Hx as [v [<- Hv]].
      rewrite Forall_forall in Hw. exact (Hw v Hv).
Qed.

Definition debug_lines (dbg : option debug_symbols) : list str :=
  match dbg with Some d => line_table_lines d ++ [DIVIDER] | None => [] end.

Lemma line_table_eq d : debug_facts d -> debug_text_inv d = true ->
  line_table d = tbl 0 (vec 0 (ds_lines d) (count_lines (ds_src d)))
  /\ runs_in 0 (ds_lines d) (count_lines (ds_src d))
  /\ List.length (vec 0 (ds_lines d) (count_lines (ds_src d))) = List.length (nl_indices (ds_src d))
  /\ 1 <= count_lines (ds_src d).
Proof.
  intros [Hruns _ _ _ Hlen] Ht.
  unfold debug_text_inv in Ht. apply andb_true_iff in Ht. destruct Ht as [Hsep Hbnd].
  set (n := count_lines (ds_src d)).
  pose proof (count_lines_pos (ds_src d)) as Hn1. fold n in Hn1.
  assert (Hrin : runs_in 0 (ds_lines d) n).
  { apply runs_in_of_inv; try assumption. destruct (ds_lines d) as [|[l a] r] eqn:E; [lia|].
    apply forallb_cons_iff in Hruns. destruct Hruns as [Hr _]. exact (rf_pos _ (run_inv_spec _ Hr)). }
  assert (Hnb : n <= 18446744073709551616).
  { pose proof (count_lines_bound (ds_src d)). unfold n, ISIZE_MAX in *. lia. }
  split; [|split; [exact Hrin|split; [|exact Hn1]]].
  - unfold line_table. rewrite tbl_base.
    pose proof (line_table_vec (ds_lines d) 0 [] n Hrin ltac:(lia) Hnb ltac:(constructor)) as E. cbn [app] in E.
    replace (Z.to_nat (n - 0)) with (List.length (nl_indices (ds_src d))) in E by (unfold n, count_lines; lia).
    exact E.
  - pose proof (length_vec (ds_lines d) 0 n Hrin) as E. unfold len, n, count_lines in *. lia.
Qed.
Lemma line_table_lines_ok d : debug_facts d -> debug_text_inv d = true -> Forall line_ok (line_table_lines d).
Proof.
  intros Hi Ht. destruct (line_table_eq d Hi Ht) as (Et & _). destruct Hi as [Hruns _ _ Hv _].
  unfold line_table_lines. destruct (line_table d) as [|t0 ts] eqn:E; [constructor|].
  constructor; [apply line_header_ok|]. apply Forall_forall. intros l Hl. apply in_map_iff in Hl. destruct Hl as [[k m] [<- Hp]].
  rewrite Et in Hp. unfold tbl in Hp. pose proof (in_combine_l _ _ _ _ Hp) as Hk. apply zrange_In in Hk.
  apply line_row_ok; [exact Hv|lia|].
  pose proof (vec_word_ok (ds_lines d) 0 (count_lines (ds_src d)) Hruns) as G. rewrite Forall_forall in G. apply G.
  exact (in_combine_r _ _ _ _ Hp).
Qed.

Lemma line_table_parse d : debug_facts d -> debug_text_inv d = true ->
  exists row rows, parse_table (line_table_lines d) [LINE; s2z "ADDR"; s2z "SOURCE"] line_rowp false = Some (row :: rows)
    /\ map fst (row :: rows) = vec 0 (ds_lines d) (count_lines (ds_src d))
    /\ unescape (flat_map snd (row :: rows)) = Some (ds_src d).
Proof.
  intros Hi Ht. destruct (line_table_eq d Hi Ht) as (Et & Hrin & Elen & Hne).
  destruct Hi as [Hruns _ _ Hv Hlen].
  unfold line_table_lines. rewrite Et. set (ms := vec 0 (ds_lines d) (count_lines (ds_src d))) in *.
  assert (Hms : ms <> []) by (intro E0; rewrite E0 in Elen; unfold count_lines in Hne; rewrite <- Elen in Hne; cbn in Hne; lia).
  destruct (tbl 0 ms) as [|t0 ts] eqn:Etbl; [destruct ms; [contradiction|discriminate]|]. rewrite <- Etbl.
  unfold parse_table. fold (line_header (Z.max (len LINE) (count_digits (fst (last (tbl 0 ms) (0, None)))))).
  rewrite line_header_parse. cbn [List.length]. unfold tbl.
  rewrite (map_ext _ (parse_row 3) (fun l => map_id (parse_row 3 l))), line_rows_parse.
  2:{ lia. }
  2:{ pose proof (length_vec (ds_lines d) 0 (count_lines (ds_src d)) Hrin) as E. fold ms in E. rewrite E.
      pose proof (count_lines_bound (ds_src d)). unfold USIZE_MAX, ISIZE_MAX in *. lia. }
  2:{ apply vec_word_ok. exact Hruns. }
  set (esc := map (fun k : Z => escape (src_line (ds_src d) k)) (seqz 0 (List.length ms))).
  assert (Hl : List.length ms = List.length esc) by (unfold esc; rewrite map_length, zrange_length; reflexivity).
  destruct (combine ms esc) as [|row rows] eqn:Ec; [destruct ms; [contradiction|destruct esc; discriminate]|].
  exists row, rows. rewrite <- Ec. split; [reflexivity|]. split; [apply map_fst_combine; exact Hl|].
  pose proof (flat_map_snd_combine ms esc Hl) as X. unfold str in *. rewrite X. unfold esc. rewrite <- flat_map_concat_map, escape_flat_map, Elen, src_lines_concat.
  apply unescape_escape. exact Hv.
Qed.

Lemma label_table_parse labels : Forall lab_ok labels -> NoDup (map fst labels) ->
  exists ltab, parse_table (label_table_lines labels) [LABEL; INDEX] idx_rowp true = Some ltab /\
    fold_left (fun m p => hm_update (fst p) (fun d => mkSym (sd_addr d) (snd p) (sd_external d)) m) ltab
              (map strip_src (sort_by sym_lt labels)) = sort_by sym_lt labels.
Proof.
  intros Hok Hnd. eexists. split; [|apply label_table_roundtrip; exact Hnd].
  apply (table_parse _ _ _ idx_rowp _ lab_ok idx_lt labels); [apply idx_header_parse| |exact Hok].
  intros x j Hx. apply idx_row_parse. exact Hx.
Qed.
Lemma label_table_lines_ok labels : Forall lab_ok labels -> Forall line_ok (label_table_lines labels).
Proof.
  intro H. exact (table_all line_ok lab_ok _ _ idx_lt labels (idx_header_ok _ _) (idx_row_ok _ _) H).
Qed.

Definition debug_vec (dbg : option debug_symbols) : option (list (option Z) * str) :=
  match dbg with Some d => Some (vec 0 (ds_lines d) (count_lines (ds_src d)), ds_src d) | None => None end.

Lemma grp_debug labels dbg b r :
  Forall lab_ok labels -> NoDup (map fst labels) ->
  (forall d, dbg = Some d -> debug_facts d /\ debug_text_inv d = true) ->
  group (s2z ".DEBUG") (label_table_lines labels ++ [DIVIDER] ++ debug_lines dbg)
        (mkT b (map strip_src (sort_by sym_lt labels)) r None)
  = ROk (mkT b (sort_by sym_lt labels) r (debug_vec dbg)).
Proof.
  intros Hok Hnd Hdbg. rewrite group_debug.
  set (LB := label_table_lines labels). unfold debug_group.
  destruct (LB ++ [DIVIDER] ++ debug_lines dbg) as [|r0 rs] eqn:Erest; [destruct LB; discriminate|]. rewrite <- Erest.
  cbn [app] in *. rewrite (break_div_app LB DIVIDER (debug_lines dbg) (label_table_lines_ok labels Hok) eq_refl).
  replace (starts_with 61 (last (LB ++ DIVIDER :: debug_lines dbg) [])) with true.
  2:{ destruct dbg as [d|]; cbn [debug_lines]; [rewrite app_comm_cons, app_assoc|]; rewrite last_last; reflexivity. }
  cbn [negb]. destruct (label_table_parse labels Hok Hnd) as (ltab & E1 & E2). fold LB in E1.
  rewrite E1. cbn [t_labels t_blocks t_rel t_dbg]. rewrite E2.
  destruct dbg as [d|]; cbn [debug_lines]; [|reflexivity].
  destruct (Hdbg d eq_refl) as [Hdi Hdt].
  destruct (line_table_lines d ++ [DIVIDER]) as [|l0 ls0] eqn:El; [destruct (line_table_lines d); discriminate|].
  rewrite <- El, removelast_last.
  destruct (line_table_parse d Hdi Hdt) as (row & rows & E3 & E4 & E5). rewrite E3. cbn [app]. rewrite E5, E4. reflexivity.
Qed.

Record sym_facts (blocks : list (Z * list (option Z))) (st : symtab) : Prop := {
  sf_lab : Forall lab_ok (st_labels st);
  sf_nd : NoDup (map fst (st_labels st));
  sf_rel : Forall rel_entry_ok (st_rel st);
  sf_ndr : NoDup (map fst (st_rel st));
  sf_chk : check_relocations blocks (st_rel st) = true;
  sf_dbg : forall d, st_debug st = Some d -> debug_facts d /\ debug_text_inv d = true;
  sf_ne : st_labels st <> [] \/ st_debug st <> None
}.

Lemma text_inv_spec o : text_inv o = true ->
  forallb block_inv (o_blocks o) = true /\ strictly_sorted (map fst (o_blocks o)) = true /\
  forall st, o_sym o = Some st -> sym_facts (o_blocks o) st.
Proof.
  unfold text_inv. intro H. apply andb_true_iff in H. destruct H as [H Ht].
  destruct (obj_inv_spec o H) as (Hbl & Hss & Hsym). split; [exact Hbl|]. split; [exact Hss|]. intros st Est. rewrite Est in Ht.
  destruct (Hsym st Est) as [Hlab Hnd Hrel Hndr Hchk Hdbg Hne].
  apply andb_true_iff in Ht. destruct Ht as [Ht Htd]. apply andb_true_iff in Ht. destruct Ht as [Htl Htr].
  rewrite forallb_forall in Hlab, Htl, Hrel, Htr.
  constructor; try assumption.
  - apply Forall_forall. intros p Hp. destruct (label_inv_spec p (Hlab p Hp)) as (_ & Ha & Hs & _). split; [exact Ha|]. split; [exact Hs|exact (Htl p Hp)].
  - apply Forall_forall. intros p Hp. destruct (rel_inv_spec p (Hrel p Hp)) as (Ha & _). split; [exact Ha|exact (Htr p Hp)].
  - intros d Ed. rewrite Ed in Htd. split; [exact (Hdbg d Ed)|exact Htd].
Qed.

Definition sections (st : symtab) : list (str * list str) :=
  [(s2z ".SYMBOL", sym_table_lines (st_labels st)); (s2z ".LINKER_INFO", rel_table_lines (st_rel st));
   (s2z ".DEBUG", label_table_lines (st_labels st) ++ [DIVIDER] ++ debug_lines (st_debug st))].

Lemma sym_table_lines_ok labels : Forall lab_ok labels -> Forall line_ok (sym_table_lines labels).
Proof. apply table_all; [repeat split|exact sym_row_ok]. Qed.
Lemma rel_table_lines_ok rel : Forall rel_entry_ok rel -> Forall line_ok (rel_table_lines rel).
Proof. apply table_all; [repeat split|exact rel_row_ok]. Qed.
Lemma sym_lines_eq st :
  sym_lines st = [s2z ".SYMBOL"] ++ sym_table_lines (st_labels st) ++ [[]] ++ [s2z ".LINKER_INFO"]
    ++ rel_table_lines (st_rel st) ++ [[]] ++ [s2z ".DEBUG"; s2z "# DEBUG SYMBOLS FOR LC3TOOLS"; []]
    ++ label_table_lines (st_labels st) ++ [DIVIDER] ++ debug_lines (st_debug st).
Proof. reflexivity. Qed.

Lemma sym_parts_ok st blocks : sym_facts blocks st ->
  Forall plain (sym_table_lines (st_labels st)) /\ Forall plain (rel_table_lines (st_rel st))
  /\ Forall plain (label_table_lines (st_labels st)) /\ Forall plain (debug_lines (st_debug st)).
Proof.
  intros F. pose proof line_plain as W.
  split; [apply W, sym_table_lines_ok, (sf_lab _ _ F)|]. split; [apply W, rel_table_lines_ok, (sf_rel _ _ F)|].
  split; [apply W, label_table_lines_ok, (sf_lab _ _ F)|].
  destruct (st_debug st) as [d|] eqn:Ed; cbn [debug_lines]; [|constructor].
  destruct (sf_dbg _ _ F d Ed) as [Hi Ht]. apply Forall_app. split; [apply W, line_table_lines_ok; assumption|].
  repeat constructor.
Qed.

Lemma sections_kept st blocks : sym_facts blocks st ->
  Forall (fun s => starts_with 46 (fst s) = true /\ Forall plain (snd s)) (sections st).
Proof.
  intro F. destruct (sym_parts_ok st blocks F) as (H1 & H2 & H3 & H4).
  constructor; [split; [reflexivity|exact H1]|].
  constructor; [split; [reflexivity|exact H2]|].
  constructor; [split; [reflexivity|]|constructor].
  cbn [snd]. apply Forall_app. split; [exact H3|]. constructor; [repeat split|exact H4].
Qed.

Lemma filter_sym_lines st blocks : sym_facts blocks st -> filter keep_line (sym_lines st) = section_lines (sections st).
Proof.
  intro F. destruct (sym_parts_ok st blocks F) as (H1 & H2 & H3 & H4).
  unfold section_lines, sections. cbn [flat_map fst snd]. rewrite !app_nil_r, sym_lines_eq, !filter_app.
  rewrite (filter_kept _ H1), (filter_kept _ H2), (filter_kept _ H3), (filter_kept _ H4). reflexivity.
Qed.

Lemma text_part_kept blocks : forallb block_inv blocks = true -> Forall plain (flat_map tblock_lines blocks).
Proof.
  intro H. eapply Forall_impl; [|apply text_lines_words; exact H]. intros l Hl. rewrite <- (app_nil_r l). apply (line_ok_label 0 l [] Hl eq_refl).
Qed.

Lemma text_lines_sections o : text_inv o = true ->
  filter keep_line (text_lines o)
  = TFMT_MAGIC :: section_lines ((s2z ".TEXT", flat_map tblock_lines (o_blocks o))
                                 :: match o_sym o with Some st => sections st | None => [] end).
Proof.
  intro H. destruct (text_inv_spec o H) as (Hbl & Hss & Hsym). unfold text_lines.
  rewrite !filter_app. rewrite (filter_kept (flat_map _ _)) by (apply text_part_kept; exact Hbl).
  change (filter keep_line [TFMT_MAGIC; []; s2z ".TEXT"]) with [TFMT_MAGIC; s2z ".TEXT"].
  change (filter keep_line [[]]) with (@nil str). unfold section_lines at 1. cbn [app flat_map fst snd]. f_equal. f_equal. f_equal.
  destruct (o_sym o) as [st|]; [|reflexivity]. apply (filter_sym_lines st (o_blocks o)). apply Hsym. reflexivity.
Qed.

Lemma lsm_new_vec d : debug_facts d -> debug_text_inv d = true ->
  lsm_new (vec 0 (ds_lines d) (count_lines (ds_src d))) = ROk (ds_lines d).
Proof.
  intros Hi Ht. destruct (line_table_eq d Hi Ht) as (_ & Hrin & _).
  unfold lsm_new. rewrite (lsm_runs_vec (ds_lines d) 0 _ [] Hrin ltac:(lia) ltac:(constructor)). cbn [app rd_bind].
  exact (lsm_from_blocks_ok _ (df_runs d Hi) (df_disjoint d Hi)).
Qed.

Lemma read_debug_vec dbg : (forall d, dbg = Some d -> debug_facts d /\ debug_text_inv d = true) ->
  match debug_vec dbg with
  | Some (lm, src) => rd_bind (lsm_new lm) (fun lm' => ROk (Some (mkDebug lm' src)))
  | None => ROk None
  end = ROk dbg.
Proof.
  intro H. destruct dbg as [d|]; [|reflexivity]. destruct (H d eq_refl) as [Hdi Hdt]. cbn [debug_vec].
  rewrite (lsm_new_vec d Hdi Hdt). destruct d; reflexivity.
Qed.

Theorem deser_lines_text o : text_inv o = true ->
  exists o', deser_lines (filter keep_line (text_lines o)) = ROk o' /\ obj_equiv o o'.
Proof.
  intro H. rewrite (text_lines_sections o H). destruct (text_inv_spec o H) as (Hbl & Hss & Hsym).
  destruct o as [blocks sym]. cbn [o_blocks o_sym] in *.
  unfold deser_lines. change (str_eqb TFMT_MAGIC TFMT_MAGIC) with true. cbn [negb].
  pose proof (text_part_kept blocks Hbl) as Hnd.
  rewrite group_lines_sections; cbn [flush app].
  2:{ constructor; [split; [reflexivity|exact Hnd]|]. destruct sym as [st|]; [|constructor].
      exact (sections_kept st blocks (Hsym st eq_refl)). }
  destruct sym as [st|].
  - pose proof (Hsym st eq_refl) as F. unfold sections.
    change (DIVIDER :: debug_lines (st_debug st)) with ([DIVIDER] ++ debug_lines (st_debug st)).
    cbn [run_groups]. rewrite grp_text by assumption. cbn [rd_bind].
    rewrite grp_symbol by (apply (sf_lab _ _ F) || apply (sf_nd _ _ F)). cbn [rd_bind].
    rewrite grp_linker by (apply (sf_rel _ _ F) || apply (sf_ndr _ _ F)). cbn [rd_bind].
    rewrite grp_debug by (apply (sf_lab _ _ F) || apply (sf_nd _ _ F) || apply (sf_dbg _ _ F)). cbn [rd_bind t_dbg t_blocks t_labels t_rel].
    rewrite read_debug_vec by apply (sf_dbg _ _ F). cbn [rd_bind]. rewrite finish_obj_ok.
    2:{ unfold check_relocations. eapply forallb_perm; [apply sort_by_perm|apply (sf_chk _ _ F)]. }
    2:{ destruct (sf_ne _ _ F) as [Hn|Hn]; [left; rewrite sort_by_nil_iff; exact Hn|right; exact Hn]. }
    eexists. split; [reflexivity|]. split; [reflexivity|]. cbn [o_sym]. repeat split; cbn [st_labels st_rel st_debug]; apply sort_by_perm.
  - cbn [run_groups]. rewrite grp_text by assumption. cbn [rd_bind t_dbg t_blocks t_labels t_rel].
    unfold finish_obj. cbn. eexists. split; [reflexivity|]. split; [reflexivity|exact Logic.I].
Qed.

Lemma sym_lines_nlfree st blocks : sym_facts blocks st -> Forall (fun l => nl_free l = true) (sym_lines st).
Proof.
  intro F. destruct (sym_parts_ok st blocks F) as (H1 & H2 & H3 & H4).
  rewrite sym_lines_eq. repeat (apply Forall_app; split); try (repeat constructor; reflexivity);
    (eapply Forall_impl; [|eassumption]); intros l H; apply H.
Qed.

Lemma ln_blanks blanks : Forall (fun l : str => l = []) blanks -> forallb is_ws (flat_map ln blanks) = true.
Proof. induction 1 as [|l bl Hl _ IH]; [reflexivity|]. subst l. cbn [flat_map ln app forallb]. exact IH. Qed.

(* trim removes nothing but the final line feed and the blank lines after it *)
Lemma lines_trim_text h (x : str) (Ls : list str) Llast blanks : is_ws h = false ->
  Forall (fun l => nl_free l = true) (((h :: x : str) :: Ls) ++ [Llast]) -> no_ws Llast = true -> Llast <> [] ->
  Forall (fun l : str => l = []) blanks ->
  filter keep_line (lines (trim (flat_map ln (((h :: x : str) :: Ls) ++ [Llast] ++ blanks))))
  = filter keep_line (((h :: x : str) :: Ls) ++ [Llast] ++ blanks).
Proof.
  intros Hh Hnl Hw Hne Hb. remember ((h :: x : str) :: Ls) as Ls0 eqn:EL.
  destruct (exists_last Hne) as (Y & c & EY).
  assert (Hc : is_ws c = false).
  { rewrite EY in Hw. unfold no_ws in Hw. rewrite forallb_app in Hw. apply andb_true_iff in Hw. destruct Hw as [_ Hw].
    cbn [forallb] in Hw. rewrite andb_true_r in Hw. apply negb_true_iff in Hw. exact Hw. }
  assert (E : exists X, flat_map ln Ls0 ++ Llast = (h :: X) ++ [c]).
  { subst Llast Ls0. cbn [flat_map]. unfold ln at 1. eexists. rewrite app_assoc. cbn [app]. reflexivity. }
  destruct E as [X E].
  replace (filter keep_line (Ls0 ++ [Llast] ++ blanks)) with (filter keep_line (Ls0 ++ [Llast])).
  2:{ rewrite (app_assoc Ls0), (filter_app _ (Ls0 ++ [Llast])). clear - Hb. induction Hb as [|l bl -> _ IH]; [rewrite app_nil_r; reflexivity|exact IH]. }
  f_equal. rewrite !flat_map_app. cbn [flat_map]. rewrite app_nil_r. unfold ln at 2.
  replace (flat_map ln Ls0 ++ (Llast ++ [10]) ++ flat_map ln blanks)
    with ((flat_map ln Ls0 ++ Llast) ++ [10] ++ flat_map ln blanks) by (rewrite <- !app_assoc; reflexivity).
  rewrite E, <- app_assoc, (trim_text h X c ([10] ++ flat_map ln blanks) Hh Hc) by (apply (ln_blanks ([] :: blanks)); constructor; [reflexivity|exact Hb]).
  rewrite <- E. apply Forall_app in Hnl. destruct Hnl as [Hn1 Hn2]. inversion Hn2 as [|? ? Hn3 _]; subst.
  apply lines_join; assumption.
Qed.

Lemma sym_lines_last st : exists B, sym_lines st = B ++ [DIVIDER].
Proof.
  unfold sym_lines. destruct (st_debug st) as [d|].
  - eexists. rewrite !app_assoc. reflexivity.
  - eexists. rewrite app_nil_r. rewrite !app_assoc. reflexivity.
Qed.

Lemma lines_trim_ser_text o : text_inv o = true ->
  filter keep_line (lines (trim (ser_text o))) = filter keep_line (text_lines o).
Proof.
  intro H. destruct (text_inv_spec o H) as (Hbl & Hss & Hsym). unfold ser_text.
  pose proof (text_lines_words _ Hbl) as Hwords.
  assert (Hnl : Forall (fun l => nl_free l = true) (text_lines o)).
  { unfold text_lines. repeat (apply Forall_app; split); try (repeat constructor; reflexivity).
    - eapply Forall_impl; [|exact Hwords]. exact label_ok_nl_free.
    - destruct (o_sym o) as [st|]; [|constructor]. apply (sym_lines_nlfree st (o_blocks o)). apply Hsym. reflexivity. }
  destruct (o_sym o) as [st|] eqn:Es.
  - destruct (sym_lines_last st) as [B EB].
    assert (E : text_lines o = (TFMT_MAGIC :: [] :: s2z ".TEXT" :: flat_map tblock_lines (o_blocks o) ++ [[]] ++ B) ++ [DIVIDER] ++ []).
    { unfold text_lines. rewrite Es, EB. cbn [app]. rewrite <- !app_assoc. cbn [app]. reflexivity. }
    (* the first character, for [lines_trim_text]'s [h :: x] *)
    rewrite E in *. change TFMT_MAGIC with (76 :: s2z "C-3 OBJ FILE") in *.
    apply lines_trim_text; [reflexivity|exact Hnl|reflexivity|discriminate|constructor].
  - (* no symbol table: the last line is the last of .TEXT *)
    destruct (@exists_last _ (s2z ".TEXT" :: flat_map tblock_lines (o_blocks o)) ltac:(discriminate)) as (Y0 & y & EY).
    assert (Hy : no_ws y = true /\ y <> []).
    { assert (Hin : In y (s2z ".TEXT" :: flat_map tblock_lines (o_blocks o))) by (rewrite EY; apply in_or_app; right; left; reflexivity).
      destruct Hin as [<-|Hin]; [split; [reflexivity|discriminate]|]. rewrite Forall_forall in Hwords. specialize (Hwords y Hin).
      split; [exact (label_ok_no_ws y Hwords)|intros ->; discriminate]. }
    assert (E : text_lines o = (TFMT_MAGIC :: [] :: Y0) ++ [y] ++ [[]]).
    { unfold text_lines. rewrite Es. rewrite app_nil_r.
      change ([TFMT_MAGIC; []; s2z ".TEXT"] ++ flat_map tblock_lines (o_blocks o) ++ [[]])
        with (TFMT_MAGIC :: [] :: (s2z ".TEXT" :: flat_map tblock_lines (o_blocks o)) ++ [[]]).
      rewrite EY. rewrite <- app_assoc. reflexivity. }
    rewrite E in *. rewrite app_assoc in Hnl. apply Forall_app in Hnl. destruct Hnl as [Hnl _].
    change TFMT_MAGIC with (76 :: s2z "C-3 OBJ FILE") in *.
    apply lines_trim_text; [reflexivity|exact Hnl|exact (proj1 Hy)|exact (proj2 Hy)|repeat constructor].
Qed.

Lemma text_inv_equiv o o' : obj_equiv o o' -> text_inv o = true -> text_inv o' = true.
Proof.
  intros E. unfold text_inv. intro H. apply andb_true_iff in H. destruct H as [Hi Ht].
  apply andb_true_iff. split; [eapply obj_inv_equiv; eassumption|].
  destruct E as [_ Es]. destruct (o_sym o) as [s|], (o_sym o') as [s'|]; try contradiction; [|reflexivity].
  destruct Es as (P1 & P2 & Ed). rewrite <- Ed.
  apply andb_true_iff in Ht. destruct Ht as [Ht Hd]. apply andb_true_iff in Ht. destruct Ht as [Hl Hr].
  repeat (apply andb_true_iff; split); [eapply forallb_perm; eassumption|eapply forallb_perm; eassumption|exact Hd].
Qed.
