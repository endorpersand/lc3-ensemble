(* TrapFlagProofs.v — C12: the `use_real_traps` flag is read in two places only, [handle_interrupt] for traps and
   exceptions and the dispatch of [step].  [FI sh m]: m preserves the flags and commutes with setting the flag, unless
   it ends in one of the virtual short-cuts described by [sh]. *)
From Coq Require Import ZArith List Bool Lia.
From Model Require Import Bits Word Instr Sim.
From Proofs Require Import SimHoare SimMachine SimObsEntry IrqProofs.
Import ListNotations.
Open Scope Z_scope.

Definition setr (b : bool) (s : sim) : sim :=
  mkSim (s_mem s) (s_regs s) (s_pc s) (s_psr s) (s_saved_sp s) (s_frame_no s) (s_frames s) (s_sr_defns s)
        (s_alloca s) (s_instrs s) (s_prefetch s) (s_obs s) (s_mcr s)
        (mkFlags (fl_strict (s_flags s)) b (fl_debug_frames (s_flags s)) (fl_ignore_priv (s_flags s)))
        (s_ireg s) (s_devs s).

Definition real_flag (b : bool) (f : flags) : flags := mkFlags (fl_strict f) b (fl_debug_frames f) (fl_ignore_priv f).
Lemma setr_eq b s : setr b s = map_flags (real_flag b) s.
Proof. reflexivity. Qed.

Lemma setr_id s : setr (fl_real (s_flags s)) s = s.
Proof. destruct s as [? ? ? ? ? ? ? ? ? ? ? ? ? [? ? ? ?] ? ?]. reflexivity. Qed.
Lemma setr_setr a b s : setr a (setr b s) = setr a s.
Proof. reflexivity. Qed.

Definition FI {A} (sh : brk -> Prop) (m : M A) : Prop :=
  forall s, s_flags (fst (m s)) = s_flags s /\
            ((exists b, snd (m s) = inr b /\ sh b) \/ m (setr true s) = (setr true (fst (m s)), snd (m s))).

Lemma FI_ret {A} sh (a : A) : FI sh (ret a).
Proof. intro s. split; [reflexivity|right; reflexivity]. Qed.
Lemma FI_fail {A} sh b : FI sh (@fail A b).
Proof. intro s. split; [reflexivity|right; reflexivity]. Qed.
Lemma FI_err {A} sh x : FI sh (@err A x).
Proof. apply FI_fail. Qed.
Lemma FI_of_opt {A} sh (o : option A) x : FI sh (of_opt o x).
Proof. destruct o; [apply FI_ret|apply FI_err]. Qed.
Lemma FI_modify sh f :
  (forall s, s_flags (f s) = s_flags s) -> (forall s, f (setr true s) = setr true (f s)) -> FI sh (modify f).
Proof. intros H1 H2 s. unfold modify. cbn [fst snd]. split; [apply H1|right; rewrite H2; reflexivity]. Qed.

Lemma FI_bind {A B} sh (m : M A) (k : A -> M B) : FI sh m -> (forall a, FI sh (k a)) -> FI sh (bind m k).
Proof.
  intros Hm Hk s. specialize (Hm s). unfold bind.
  destruct (m s) as [s1 [a|b]] eqn:E; cbn [fst snd] in *.
  - destruct Hm as [Hf [(b & Hb & _)|Hr]]; [discriminate Hb|]. rewrite Hr.
    specialize (Hk a s1). destruct Hk as [Hf2 Hk]. split; [congruence|exact Hk].
  - destruct Hm as [Hf [(b' & Hb & Hs)|Hr]].
    + split; [exact Hf|]. left. exists b'. split; [inversion Hb; reflexivity|exact Hs].
    + split; [exact Hf|]. right. rewrite Hr. reflexivity.
Qed.

Lemma FI_bind_get {B} sh (k : sim -> M B) :
  (forall s0, FI sh (k s0)) -> (forall s0 s, k (setr true s0) s = k s0 s) -> FI sh (bind get k).
Proof.
  intros Hk He s. change (bind get k s) with (k s s). change (bind get k (setr true s)) with (k (setr true s) (setr true s)).
  rewrite He. apply Hk.
Qed.

Lemma FI_if {A} sh (b : bool) (m1 m2 : M A) : FI sh m1 -> FI sh m2 -> FI sh (if b then m1 else m2).
Proof. destruct b; auto. Qed.

Lemma FI_of_eq {A} sh (m : M A) :
  (forall s, s_flags (fst (m s)) = s_flags s) ->
  (forall s, m (setr true s) = (setr true (fst (m s)), snd (m s))) -> FI sh m.
Proof. intros H1 H2 s. split; [apply H1|right; apply H2]. Qed.

Lemma FI_read_mem sh e a c : FI sh (read_mem e a c).
Proof.
  apply FI_of_eq; intro s; [apply read_mem_flags|rewrite !setr_eq; apply read_mem_map_flags].
Qed.
Lemma FI_write_mem sh e a w c : FI sh (write_mem e a w c).
Proof.
  apply FI_of_eq; intro s; [apply write_mem_flags|rewrite !setr_eq; apply write_mem_map_flags].
Qed.

Create HintDb fi discriminated.
#[export] Hint Constants Opaque : fi.

Ltac fi1 :=
  lazymatch goal with
  | |- FI _ (ret _) => apply FI_ret
  | |- FI _ (fail _) => apply FI_fail
  | |- FI _ (err _) => apply FI_err
  | |- FI _ (of_opt _ _) => apply FI_of_opt
  | |- FI _ (read_mem _ _ _) => apply FI_read_mem
  | |- FI _ (write_mem _ _ _ _) => apply FI_write_mem
  | |- FI _ (modify _) => apply FI_modify; [intros; reflexivity | intros; reflexivity]
  | |- FI _ (bind get _) => apply FI_bind_get; [intro | intros; reflexivity]
  | |- FI _ (bind _ _) => apply FI_bind; [ | intro ]
  | |- FI _ (if _ then _ else _) => apply FI_if
  | |- FI _ (match ?x with _ => _ end) => destruct x
  | |- FI _ _ => solve [auto 1 with fi nocore]
  end.
Ltac fi := repeat fi1.

Lemma FI_set_cc sh r : FI sh (set_cc r).
Proof. unfold set_cc. fi. Qed.
Lemma FI_set_pc sh w b : FI sh (set_pc w b).
Proof. unfold set_pc. fi. Qed.
#[export] Hint Resolve FI_set_cc FI_set_pc : fi.
Lemma FI_offset_pc sh o b : FI sh (offset_pc o b).
Proof. unfold offset_pc. fi. Qed.
Lemma FI_push_frame sh a b c : FI sh (push_frame a b c).
Proof. apply FI_of_eq; intro s; rewrite !push_frame_run; reflexivity. Qed.
Lemma FI_pop_frame sh : FI sh pop_frame.
Proof. unfold pop_frame. fi. Qed.
Lemma FI_swap_sp sh : FI sh swap_sp.
Proof. unfold swap_sp. fi. Qed.
Lemma FI_set_reg_if_init sh d v b : FI sh (set_reg_if_init d v b).
Proof. unfold set_reg_if_init. fi. Qed.
#[export] Hint Resolve FI_offset_pc FI_push_frame FI_pop_frame FI_swap_sp FI_set_reg_if_init : fi.
Lemma FI_call_subroutine sh a : FI sh (call_subroutine a).
Proof. unfold call_subroutine. fi. Qed.
Lemma FI_call_interrupt sh e v ft : FI sh (call_interrupt e v ft).
Proof. unfold call_interrupt. fi. Qed.
Lemma FI_decode_m sh w : FI sh (decode_m w).
Proof. unfold decode_m. fi. Qed.
#[export] Hint Resolve FI_call_subroutine FI_call_interrupt FI_decode_m : fi.

Lemma FI_handle_some sh e v p : FI sh (handle_interrupt e v (Some p)).
Proof. unfold handle_interrupt. fi. Qed.
#[export] Hint Resolve FI_handle_some : fi.

(* [handle_interrupt e vect None] once the virtual short-cut is ruled out; it is [SimObsEntry.entry_body] ([trap_entry_body]) *)
Definition trap_entry (e : env) (vect : Z) : M unit :=
  s <- get ;;
  (if negb (psr_privileged (s_psr s)) then swap_sp else ret tt) ;;;
  s <- get ;;
  let old_psr := s_psr s in let old_pc := s_pc s in
  modify (fun s => upd_psr s (psr_set_privileged (s_psr s) true)) ;;;
  s <- get ;;
  let mctx := default_ctx s in
  sp <- of_opt (get_if_init (rget (s_regs s) 6) (strict s)) StrictMemAddrUninit ;;
  modify (fun s => upd_regs s (rset (s_regs s) 6 (w_sub (rget (s_regs s) 6) (new_init 2)))) ;;;
  write_mem e (wrap16 (sp - 1)) (new_init old_psr) mctx ;;;
  write_mem e (wrap16 (sp - 2)) (new_init old_pc) mctx ;;;
  modify (fun s => upd_psr s (psr_set_cc (s_psr s) 2)) ;;;
  call_interrupt e vect FTrap.

Lemma FI_trap_entry sh e v : FI sh (trap_entry e v).
Proof. unfold trap_entry. fi. Qed.

Lemma trap_entry_body e v s : trap_entry e v s = entry_body e v FTrap (fun x => psr_set_cc x 2) s s.
Proof. reflexivity. Qed.
Lemma handle_none_real e v s : fl_real (s_flags s) = true -> handle_interrupt e v None s = trap_entry e v s.
Proof. intros H. rewrite handle_interrupt_eq, H, trap_entry_body. reflexivity. Qed.
Lemma handle_none_virtual e v s : fl_real (s_flags s) = false ->
  handle_interrupt e v None s = match real_int_vect v with Some b => shortcut b s | None => trap_entry e v s end.
Proof. intros H. rewrite handle_interrupt_eq, H, trap_entry_body. reflexivity. Qed.

Lemma FI_handle_none (sh : brk -> Prop) e v :
  (forall b, real_int_vect v = Some b -> sh b) -> FI sh (handle_interrupt e v None).
Proof.
  intros Hsh s. destruct (fl_real (s_flags s)) eqn:Hr.
  - rewrite (handle_none_real e v s Hr).
    rewrite (handle_none_real e v (setr true s) eq_refl). apply FI_trap_entry.
  - rewrite (handle_none_virtual e v s Hr).
    rewrite (handle_none_real e v (setr true s) eq_refl).
    destruct (real_int_vect v) as [b|] eqn:Hv; [|apply FI_trap_entry].
    rewrite shortcut_eq. split; [destruct (s_prefetch s); reflexivity|]. left. exists b. split; [reflexivity|apply Hsh; reflexivity].
Qed.

Definition trap_sh (sh : brk -> Prop) (i : sim_instr) : Prop :=
  match i with STRAP v => forall b, real_int_vect v = Some b -> sh b | _ => True end.

Lemma FI_exec sh e i : trap_sh sh i -> FI sh (exec e i).
Proof.
  intros Ht. unfold exec. apply FI_bind_get; [intro s0|intros; reflexivity].
  destruct i; cbv zeta; try solve [fi].
  apply FI_handle_none. exact Ht.
Qed.

(* a decoded trap vector is below 256, so the only reachable short-cut is the virtual HALT *)
Definition sh_halt (b : brk) : Prop := b = BHalt.
Lemma decode_trap_sh w i : decode w = DOk i -> trap_sh sh_halt i.
Proof.
  destruct i; try (intros; exact Logic.I). intros H b Hb. apply decode_regs_ok in H.
  rewrite (real_int_vect_trap _ H) in Hb. destruct (vect =? 37); inversion Hb. reflexivity.
Qed.

Lemma FI_bind_decode {B} sh w (k : sim_instr -> M B) :
  (forall i, decode w = DOk i -> FI sh (k i)) -> FI sh (bind (decode_m w) k).
Proof.
  intros H s. unfold bind, decode_m. destruct (decode w) as [i| | |] eqn:E.
  - exact (H i eq_refl s).
  - exact (FI_err sh IllegalOpcode s).
  - exact (FI_err sh InvalidInstrFormat s).
  - exact (FI_fail sh BPanic s).
Qed.

Lemma FI_fetch_exec e : FI sh_halt (fetch_exec e).
Proof.
  unfold fetch_exec. apply FI_bind_get; [intro s0|intros; reflexivity].
  apply FI_bind; [fi|intro w]. apply FI_bind; [fi|intro word].
  apply FI_bind_decode. intros i Hi.
  apply FI_bind; [fi|intros _]. apply FI_bind; [fi|intros _].
  apply FI_bind; [|intros _; fi]. apply FI_exec. eapply decode_trap_sh. exact Hi.
Qed.

Lemma FI_step_inner e : FI sh_halt (step_inner e).
Proof.
  intro s. rewrite !step_inner_cases.
  assert (Hp : pending e (setr true s) = pending e s) by reflexivity.
  assert (Ha : after_poll e (setr true s) = setr true (after_poll e s)) by reflexivity.
  assert (Hf : s_flags (after_poll e s) = s_flags s) by reflexivity.
  rewrite Hp, Ha. change (s_psr (setr true s)) with (s_psr s). rewrite <- Hf.
  destruct (pending e s) as [[v p|]|].
  - destruct (psr_priority (s_psr s) <? p); [apply FI_handle_some|apply FI_fetch_exec].
  - split; [reflexivity|right; reflexivity].
  - apply FI_fetch_exec.
Qed.

Definition special (r : unit + brk) : Prop :=
  r = inr BHalt \/ r = inr (BErr PrivilegeViolation) \/ r = inr (BErr IllegalOpcode) \/
  r = inr (BErr InvalidInstrFormat) \/ r = inr (BErr AccessViolation).

Lemma not_special_redirect r : ~ special r -> redirect r = None.
Proof.
  intros H. destruct r as [u|[ |x| ]]; try reflexivity.
  - exfalso. apply H. left. reflexivity.
  - destruct x; try reflexivity; exfalso; apply H; unfold special; auto.
Qed.

Lemma step_virtual e s : fl_real (s_flags s) = false -> step e s = step_inner e s.
Proof.
  intros H. rewrite step_eq. pose proof (FI_step_inner e s) as [Hf _].
  destruct (step_inner e s) as [s1 r]. cbn [fst] in Hf. rewrite Hf, H. reflexivity.
Qed.

(* HALT is excluded because there the two machines really differ: the short-cut rewinds the PC, the real machine enters the OS *)
Theorem step_real_of_virtual e s s' r :
  step e (setr false s) = (s', r) -> r <> inr BHalt ->
  step e (setr true s) =
  match redirect r with Some v => trap_entry e v (setr true s') | None => (setr true s', r) end.
Proof.
  intros Hv Hh. rewrite step_virtual in Hv by reflexivity.
  pose proof (FI_step_inner e (setr false s)) as [_ Hr]. rewrite Hv in Hr. cbn [fst snd] in Hr.
  destruct Hr as [(b & Hb & Hs)|Hr]; [rewrite Hs in Hb; contradiction|].
  change (setr true (setr false s)) with (setr true s) in Hr. rewrite step_eq, Hr. cbn [s_flags setr fl_real].
  destruct (redirect r) as [v|]; [apply handle_none_real|]; reflexivity.
Qed.

Definition exc_vector (x : simerr) : option Z :=
  match x with
  | PrivilegeViolation => Some 256 | IllegalOpcode => Some 257 | InvalidInstrFormat => Some 257
  | AccessViolation => Some 258 | _ => None
  end.
Lemma exc_vector_redirect x : exc_vector x = redirect (inr (BErr x)).
Proof. destruct x; reflexivity. Qed.
Theorem exception_enters_os e s s' x vect :
  step e (setr false s) = (s', inr (BErr x)) -> exc_vector x = Some vect ->
  step e (setr true s) = trap_entry e vect (setr true s').
Proof.
  intros Hv Hx. rewrite (step_real_of_virtual e s s' _ Hv), <- exc_vector_redirect, Hx; [reflexivity|discriminate].
Qed.
