(* SimUserHalt.v — C09: the one TRAP that does not enter the OS.  Under virtual traps HALT (TRAP x25) is a
   short-cut that stops the machine where it is; in user mode it touches nothing outside user space either,
   so the confinement theorems extend to programs that end in HALT. *)
From Coq Require Import ZArith List Bool Lia.
From Gen Require Import Constants.
From Model Require Import Tree Bits Word Instr Sim.
From Proofs Require Import SimHoare SimObsEntry SimUser IrqProofs SimUserRun.
Import ListNotations.
Open Scope Z_scope.

Definition stays_user (real : bool) (i : sim_instr) : bool :=
  match i with STRAP v => negb real && (v =? 37) | _ => true end.

Lemma inv_U_halt e s0 : fl_real (s_flags s0) = false -> inv (U s0) (exec e (STRAP 37)).
Proof.
  intros R s Hs. change (exec e (STRAP 37) s) with (handle_interrupt e 37 None s).
  destruct Hs as (P & F & Hs'). rewrite handle_interrupt_eq, F, R. cbn [real_int_vect Z.eqb Pos.eqb]. rewrite shortcut_eq.
  (* the short-cut moves the PC back at most *)
  destruct (s_prefetch s); exact (conj P (conj F Hs')).
Qed.

Theorem inv_U_exec_halt e i s0 : stays_user (fl_real (s_flags s0)) i = true -> inv (U s0) (exec e i).
Proof.
  intros H. destruct i as [cc off|dr sr1 o|dr off|sr off|o|dr sr1 o|dr br off|sr br off| |dr sr|dr off|sr off|br|dr off|v];
    try (apply inv_U_exec; reflexivity).
  cbn [stays_user] in H. apply andb_true_iff in H as [H1 H2]. apply negb_true_iff in H1. apply Z.eqb_eq in H2. subst v.
  apply inv_U_halt. exact H1.
Qed.

Inductive UserRunH (real : bool) : sim -> sim -> Prop :=
| urh_refl s : UserRunH real s s
| urh_next e s t :
    (forall v p, ~ takes_irq e s v p) ->
    (forall i, decode (w_data (mget (s_mem s) (s_pc s))) = DOk i -> stays_user real i = true) ->
    UserRunH real (fst (step_inner e (upd_obs s []))) t -> UserRunH real s t.

Lemma UserRunH_of real s t : UserRunH real s t -> RunOf (fun i => stays_user real i = true) s t.
Proof. induction 1 as [s|e s t NT NTR _ IH]; [apply ro_refl|exact (ro_next _ e s t NT NTR IH)]. Qed.
