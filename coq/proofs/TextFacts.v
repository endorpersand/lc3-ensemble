(* TextFacts.v — strings of code points (model/Text.v): [str_eqb] decides equality, UTF-8 byte lengths,
   the bounds behind the fuelled digit loops.  Exports BitsFacts. *)
From Coq Require Import ZArith List Bool Lia.
From Model Require Import Bits Text.
From Proofs Require Export BitsFacts.
Import ListNotations.
Open Scope Z_scope.

Lemma str_eqb_eq a : forall b, str_eqb a b = true <-> a = b.
Proof.
  induction a as [|x a IH]; intros [|y b]; cbn [str_eqb]; split; intros H; try reflexivity; try discriminate.
  - apply andb_prop in H. destruct H as [H1 H2]. apply Z.eqb_eq in H1. apply IH in H2. congruence.
  - injection H as -> ->. rewrite Z.eqb_refl. apply IH. reflexivity.
Qed.

Lemma str_eqb_spec a b : reflect (a = b) (str_eqb a b).
Proof. apply iff_reflect. symmetry. apply str_eqb_eq. Qed.

Lemma str_eqb_refl a : str_eqb a a = true.
Proof. apply str_eqb_eq. reflexivity. Qed.

Lemma str_eqb_neq a b : str_eqb a b = false <-> a <> b.
Proof. destruct (str_eqb_spec a b); split; congruence. Qed.

Lemma str_eqb_sym a b : str_eqb a b = str_eqb b a.
Proof. destruct (str_eqb_spec a b), (str_eqb_spec b a); congruence. Qed.

Lemma utf8_len_pos c : 1 <= utf8_len c <= 4.
Proof. unfold utf8_len. repeat match goal with |- context [if ?b then _ else _] => destruct b end; lia. Qed.

Lemma utf8_len_ascii c : c < 128 -> utf8_len c = 1.
Proof. intros H. unfold utf8_len. destruct (c <? 128) eqn:E; lia. Qed.

Lemma byte_len_nonneg s : 0 <= byte_len s.
Proof. induction s as [|c s IH]; cbn [byte_len]; [lia|]. pose proof (utf8_len_pos c). lia. Qed.

Lemma byte_len_app a b : byte_len (a ++ b) = byte_len a + byte_len b.
Proof. induction a as [|x a IH]; cbn [byte_len app]; lia. Qed.

Lemma length_utf8_encode c : Z.of_nat (length (utf8_encode c)) = utf8_len c.
Proof. unfold utf8_encode, utf8_len. repeat destruct (_ <? _); reflexivity. Qed.

Lemma length_utf8_bytes s : Z.of_nat (length (utf8_bytes s)) = byte_len s.
Proof.
  unfold utf8_bytes. induction s as [|c s IH]; [reflexivity|].
  cbn [flat_map byte_len]. rewrite app_length, Nat2Z.inj_add, IH, length_utf8_encode. reflexivity.
Qed.

(* fuel of the digit loops: the binary length bounds the digits, a division by the radix uses up a bit *)
Lemma log2_bits v : 0 <= v -> 0 <= v < 2 ^ (Z.log2 v + 1).
Proof.
  intros Hv. destruct (Z.eq_dec v 0) as [->|Hne]; [cbn; lia|].
  pose proof (Z.log2_spec v ltac:(lia)) as [_ H]. exact (conj Hv H).
Qed.
Lemma div_radix_bits radix v k : 2 <= radix -> 0 <= k -> 0 <= v < 2 ^ (k + 1) -> 0 <= v / radix < 2 ^ k.
Proof.
  intros Hr Hk Hv. rewrite Z.pow_add_r, Z.pow_1_r in Hv by lia.
  split; [apply Z.div_pos; lia|]. apply Z.div_lt_upper_bound; [lia|]. nia.
Qed.
