(* AsmDebug.v — debug symbols do not change what is assembled: with a source text pass 1 panics
   (for a typed program only in `LineSymbolMap::new`, see AsmLines), or fails with the same error,
   or computes the same labels as without.  The two steps differ only in the line-table phase ([p1_line]). *)
From Coq Require Import ZArith List Bool Lia.
From Model Require Import Tree Text Bits Instr Offset AsmAst Obj SourceInfo Assembler.
From Proofs Require Import AsmBase.
Import ListNotations.
Open Scope Z_scope.

Definition erase (st : p1) : p1 := mkP1 (p1_cur st) (p1_labels st) (p1_rel st) None.

(* unless it panics, the run with debug symbols [r1] ends as the run without [r0] *)
Definition dbg_rel {A B} (R : A -> B -> Prop) (r1 : ares A) (r0 : ares B) : Prop :=
  match r1 with
  | AOk a => exists b, r0 = AOk b /\ R a b
  | AErr k sp => r0 = AErr k sp
  | APanic => True
  end.

Lemma dbg_refl {A} (r : ares A) : dbg_rel eq r r.
Proof. destruct r as [a|k sp|]; cbn [dbg_rel]; [exists a; split; reflexivity | reflexivity | exact Logic.I]. Qed.

Lemma dbg_bind {A B A' B'} (R : A -> B -> Prop) (S : A' -> B' -> Prop) r1 r0 (f : A -> ares A') (g : B -> ares B') :
  dbg_rel R r1 r0 -> (forall a b, R a b -> dbg_rel S (f a) (g b)) -> dbg_rel S (abind r1 f) (abind r0 g).
Proof.
  destruct r1 as [a|k sp|]; cbn [dbg_rel abind]; intros H G; [|rewrite H; reflexivity|exact Logic.I].
  destruct H as [b [-> H]]. exact (G a b H).
Qed.

Lemma dbg_afold {S S0 X} (step : S -> X -> ares S) (step0 : S0 -> X -> ares S0) (R : S -> S0 -> Prop) :
  (forall st st0 x, R st st0 -> dbg_rel R (step st x) (step0 st0 x)) ->
  forall l st st0, R st st0 -> dbg_rel R (afold step st l) (afold step0 st0 l).
Proof.
  intros HS. induction l as [|x l IH]; intros st st0 H; cbn [afold].
  - exists st0. split; [reflexivity|exact H].
  - apply (dbg_bind R R); [exact (HS st st0 x H) | exact (IH)].
Qed.

Lemma p1_step_dbg src st s :
  dbg_rel (fun st1 st0 => erase st1 = st0) (p1_step src st s) (p1_step None (erase st) s).
Proof.
  rewrite !p1_step_eq.
  apply (dbg_bind eq); [exact (dbg_refl (p1_lab st s))|]. intros L1 ? <-.
  apply (dbg_bind eq); [exact (dbg_refl (p1_dir st s L1))|]. intros [[cur2 L2] r2] ? <-.
  unfold p1_tail. destruct cur2 as [cu|]; [|exists (mkP1 None L2 r2 None); split; reflexivity].
  change (p1_line None (erase st) s cu) with (AOk (@None (list (option Z)))). cbn [abind].
  destruct (p1_line src st s cu) as [l|k sp|] eqn:EL; cbn [abind]; [|exact (False_ind _ (p1_line_never_err _ _ _ _ _ _ EL))|exact Logic.I].
  destruct (p1_move s cu) as [cu'|k sp|]; cbn [abind dbg_rel]; [|reflexivity|exact Logic.I].
  exists (mkP1 (Some cu') L2 r2 None). split; reflexivity.
Qed.

Lemma pass1_dbg text p :
  dbg_rel (fun sym1 sym0 => st_labels sym1 = st_labels sym0) (pass1 p (Some text)) (pass1 p None).
Proof.
  unfold pass1. cbv zeta. rewrite !p1_loop_afold.
  apply (dbg_bind (fun st1 st0 => erase st1 = st0)).
  - apply dbg_afold; [intros st st0 s <-; apply p1_step_dbg | reflexivity].
  - intros st1 ? <-. cbn [erase p1_cur p1_labels p1_rel p1_lines]. destruct (p1_cur st1) as [cu|]; [reflexivity|].
    destruct (p1_lines st1) as [ls|]; [destruct (lsm_new ls)|]; cbn [dbg_rel]; try exact Logic.I; eexists; split; reflexivity.
Qed.

Theorem assemble_dbg text p :
  dbg_rel (fun o1 o0 => o_blocks o1 = o_blocks o0) (assemble true (Some text) p) (assemble false None p).
Proof.
  unfold assemble. apply (dbg_bind _ _ _ _ _ _ (pass1_dbg text p)). intros sym1 sym0 E.
  unfold pass2. rewrite E. destruct (p2_loop (st_labels sym0) (mkP2 [] None) p) as [st|k sp|]; cbn [abind dbg_rel];
    [eexists; split; reflexivity | reflexivity | exact Logic.I].
Qed.
