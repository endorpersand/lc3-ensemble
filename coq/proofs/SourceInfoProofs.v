(* SourceInfoProofs.v — C25: the SourceInfo model (newline index, partition point, trimming) agrees with
   spec/SourcePos.v for every text, line and byte index.  The newline index of s is the list of END offsets
   of the pieces [lines_of s] ([nl_from_ends]); the rest is list induction on the pieces.  Also the
   general facts on [nth_z], [sub_from], [substr], and trimming run forwards ([trim_core]). *)
From Coq Require Import ZArith List Bool Lia.
From Model Require Import Text SourceInfo.
From Spec Require Import SourcePos.
From Proofs Require Import ListFacts TextFacts.
Import ListNotations.
Open Scope Z_scope.

Lemma utf8_len_nl : utf8_len 10 = 1.
Proof. reflexivity. Qed.

Lemma nth_z_some {A} (l : list A) i v : nth_z l i = Some v -> 0 <= i < Z.of_nat (length l).
Proof.
  unfold nth_z. destruct (Z.ltb_spec i 0); [discriminate|]. intros E.
  assert (Z.to_nat i < length l)%nat by (apply nth_error_Some; congruence). lia.
Qed.

Lemma nth_z_cons {A} (a : A) l i : 0 < i -> nth_z (a :: l) i = nth_z l (i - 1).
Proof.
  intros H. unfold nth_z. destruct (Z.ltb_spec i 0); [lia|]. destruct (Z.ltb_spec (i - 1) 0); [lia|].
  replace (Z.to_nat i) with (S (Z.to_nat (i - 1))) by lia. reflexivity.
Qed.

Lemma nth_z_in {A} (l : list A) i v : nth_z l i = Some v -> In v l.
Proof. unfold nth_z. destruct (i <? 0); [discriminate|]. apply nth_error_In. Qed.

Lemma in_nth_z {A} (l : list A) v : In v l -> exists i, nth_z l i = Some v.
Proof.
  intros H. apply In_nth_error in H. destruct H as [n H]. exists (Z.of_nat n). unfold nth_z.
  destruct (Z.ltb_spec (Z.of_nat n) 0); [lia|]. rewrite Nat2Z.id. exact H.
Qed.

Lemma lines_of_nonempty s : lines_of s <> [].
Proof.
  destruct s as [|c r]; cbn [lines_of]; [discriminate|].
  destruct (c =? 10); [discriminate|]. destruct (lines_of r); discriminate.
Qed.

Lemma lines_of_cons c r : exists q qs, lines_of r = q :: qs /\
  lines_of (c :: r) = if c =? 10 then [] :: q :: qs else (c :: q) :: qs.
Proof.
  pose proof (lines_of_nonempty r). cbn [lines_of]. destruct (lines_of r) as [|q qs]; [congruence|].
  exists q, qs. split; reflexivity.
Qed.

Lemma join_nl_cons_cons p q ps : join_nl (p :: q :: ps) = p ++ 10 :: join_nl (q :: ps).
Proof. reflexivity. Qed.

Lemma join_nl_push c p ps : join_nl ((c :: p) :: ps) = c :: join_nl (p :: ps).
Proof. destruct ps; reflexivity. Qed.

Lemma join_lines_of s : join_nl (lines_of s) = s.
Proof.
  induction s as [|c r IH]; [reflexivity|]. destruct (lines_of_cons c r) as (q & qs & Er & ->). rewrite Er in IH.
  destruct (Z.eqb_spec c 10) as [->|_]; [rewrite join_nl_cons_cons|rewrite join_nl_push]; cbn [app]; f_equal; exact IH.
Qed.

Lemma length_lines_of s : Z.of_nat (length (lines_of s)) = count_nl s + 1.
Proof.
  induction s as [|c r IH]; [reflexivity|]. destruct (lines_of_cons c r) as (q & qs & Er & ->). rewrite Er in IH.
  cbn [count_nl]. destruct (c =? 10); cbn [length] in *; lia.
Qed.

Lemma count_nl_nonneg s : 0 <= count_nl s.
Proof. induction s as [|c r IH]; cbn [count_nl]; [lia|]. destruct (c =? 10); lia. Qed.

Lemma lines_of_no_nl s : forall p, In p (lines_of s) -> ~ In 10 p.
Proof.
  induction s as [|c r IH]; intros p Hin; [destruct Hin as [<-|[]]; intros []|].
  destruct (lines_of_cons c r) as (q & qs & Er & E). rewrite E in Hin. rewrite Er in IH.
  destruct (Z.eqb_spec c 10) as [->|Hc]; destruct Hin as [<-|Hin]; try (apply IH; right; exact Hin).
  - intros [].
  - apply IH. assumption.
  - intros [Heq|Hq]; [congruence|]. exact (IH q (or_introl eq_refl) Hq).
Qed.

Fixpoint ends_of (ls : list str) (off : Z) : list Z :=
  match ls with
  | [] => []
  | p :: ps => (off + byte_len p) :: ends_of ps (off + byte_len p + 1)
  end.

Lemma ends_of_shift ls : forall off d, ends_of ls (off + d) = map (fun x => x + d) (ends_of ls off).
Proof.
  induction ls as [|p ps IH]; intros off d; [reflexivity|].
  cbn [ends_of map]. f_equal; [lia|].
  replace (off + d + byte_len p + 1) with (off + byte_len p + 1 + d) by lia. apply IH.
Qed.

Lemma nl_from_ends s : forall off, nl_from s off = ends_of (lines_of s) off.
Proof.
  induction s as [|c r IH]; intros off; [cbn; f_equal; lia|].
  destruct (lines_of_cons c r) as (q & qs & Er & ->). cbn [nl_from]. rewrite !IH, Er.
  destruct (c =? 10); cbn [ends_of byte_len]; repeat (f_equal; try lia).
Qed.

Lemma nl_indices_ends s : nl_indices s = ends_of (lines_of s) 0.
Proof. apply nl_from_ends. Qed.

Lemma length_ends_of ls : forall off, length (ends_of ls off) = length ls.
Proof. induction ls as [|p ps IH]; intros off; cbn [ends_of length]; [reflexivity|]. f_equal. apply IH. Qed.

Lemma count_lines_spec s : count_lines s = count_nl s + 1.
Proof. unfold count_lines. rewrite nl_indices_ends, length_ends_of. apply length_lines_of. Qed.

Lemma count_lines_length s : count_lines s = Z.of_nat (length (lines_of s)).
Proof. rewrite count_lines_spec, length_lines_of. reflexivity. Qed.
Lemma count_lines_pos s : 1 <= count_lines s.
Proof. rewrite count_lines_spec. pose proof (count_nl_nonneg s). lia. Qed.

Lemma lines_of_join a b : lines_of (a ++ [10] ++ b) = lines_of a ++ lines_of b.
Proof.
  change ([10] ++ b) with (10 :: b). induction a as [|c r IH]; [reflexivity|]. cbn [app lines_of]. rewrite IH.
  destruct (c =? 10); [reflexivity|].
  pose proof (lines_of_nonempty r). destruct (lines_of r); [congruence|reflexivity].
Qed.
Lemma count_lines_join a b : count_lines (a ++ [10] ++ b) = count_lines a + count_lines b.
Proof. rewrite !count_lines_length, lines_of_join, app_length. lia. Qed.

Lemma nth_ends_of ls : forall off l, (l < length ls)%nat ->
  nth_error (ends_of ls off) l = Some (off + start_of ls l + byte_len (nth l ls [])).
Proof.
  induction ls as [|p ps IH]; intros off l Hl; [cbn in Hl; lia|].
  destruct l as [|l].
  - cbn. f_equal. lia.
  - cbn [ends_of nth_error start_of nth]. rewrite IH by (cbn in Hl; lia). f_equal. lia.
Qed.

Lemma start_of_cons p ps k : start_of (p :: ps) (S k) = byte_len p + 1 + start_of ps k.
Proof. reflexivity. Qed.

Lemma start_of_nonneg ls : forall l, 0 <= start_of ls l.
Proof.
  induction ls as [|p ps IH]; intros [|l]; cbn [start_of]; try lia.
  pose proof (IH l). pose proof (byte_len_nonneg p). lia.
Qed.

Lemma start_of_S ls : forall l, (l < length ls)%nat ->
  start_of ls (S l) = start_of ls l + byte_len (nth l ls []) + 1.
Proof.
  induction ls as [|p ps IH]; intros l Hl; [cbn in Hl; lia|].
  destruct l as [|l].
  - rewrite start_of_cons. cbn [start_of nth]. lia.
  - rewrite !start_of_cons. cbn [nth]. rewrite (IH l) by (cbn in Hl; lia). lia.
Qed.

Lemma start_of_mono ls : forall l l', (l <= l')%nat -> start_of ls l <= start_of ls l'.
Proof.
  induction ls as [|p ps IH]; intros l l' H.
  - destruct l, l'; cbn; lia.
  - destruct l as [|l], l' as [|l']; cbn [start_of]; try lia.
    + pose proof (start_of_nonneg ps l'). pose proof (byte_len_nonneg p). lia.
    + pose proof (IH l l'). lia.
Qed.

Lemma split_at_line ls : forall l, (l < length ls)%nat ->
  exists x z, join_nl ls = x ++ nth l ls [] ++ z /\ byte_len x = start_of ls l /\
              ((z = [] /\ S l = length ls) \/ (exists z', z = 10 :: z' /\ (S l < length ls)%nat)).
Proof.
  induction ls as [|p ps IH]; intros l Hl; [cbn in Hl; lia|].
  destruct l as [|l].
  - exists []. destruct ps as [|q qs].
    + exists []. cbn [join_nl nth app]. rewrite app_nil_r. repeat split. left. split; reflexivity.
    + exists (10 :: join_nl (q :: qs)). rewrite join_nl_cons_cons. repeat split.
      right. eexists. split; [reflexivity|]. cbn [length]. lia.
  - destruct ps as [|q qs]; [cbn in Hl; lia|].
    destruct (IH l) as (x & z & Hj & Hx & Hz); [cbn in Hl |- *; lia|].
    exists (p ++ 10 :: x), z. rewrite join_nl_cons_cons, Hj, byte_len_app, start_of_cons, <- Hx.
    split; [rewrite <- app_assoc; reflexivity|]. split; [cbn [byte_len]; rewrite utf8_len_nl; lia|].
    cbn [length] in *. destruct Hz as [[Hz1 Hz2]|(z' & Hz1 & Hz2)]; [left | right; exists z']; (split; [exact Hz1 | lia]).
Qed.

Lemma byte_len_join_nl ls : ls <> [] ->
  byte_len (join_nl ls) = start_of ls (length ls) - 1.
Proof.
  induction ls as [|p ps IH]; intros Hne; [congruence|].
  destruct ps as [|q qs].
  - cbn. lia.
  - rewrite join_nl_cons_cons, byte_len_app. cbn [byte_len]. rewrite utf8_len_nl, IH by discriminate.
    cbn [length start_of]. lia.
Qed.

Lemma nth_z_ends ls off l : 0 <= l < Z.of_nat (length ls) ->
  nth_z (ends_of ls off) l = Some (off + start_of ls (Z.to_nat l) + byte_len (nth (Z.to_nat l) ls [])).
Proof.
  intros H. unfold nth_z. destruct (l <? 0) eqn:E; [lia|]. apply nth_ends_of. lia.
Qed.

Lemma raw_line_span_none s l : l < 0 \/ count_nl s < l -> raw_line_span s l = None.
Proof.
  intros H. unfold raw_line_span. rewrite count_lines_spec.
  replace ((0 <=? l) && (l <? count_nl s + 1)) with false by lia. reflexivity.
Qed.

Lemma sub_from_app x : forall r off a b,
  sub_from (x ++ r) off a b = sub_from x off a b ++ sub_from r (off + byte_len x) a b.
Proof.
  induction x as [|c x IH]; intros r off a b; cbn [app byte_len sub_from]; [f_equal; lia|].
  rewrite IH, Z.add_assoc. destruct ((a <=? off) && (off <? b)); reflexivity.
Qed.

Lemma sub_from_inside y : forall off a b, a <= off -> off + byte_len y <= b -> sub_from y off a b = y.
Proof.
  induction y as [|c y IH]; intros off a b Ha Hb; cbn [byte_len sub_from] in *; [reflexivity|].
  pose proof (utf8_len_pos c). pose proof (byte_len_nonneg y).
  replace ((a <=? off) && (off <? b)) with true by lia. rewrite IH by lia. reflexivity.
Qed.

Lemma sub_from_outside y : forall off a b, off + byte_len y <= a \/ b <= off -> sub_from y off a b = [].
Proof.
  induction y as [|c y IH]; intros off a b H; cbn [byte_len sub_from] in *; [reflexivity|].
  pose proof (utf8_len_pos c). pose proof (byte_len_nonneg y).
  replace ((a <=? off) && (off <? b)) with false by lia. apply IH. lia.
Qed.

Lemma sub_from_skip x : forall r off a b, off + byte_len x <= a ->
  sub_from (x ++ r) off a b = sub_from r (off + byte_len x) a b.
Proof. intros r off a b H. rewrite sub_from_app, sub_from_outside by lia. reflexivity. Qed.

Lemma sub_from_take y : forall r off a b, a <= off -> off + byte_len y <= b ->
  sub_from (y ++ r) off a b = y ++ sub_from r (off + byte_len y) a b.
Proof. intros r off a b Ha Hb. rewrite sub_from_app, sub_from_inside by lia. reflexivity. Qed.

Lemma sub_from_none z : forall off a b, b <= off -> sub_from z off a b = [].
Proof. intros off a b H. apply sub_from_outside. lia. Qed.

Lemma sub_from_app_l p q : forall off a b, b <= off + byte_len p -> sub_from (p ++ q) off a b = sub_from p off a b.
Proof. intros off a b H. rewrite sub_from_app, (sub_from_outside q) by lia. apply app_nil_r. Qed.

Lemma sub_from_shift s a b d : forall off, sub_from s (off + d) (a + d) (b + d) = sub_from s off a b.
Proof.
  induction s as [|c r IH]; intro off; cbn [sub_from]; [reflexivity|].
  replace (off + d + utf8_len c) with (off + utf8_len c + d) by lia. rewrite IH.
  destruct (Z.leb_spec a off), (Z.leb_spec (a + d) (off + d)); try lia;
    destruct (Z.ltb_spec off b), (Z.ltb_spec (off + d) (b + d)); try lia; reflexivity.
Qed.

Lemma sub_from_in s x a b : forall o, In x (sub_from s o a b) -> In x s.
Proof.
  induction s as [|c s IH]; intros o Hx; [destruct Hx|]. cbn [sub_from] in Hx.
  destruct ((a <=? o) && (o <? b)); [destruct Hx as [->|Hx]; [left; reflexivity|]|]; right; eapply IH; exact Hx.
Qed.

Lemma substr_mid x y z : substr (x ++ y ++ z) (byte_len x) (byte_len x + byte_len y) = y.
Proof.
  unfold substr. rewrite sub_from_skip by lia. rewrite sub_from_take by lia.
  rewrite sub_from_none by lia. apply app_nil_r.
Qed.

Lemma substr_app_l p q a b : b <= byte_len p -> substr (p ++ q) a b = substr p a b.
Proof. intro H. unfold substr. apply sub_from_app_l. lia. Qed.

Lemma substr_app_r p q a b : 0 <= a -> substr (p ++ q) (a + byte_len p) (b + byte_len p) = substr q a b.
Proof.
  intro H. unfold substr. rewrite sub_from_skip by lia. apply (sub_from_shift q a b (byte_len p) 0).
Qed.

(* the text around line l; what follows it is nothing or starts with its newline, which [raw_line_span] counts
   to the line ([raw_line_cut] does the same) *)
Lemma raw_line_decomp s l : 0 <= l <= count_nl s ->
  exists x z, s = x ++ line s l ++ z /\ byte_len x = line_start s l /\
    ((z = [] /\ l = count_nl s /\
      raw_line_span s l = Some (line_start s l, line_start s l + byte_len (line s l))) \/
     (exists z', z = 10 :: z' /\ l < count_nl s /\
      raw_line_span s l = Some (line_start s l, line_start s l + byte_len (line s l) + 1))).
Proof.
  intros Hl. pose proof (length_lines_of s) as Hlen.
  destruct (split_at_line (lines_of s) (Z.to_nat l)) as (x & z & Hj & Hx & Hz); [lia|].
  rewrite join_lines_of in Hj. fold (line s l) in Hj. fold (line_start s l) in Hx.
  assert (Hraw : raw_line_span s l =
                 Some (line_start s l, Z.min (line_start s l + byte_len (line s l) + 1) (byte_len s))).
  { unfold raw_line_span. rewrite count_lines_spec.
    replace ((0 <=? l) && (l <? count_nl s + 1)) with true by lia.
    rewrite nl_indices_ends. rewrite (nth_z_ends _ 0 l) by lia.
    f_equal. f_equal.
    destruct (Z.eqb_spec l 0) as [->|E0]; [reflexivity|]. rewrite (nth_z_ends _ 0 (l - 1)) by lia.
    unfold line_start. replace (Z.to_nat l) with (S (Z.to_nat (l - 1))) by lia.
    rewrite start_of_S by lia. lia. }
  rewrite Hraw. pose proof (f_equal byte_len Hj) as Hb. rewrite !byte_len_app, Hx in Hb.
  exists x, z. split; [exact Hj|]. split; [exact Hx|].
  destruct Hz as [[-> Hz]|(z' & -> & Hz)]; [left | right; exists z']; (split; [reflexivity|]); (split; [lia|]); f_equal; f_equal.
  - change (byte_len []) with 0 in Hb. lia.
  - pose proof (byte_len_nonneg z'). change (byte_len (10 :: z')) with (1 + byte_len z') in Hb. lia.
Qed.

Lemma raw_line_cut s l : 0 <= l <= count_nl s ->
  exists x y z, s = x ++ y ++ z /\ y = line s l ++ (if l <? count_nl s then [10] else []) /\
    byte_len x = line_start s l /\ raw_line_span s l = Some (byte_len x, byte_len x + byte_len y).
Proof.
  intros Hl. destruct (raw_line_decomp s l Hl) as (x & z & Hs & Hx & [(-> & -> & Hraw)|(z' & -> & Hlt & Hraw)]).
  - exists x, (line s (count_nl s)), []. rewrite Hraw, Hx, Z.ltb_irrefl, app_nil_r. rewrite app_nil_r in Hs. repeat split. exact Hs.
  - exists x, (line s l ++ [10]), z'. replace (l <? count_nl s) with true by lia.
    rewrite Hraw, Hx, <- app_assoc, byte_len_app, Z.add_assoc. repeat split. exact Hs.
Qed.

Lemma is_ws_spec c : is_ws c = true <-> In c white_space.
Proof.
  split.
  - unfold is_ws. intros H. cbn [In white_space]. lia. (* the 25 equalities, from the boolean's ranges *)
  - intros H. cbn [In white_space] in H.
    repeat (destruct H as [<-|H]; [reflexivity|]). destruct H.
Qed.

Lemma is_ws_false c : is_ws c = false <-> ~ In c white_space.
Proof. rewrite <- is_ws_spec. destruct (is_ws c); split; congruence. Qed.

Lemma trim_start_spec t : exists pre, t = pre ++ trim_start t /\
  (forall c, In c pre -> is_ws c = true) /\ (forall c r, trim_start t = c :: r -> is_ws c = false).
Proof.
  induction t as [|a t IH].
  - exists []. cbn. repeat split; [intros c []|discriminate].
  - cbn [trim_start]. destruct (is_ws a) eqn:Ha.
    + destruct IH as (pre & H1 & H2 & H3). exists (a :: pre). cbn [app]. split; [f_equal; exact H1|].
      split; [|exact H3]. intros c [<-|Hc]; [exact Ha|apply H2; exact Hc].
    + exists []. cbn [app]. split; [reflexivity|]. split; [intros c []|].
      intros c r Heq. inversion Heq. subst. exact Ha.
Qed.

Lemma trim_end_spec t : exists post, t = trim_end t ++ post /\
  (forall c, In c post -> is_ws c = true) /\ (forall c r, trim_end t = r ++ [c] -> is_ws c = false).
Proof.
  unfold trim_end. destruct (trim_start_spec (rev t)) as (pre & H1 & H2 & H3).
  exists (rev pre). split.
  - rewrite <- rev_app_distr, <- H1. symmetry. apply rev_involutive.
  - split.
    + intros c Hc. apply H2. apply in_rev. exact Hc.
    + intros c r Heq. apply (H3 c (rev r)).
      rewrite <- (rev_involutive (trim_start (rev t))), Heq. rewrite rev_app_distr. reflexivity.
Qed.

Lemma trim_end_snoc_ws p c : is_ws c = true -> trim_end (p ++ [c]) = trim_end p.
Proof. intros H. unfold trim_end. rewrite rev_app_distr. cbn [rev app trim_start]. rewrite H. reflexivity. Qed.

Lemma trim_decomp p : exists pre mid post, p = pre ++ mid ++ post /\
  trim_end p = pre ++ mid /\ trim_start (trim_end p) = mid /\
  all_ws pre /\ all_ws post /\ no_edge_ws mid /\ (mid = [] -> pre = []).
Proof.
  destruct (trim_end_spec p) as (post & E1 & E2 & E3).
  destruct (trim_start_spec (trim_end p)) as (pre & S1 & S2 & S3).
  exists pre, (trim_start (trim_end p)), post.
  split; [rewrite app_assoc, <- S1; exact E1|].
  split; [exact S1|]. split; [reflexivity|].
  split; [intros c Hc; apply is_ws_spec, S2, Hc|].
  split; [intros c Hc; apply is_ws_spec, E2, Hc|].
  split.
  - split.
    + intros c r Heq. apply is_ws_false. exact (S3 c r Heq).
    + intros c r Heq. apply is_ws_false. apply (E3 c (pre ++ r)).
      rewrite S1 at 1. rewrite Heq. apply app_assoc.
  - intros Hmid. rewrite Hmid, app_nil_r in S1.
    destruct pre as [|c r _] using rev_ind; [reflexivity|exfalso].
    assert (Hw : is_ws c = true) by (apply S2, in_or_app; right; left; reflexivity).
    rewrite (E3 c r S1) in Hw. discriminate.
Qed.

Lemma trim_start_ws_app w s : forallb is_ws w = true -> trim_start (w ++ s) = trim_start s.
Proof.
  induction w as [|c w IH]; intro H; [reflexivity|]. cbn [forallb] in H. apply andb_true_iff in H. destruct H as [Hc Hw].
  cbn [app trim_start]. rewrite Hc. apply IH. exact Hw.
Qed.
(* what model/ObjText.v's [trim] (the other order of trimming) makes of white space around a text with clean [edges] *)
Definition edges (mid : str) : Prop := forall c, (hd_error mid = Some c \/ hd_error (rev mid) = Some c) -> is_ws c = false.
Theorem trim_core pre mid post : forallb is_ws pre = true -> forallb is_ws post = true -> edges mid ->
  trim_end (trim_start (pre ++ mid ++ post)) = mid.
Proof.
  intros Hpre Hpost He. unfold trim_end. rewrite trim_start_ws_app by exact Hpre.
  assert (E1 : trim_start (mid ++ post) = mid ++ post \/ mid = []).
  { destruct mid as [|c r]; [right; reflexivity|left]. cbn [app trim_start]. rewrite (He c) by (left; reflexivity). reflexivity. }
  destruct E1 as [E1| ->].
  - rewrite E1, rev_app_distr, trim_start_ws_app by (apply forallb_rev; exact Hpost).
    destruct (rev mid) as [|c r] eqn:Er; [rewrite <- (rev_involutive mid), Er; reflexivity|].
    cbn [trim_start]. rewrite (He c) by (right; rewrite Er; reflexivity). rewrite <- Er. apply rev_involutive.
  - cbn [app]. rewrite <- (app_nil_r post), trim_start_ws_app by exact Hpost. reflexivity.
Qed.

Lemma line_span_trim s l pre mid post : 0 <= l <= count_nl s ->
  line s l = pre ++ mid ++ post -> trim_end (line s l) = pre ++ mid -> trim_start (trim_end (line s l)) = mid ->
  line_span s l = Some (line_start s l + byte_len pre, line_start s l + byte_len pre + byte_len mid) /\
  read_line s l = Some mid.
Proof.
  intros Hl Hp Het Hmid. destruct (raw_line_cut s l Hl) as (x & y & z & Hs & Hy & Hx & Hraw).
  (* the newline of the raw line is whitespace: it is trimmed with the rest *)
  assert (Hte : trim_end y = pre ++ mid).
  { rewrite Hy. destruct (l <? count_nl s); [rewrite trim_end_snoc_ws by reflexivity|]; rewrite ?app_nil_r; exact Het. }
  assert (Hspan : line_span s l = Some (line_start s l + byte_len pre, line_start s l + byte_len pre + byte_len mid)).
  { assert (Hsub : substr s (byte_len x) (byte_len x + byte_len y) = y) by (rewrite Hs at 1; apply substr_mid).
    unfold line_span. rewrite Hraw, Hsub. cbv zeta.
    rewrite Hte, <- Het, Hmid, Het, byte_len_app, Hx. f_equal. f_equal; lia. }
  split; [exact Hspan|]. unfold read_line. rewrite Hspan, <- Hx, <- byte_len_app. f_equal.
  rewrite Hs, Hy, Hp at 1. rewrite <- !app_assoc, (app_assoc x pre). apply substr_mid.
Qed.

Lemma line_span_spec s l : 0 <= l <= count_nl s ->
  exists pre mid post, line s l = pre ++ mid ++ post /\ all_ws pre /\ all_ws post /\ no_edge_ws mid /\
    (mid = [] -> pre = []) /\
    line_span s l = Some (line_start s l + byte_len pre, line_start s l + byte_len pre + byte_len mid) /\
    read_line s l = Some mid.
Proof.
  intros Hl.
  destruct (trim_decomp (line s l)) as (pre & mid & post & Hp & Het & Hmid & Hpre & Hpost & Hedge & Hem).
  exists pre, mid, post. do 5 (split; [assumption|]). apply (line_span_trim s l pre mid post); assumption.
Qed.

Lemma read_line_trim s l : 0 <= l <= count_nl s -> read_line s l = Some (trim_start (trim_end (line s l))).
Proof.
  intros Hl. destruct (trim_decomp (line s l)) as (pre & mid & post & Hp & Het & Hmid & _).
  rewrite Hmid. apply (line_span_trim s l pre mid post); assumption.
Qed.

Lemma line_span_none s l : l < 0 \/ count_nl s < l -> line_span s l = None /\ read_line s l = None.
Proof.
  intros H. unfold read_line, line_span. rewrite raw_line_span_none by exact H. split; reflexivity.
Qed.

Lemma read_line_nth s l : 0 <= l -> read_line s l =
  if l <? count_lines s then Some (trim_start (trim_end (nth (Z.to_nat l) (lines_of s) []))) else None.
Proof.
  intro Hl. rewrite count_lines_spec. destruct (Z.ltb_spec l (count_nl s + 1)).
  - apply read_line_trim. lia.
  - apply line_span_none. lia.
Qed.

(* the partition point: the piece whose [start, end] holds i, or the number of pieces behind the last end *)
Lemma count_lt_ends ls : forall off i, off <= i ->
  exists n : nat, count_lt (ends_of ls off) i = Z.of_nat n /\ (n <= length ls)%nat /\
    off + start_of ls n <= i /\
    ((n < length ls)%nat -> i <= off + start_of ls n + byte_len (nth n ls [])).
Proof.
  induction ls as [|p ps IH]; intros off i Hi.
  - exists 0%nat. cbn. repeat split; try lia.
  - cbn [ends_of count_lt]. destruct (off + byte_len p <? i) eqn:E.
    + apply Z.ltb_lt in E.
      destruct (IH (off + byte_len p + 1) i) as (n & Hc & Hn & Hlo & Hhi); [lia|].
      exists (S n). rewrite Hc. split; [lia|]. split; [cbn [length]; lia|].
      rewrite start_of_cons. cbn [nth length]. split; [lia|]. intros Hlt.
      assert (Hlt' : (n < length ps)%nat) by lia. specialize (Hhi Hlt'). lia.
    + apply Z.ltb_ge in E. exists 0%nat. cbn [start_of nth length]. repeat split; lia.
Qed.

Lemma line_start_nonneg s l : 0 <= line_start s l.
Proof. apply start_of_nonneg. Qed.

Lemma line_start_mono s l l' : 0 <= l <= l' -> line_start s l <= line_start s l'.
Proof. intros H. apply start_of_mono. lia. Qed.

Lemma line_start_next s l : 0 <= l <= count_nl s ->
  line_start s (l + 1) = line_start s l + byte_len (line s l) + 1.
Proof.
  intros H. unfold line_start, line. replace (Z.to_nat (l + 1)) with (S (Z.to_nat l)) by lia.
  apply start_of_S. pose proof (length_lines_of s). lia.
Qed.

Lemma byte_len_last_line s : byte_len s = line_start s (count_nl s) + byte_len (line s (count_nl s)).
Proof.
  pose proof (count_nl_nonneg s) as Hn. pose proof (length_lines_of s) as Hlen.
  pose proof (line_start_next s (count_nl s)) as Hnext.
  rewrite <- (join_lines_of s) at 1. rewrite byte_len_join_nl by apply lines_of_nonempty.
  unfold line_start in *. replace (length (lines_of s)) with (Z.to_nat (count_nl s + 1)) by lia. lia.
Qed.

Lemma line_end_le_len s l : 0 <= l <= count_nl s -> line_start s l + byte_len (line s l) <= byte_len s.
Proof.
  intros H. pose proof (byte_len_last_line s) as Hlast.
  destruct (Z.eq_dec l (count_nl s)) as [->|Hne]; [lia|].
  pose proof (line_start_next s l H). pose proof (line_start_mono s (l + 1) (count_nl s)).
  pose proof (byte_len_nonneg (line s (count_nl s))). lia.
Qed.

(* the unclamped partition point *)
Lemma count_lt_spec s i : 0 <= i ->
  let k := count_lt (nl_indices s) i in
  0 <= k <= count_nl s + 1 /\ line_start s k <= i /\
  (k <= count_nl s -> i <= line_start s k + byte_len (line s k)) /\
  (k = count_nl s + 1 <-> byte_len s < i).
Proof.
  intros Hi k. subst k. rewrite nl_indices_ends.
  destruct (count_lt_ends (lines_of s) 0 i Hi) as (n & Hc & Hn & Hlo & Hhi).
  pose proof (length_lines_of s) as Hlen. rewrite Hc.
  unfold line_start, line. rewrite Nat2Z.id.
  split; [lia|]. split; [lia|]. split; [intros H; apply Hhi; lia|].
  split.
  - intros Hk. rewrite <- (join_lines_of s). rewrite byte_len_join_nl by apply lines_of_nonempty.
    replace (length (lines_of s)) with n by lia. lia.
  - intros Hgt. destruct (Z.eq_dec (Z.of_nat n) (count_nl s + 1)) as [|Hne]; [assumption|exfalso].
    assert (Hlt : (n < length (lines_of s))%nat) by lia. specialize (Hhi Hlt).
    pose proof (line_end_le_len s (Z.of_nat n)) as Hle. unfold line_start, line in Hle.
    rewrite Nat2Z.id in Hle. lia.
Qed.

(* [get_line] clamps the partition point to the last line *)
Lemma get_line_where s i : 0 <= i -> let k := get_line s i in
  0 <= k <= count_nl s /\ line_start s k <= i /\
  (i <= byte_len s -> i <= line_start s k + byte_len (line s k)) /\ (byte_len s < i -> k = count_nl s).
Proof.
  intros Hi k. subst k. unfold get_line. rewrite count_lines_spec.
  destruct (count_lt_spec s i Hi) as (Hk & Hlo & Hhi & Hend). pose proof (count_nl_nonneg s) as Hc.
  replace (Z.max 0 (count_nl s + 1 - 1)) with (count_nl s) by lia.
  destruct (Z.eq_dec (count_lt (nl_indices s) i) (count_nl s + 1)) as [E|E].
  - rewrite Z.min_r by lia. pose proof (byte_len_last_line s). pose proof (byte_len_nonneg (line s (count_nl s))).
    pose proof (proj1 Hend E). lia.
  - rewrite Z.min_l by lia. specialize (Hhi ltac:(lia)). lia.
Qed.

Lemma get_line_spec s i : 0 <= i ->
  (i <= byte_len s ->
     0 <= get_line s i <= count_nl s /\
     line_start s (get_line s i) <= i <= line_start s (get_line s i) + byte_len (line s (get_line s i))) /\
  (byte_len s < i -> get_line s i = count_nl s).
Proof.
  intros Hi. destruct (get_line_where s i Hi) as (Hk & Hlo & Hhi & Hend).
  split; [intros H; specialize (Hhi H); lia | exact Hend].
Qed.

(* the usize subtraction `index - lstart` never underflows *)
Lemma get_pos_pair_eq s i : 0 <= i ->
  get_pos_pair_res s i = Some (get_line s i, i - line_start s (get_line s i)).
Proof.
  intros Hi. destruct (get_line_where s i Hi) as (Hk & Hlo & _). unfold get_pos_pair_res.
  destruct (raw_line_cut s (get_line s i) Hk) as (x & y & z & _ & _ & Hx & ->). rewrite Hx.
  replace (i <? line_start s (get_line s i)) with false by lia. reflexivity.
Qed.

Lemma get_pos_pair_in_range s i : 0 <= i <= byte_len s ->
  exists l c, get_pos_pair_res s i = Some (l, c) /\ 0 <= l <= count_nl s /\ 0 <= c /\
              line_start s l + c = i /\ c <= byte_len (line s l).
Proof.
  intros Hi. destruct (get_line_where s i) as (Hk & Hlo & Hhi & _); [lia|].
  eexists _, _. split; [apply get_pos_pair_eq; lia|]. lia.
Qed.

Lemma get_pos_pair_past_end s i : byte_len s < i ->
  get_pos_pair_res s i = Some (count_nl s, i - line_start s (count_nl s)) /\
  line_start s (count_nl s) <= byte_len s.
Proof.
  intros Hi. pose proof (byte_len_nonneg s). destruct (get_line_where s i) as (_ & _ & _ & E); [lia|].
  rewrite get_pos_pair_eq, E by lia. split; [reflexivity|].
  pose proof (byte_len_last_line s). pose proof (byte_len_nonneg (line s (count_nl s))). lia.
Qed.

Lemma get_pos_pair_res_some s i : 0 <= i -> get_pos_pair_res s i <> None.
Proof. intros Hi. rewrite get_pos_pair_eq by exact Hi. discriminate. Qed.

Lemma line_of_index_unique s i l l' : 0 <= l <= count_nl s -> 0 <= l' <= count_nl s ->
  line_start s l <= i <= line_start s l + byte_len (line s l) ->
  line_start s l' <= i <= line_start s l' + byte_len (line s l') -> l = l'.
Proof.
  intros Hl Hl' Hi Hi'.
  destruct (Z.lt_trichotomy l l') as [Hlt|[Heq|Hgt]]; [exfalso| exact Heq | exfalso].
  - pose proof (line_start_next s l Hl). pose proof (line_start_mono s (l + 1) l'). lia.
  - pose proof (line_start_next s l' Hl'). pose proof (line_start_mono s (l' + 1) l). lia.
Qed.

(* the code before the repair: get_line unclamped, fallback raw_line_span(count_lines) = None *)
Definition get_pos_pair_unrepaired (s : str) (index : Z) : Z * Z :=
  let lno := count_lt (nl_indices s) index in
  let lstart := match raw_line_span s lno with
                | Some (a, _) => a
                | None => match raw_line_span s (count_lines s) with Some (a, _) => a | None => 0 end
                end in
  (lno, index - lstart).

(* "a\nb", index 4 (one past the end): line 2 of a two-line text, column 4 *)
Lemma unrepaired_witness :
  get_pos_pair_unrepaired [97; 10; 98] 4 = (2, 4) /\ get_pos_pair_res [97; 10; 98] 4 = Some (1, 2) /\
  get_pos_pair_unrepaired [] 1 = (1, 1) /\ get_pos_pair_res [] 1 = Some (0, 1).
Proof. vm_compute. repeat split. Qed.

(* on the BYTES of the text (what `match_indices('\n')` sees): a newline byte occurs exactly at newline
   code points, every byte of a multi-byte UTF-8 sequence being >= 128 *)

Lemma utf8_bytes_app a b : utf8_bytes (a ++ b) = utf8_bytes a ++ utf8_bytes b.
Proof. unfold utf8_bytes. apply flat_map_app. Qed.

Lemma utf8_encode_no_nl c b : valid_cp c -> c <> 10 -> In b (utf8_encode c) -> b <> 10.
Proof.
  unfold valid_cp, utf8_encode. intros Hv Hc Hin.
  destruct (c <? 128) eqn:E1; [cbn in Hin; lia|]. apply Z.ltb_ge in E1.
  destruct (c <? 2048); [|destruct (c <? 65536)]; cbn [In] in Hin;
    repeat (destruct Hin as [<-|Hin]; [Z.div_mod_to_equations; lia|]); destruct Hin.
Qed.

Lemma utf8_bytes_no_nl p b : Forall valid_cp p -> ~ In 10 p -> In b (utf8_bytes p) -> b <> 10.
Proof.
  intros Hv Hn Hin. unfold utf8_bytes in Hin. apply in_flat_map in Hin. destruct Hin as (c & Hc & Hb).
  apply (utf8_encode_no_nl c b); [exact (proj1 (Forall_forall _ _) Hv c Hc)| |exact Hb].
  intros ->. exact (Hn Hc).
Qed.

Lemma count_nl_bytes s : Forall valid_cp s ->
  Z.of_nat (count_occ Z.eq_dec (utf8_bytes s) 10) = count_nl s.
Proof.
  induction s as [|c r IH]; intros Hv; [reflexivity|].
  inversion Hv as [|? ? Hc Hr]; subst.
  change (utf8_bytes (c :: r)) with (utf8_encode c ++ utf8_bytes r).
  rewrite count_occ_app, Nat2Z.inj_add, (IH Hr). cbn [count_nl]. f_equal.
  destruct (c =? 10) eqn:E.
  - apply Z.eqb_eq in E. subst c. reflexivity.
  - apply Z.eqb_neq in E.
    replace (count_occ Z.eq_dec (utf8_encode c) 10) with 0%nat; [reflexivity|].
    symmetry. apply count_occ_not_In. intros Hin. exact (utf8_encode_no_nl c 10 Hc E Hin eq_refl).
Qed.

Lemma get_pos_pair_no_nl_between s i : Forall valid_cp s -> 0 <= i <= byte_len s ->
  exists l c, get_pos_pair_res s i = Some (l, c) /\ line_start s l + c = i /\
    forall j, line_start s l <= j < i -> nth (Z.to_nat j) (utf8_bytes s) 0 <> 10.
Proof.
  intros Hv Hi. destruct (get_pos_pair_in_range s i Hi) as (l & c & Hres & Hl & Hc & Hsum & Hlen).
  exists l, c. split; [exact Hres|]. split; [exact Hsum|]. intros j Hj.
  destruct (raw_line_decomp s l Hl) as (x & z & Hs & Hx & _).
  pose proof (line_start_nonneg s l) as Hst.
  assert (Hvp : Forall valid_cp (line s l)).
  { apply Forall_forall. intros a Ha. apply (proj1 (Forall_forall _ _) Hv).
    rewrite Hs. apply in_or_app. right. apply in_or_app. left. exact Ha. }
  assert (Hnl : ~ In 10 (line s l)).
  { pose proof (length_lines_of s). apply (lines_of_no_nl s). unfold line. apply nth_In. lia. }
  rewrite Hs, !utf8_bytes_app.
  pose proof (length_utf8_bytes x) as Lx. pose proof (length_utf8_bytes (line s l)) as Lp.
  rewrite app_nth2 by lia. rewrite app_nth1 by lia.
  apply (utf8_bytes_no_nl (line s l)); [exact Hvp|exact Hnl|]. apply nth_In. lia.
Qed.

Lemma is_boundary_from_app x : forall r off, is_boundary_from (x ++ r) off (off + byte_len x) = true.
Proof.
  induction x as [|c x IH]; intros r off.
  - cbn [app byte_len]. destruct r; cbn [is_boundary_from]; rewrite Z.add_0_r, Z.eqb_refl; reflexivity.
  - cbn [app byte_len is_boundary_from].
    replace (off + (utf8_len c + byte_len x)) with (off + utf8_len c + byte_len x) by lia.
    rewrite IH. apply orb_true_r.
Qed.

Lemma is_boundary_app x r : is_boundary (x ++ r) (byte_len x) = true.
Proof. unfold is_boundary. apply (is_boundary_from_app x r 0). Qed.

Lemma slice_mid x y z : slice (x ++ y ++ z) (byte_len x) (byte_len x + byte_len y) = Some y.
Proof.
  unfold slice. pose proof (byte_len_nonneg y).
  replace (byte_len x <=? byte_len x + byte_len y) with true by lia.
  rewrite is_boundary_app.
  replace (is_boundary (x ++ y ++ z) (byte_len x + byte_len y)) with true.
  - cbn [andb]. f_equal. apply substr_mid.
  - rewrite app_assoc, <- byte_len_app. symmetry. apply is_boundary_app.
Qed.

Lemma usub_ok a b : b <= a -> usub a b = Some (a - b).
Proof. intros H. unfold usub. replace (a <? b) with false by lia. reflexivity. Qed.

Lemma byte_len_trim_end_le t : byte_len (trim_end t) <= byte_len t.
Proof.
  destruct (trim_end_spec t) as (post & H & _). rewrite H at 2. rewrite byte_len_app.
  pose proof (byte_len_nonneg post). lia.
Qed.

Lemma byte_len_trim_start_le t : byte_len (trim_start t) <= byte_len t.
Proof.
  destruct (trim_start_spec t) as (pre & H & _). rewrite H at 2. rewrite byte_len_app.
  pose proof (byte_len_nonneg pre). lia.
Qed.

Lemma line_span_res_ok s l : line_span_res s l = Some (line_span s l).
Proof.
  unfold line_span_res, line_span.
  assert (H : 0 <= l <= count_nl s \/ (l < 0 \/ count_nl s < l)) by lia. destruct H as [H|H].
  - destruct (raw_line_cut s l H) as (x & y & z & Hs & _ & _ & Hraw). rewrite Hraw.
    assert (Hsl : slice s (byte_len x) (byte_len x + byte_len y) = Some y) by (rewrite Hs at 1; apply slice_mid).
    assert (Hsub : substr s (byte_len x) (byte_len x + byte_len y) = y) by (rewrite Hs at 1; apply substr_mid).
    rewrite Hsl, Hsub. cbv zeta.
    pose proof (byte_len_trim_end_le y). pose proof (byte_len_trim_start_le (trim_end y)).
    pose proof (byte_len_nonneg (trim_end y)). pose proof (byte_len_nonneg x).
    rewrite (usub_ok (byte_len y)) by lia. rewrite !usub_ok by lia. reflexivity.
  - rewrite raw_line_span_none by exact H. reflexivity.
Qed.

Lemma read_line_res_ok s l : read_line_res s l = Some (read_line s l).
Proof.
  unfold read_line_res. rewrite line_span_res_ok.
  assert (H : 0 <= l <= count_nl s \/ (l < 0 \/ count_nl s < l)) by lia. destruct H as [H|H].
  - destruct (line_span_spec s l H) as (pre & mid & post & Hp & _ & _ & _ & _ & Hspan & Hread).
    destruct (raw_line_decomp s l H) as (x & z & Hs & Hx & _).
    rewrite Hspan, Hread, <- Hx, <- byte_len_app. rewrite Hs, Hp at 1.
    rewrite <- !app_assoc, (app_assoc x pre), slice_mid. reflexivity.
  - destruct (line_span_none s l H) as [-> ->]. reflexivity.
Qed.

Lemma count_lines_bound s : count_lines s <= byte_len s + 1.
Proof.
  rewrite count_lines_spec. induction s as [|c s IH]; cbn [count_nl byte_len]; [lia|].
  pose proof (utf8_len_pos c). destruct (c =? 10); lia.
Qed.
