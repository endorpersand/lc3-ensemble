(* ListFacts.v — facts about lists over the standard library alone, by head symbol; one induction
   principle; the two tactics that take boolean hypotheses apart. *)
From Coq Require Import ZArith List Bool Lia Permutation.
Import ListNotations.

(* split boolean conjunctions in the hypotheses; [btrue] also turns their integer comparisons into propositions *)
Ltac split_andb :=
  repeat match goal with H : _ && _ = true |- _ => apply andb_prop in H; destruct H end.
Ltac btrue :=
  repeat match goal with
  | H : _ && _ = true |- _ => apply andb_prop in H; destruct H
  | H : negb _ = true |- _ => apply negb_true_iff in H
  | H : (_ <=? _)%Z = true |- _ => apply Z.leb_le in H
  | H : (_ <? _)%Z = true |- _ => apply Z.ltb_lt in H
  | H : (_ =? _)%Z = true |- _ => apply Z.eqb_eq in H
  | H : (_ <=? _)%Z = false |- _ => apply Z.leb_gt in H
  | H : (_ <? _)%Z = false |- _ => apply Z.ltb_ge in H
  | H : (_ =? _)%Z = false |- _ => apply Z.eqb_neq in H
  end.

Lemma NoDup_app_snoc {A} (l : list A) x : NoDup l -> ~ In x l -> NoDup (l ++ [x]).
Proof.
  intros N H. apply NoDup_rev in N. rewrite <- (rev_involutive (l ++ [x])). apply NoDup_rev.
  rewrite rev_app_distr. cbn. constructor; [|exact N]. rewrite <- in_rev. exact H.
Qed.

Lemma NoDup_app_disjoint {A} (l l' : list A) :
  NoDup l -> NoDup l' -> (forall x, In x l -> In x l' -> False) -> NoDup (l ++ l').
Proof.
  induction l as [|a l IH]; intros N N' D; [exact N'|]. cbn [app]. inversion N as [|? ? N1 N2]; subst.
  constructor.
  - intros H. apply in_app_or in H. destruct H as [H|H]; [exact (N1 H) | exact (D a (or_introl eq_refl) H)].
  - apply IH; [exact N2 | exact N' | intros x H1 H2; exact (D x (or_intror H1) H2)].
Qed.

Lemma NoDup_map_inj {A B} (f : A -> B) (l : list A) x y : NoDup (map f l) -> In x l -> In y l -> f x = f y -> x = y.
Proof.
  induction l as [|a l IH]; intros N Hx Hy E; [contradiction|]. cbn [map] in N. inversion N as [|? ? N1 N2]; subst.
  destruct Hx as [->|Hx]; destruct Hy as [->|Hy]; [reflexivity | | |exact (IH N2 Hx Hy E)];
    exfalso; apply N1; [rewrite E|rewrite <- E]; apply in_map; assumption.
Qed.

Lemma fresh_key {K V} (acc : list (K * V)) k v l : NoDup (map fst (acc ++ (k, v) :: l)) -> ~ In k (map fst acc).
Proof. rewrite map_app. cbn [map fst]. intros H Hin. apply NoDup_remove_2 in H. apply H. apply in_or_app. left. exact Hin. Qed.

Lemma filter_keys_nodup {A B} (P : A * B -> bool) l : NoDup (map fst l) -> NoDup (map fst (filter P l)).
Proof.
  induction l as [|p r IH]; cbn; intro H; [constructor|]. inversion H as [|? ? Hk Hr]; subst.
  destruct (P p); cbn; [|auto]. constructor; [|auto]. intro Hin. apply Hk.
  apply in_map_iff in Hin as (q & E & Hq). apply filter_In in Hq as (Hq & _). rewrite <- E. apply in_map. exact Hq.
Qed.

Lemma existsb_snoc {A} (f : A -> bool) l x : existsb f (l ++ [x]) = existsb f l || f x.
Proof. rewrite existsb_app. cbn. rewrite orb_false_r. reflexivity. Qed.

Lemma existsb_in {A} (f : A -> bool) l x : In x l -> f x = true -> existsb f l = true.
Proof. intros H F. apply existsb_exists. exists x. split; assumption. Qed.

Lemma existsb_false_in {A} (f : A -> bool) l x : existsb f l = false -> In x l -> f x = false.
Proof. intros H Hx. destruct (f x) eqn:E; [|reflexivity]. rewrite (existsb_in f l x Hx E) in H. discriminate H. Qed.

Lemma existsb_le {A} (f g : A -> bool) l : (forall x, f x = true -> g x = true) -> existsb g l = false -> existsb f l = false.
Proof.
  intros H G. destruct (existsb f l) eqn:E; [|reflexivity]. exfalso.
  apply existsb_exists in E. destruct E as [x [Hx Fx]].
  assert (existsb g l = true) by (apply existsb_exists; exists x; split; [exact Hx | apply H; exact Fx]). congruence.
Qed.

Lemma existsb_eqb {A} (eqb : A -> A -> bool) : (forall x y, eqb x y = true <-> x = y) ->
  forall x l, existsb (eqb x) l = true <-> In x l.
Proof.
  intros H x l. rewrite existsb_exists. split.
  - intros (y & Hy & E). apply H in E. subst. exact Hy.
  - intro Hx. exists x. split; [exact Hx|]. apply H. reflexivity.
Qed.

Lemma forallb_Forall {A} (f : A -> bool) (P : A -> Prop) l :
  (forall x, f x = true -> P x) -> forallb f l = true -> Forall P l.
Proof. intros H E. apply Forall_forall. intros x Hx. apply H. rewrite forallb_forall in E. apply E. exact Hx. Qed.

Lemma forallb_impl {A} (f g : A -> bool) l : (forall x, f x = true -> g x = true) -> forallb f l = true -> forallb g l = true.
Proof. intros H E. apply forallb_forall. intros x Hx. apply H. rewrite forallb_forall in E. apply E. exact Hx. Qed.

Lemma forallb_cons_iff {A} (f : A -> bool) x l : forallb f (x :: l) = true <-> f x = true /\ forallb f l = true.
Proof. cbn [forallb]. apply andb_true_iff. Qed.

Lemma forallb_ext {A} (f g : A -> bool) : (forall x, f x = g x) -> forall l, forallb f l = forallb g l.
Proof. intros H. induction l as [|a l IH]; cbn [forallb]; [reflexivity|]. rewrite H, IH. reflexivity. Qed.

Lemma forallb_map {A B} (f : B -> bool) (g : A -> B) l : forallb f (map g l) = forallb (fun x => f (g x)) l.
Proof. induction l as [|x l IH]; [reflexivity|]. cbn [map forallb]. rewrite IH. reflexivity. Qed.

Lemma forallb_rev {A} (f : A -> bool) l : forallb f l = true -> forallb f (rev l) = true.
Proof. intro H. apply forallb_forall. intros x Hx. rewrite forallb_forall in H. apply H. apply in_rev. exact Hx. Qed.

Lemma forallb_perm {A} (f : A -> bool) l l' : Permutation l l' -> forallb f l = true -> forallb f l' = true.
Proof.
  intros P H. apply forallb_forall. intros x Hx. rewrite forallb_forall in H. apply H.
  eapply Permutation_in; [apply Permutation_sym; exact P|exact Hx].
Qed.

Lemma find_app {A} (f : A -> bool) l l' : find f (l ++ l') = match find f l with Some x => Some x | None => find f l' end.
Proof. induction l as [|a l IH]; cbn [find app]; [reflexivity|]. destruct (f a); [reflexivity|exact IH]. Qed.

Lemma filter_filter {A} (P Q : A -> bool) l : filter P (filter Q l) = filter (fun x => Q x && P x) l.
Proof.
  induction l as [|x r IH]; cbn; [reflexivity|]. destruct (Q x); cbn; [destruct (P x); cbn|]; rewrite IH; reflexivity.
Qed.

Lemma filter_const {A} (b : bool) (l : list A) : filter (fun _ => b) l = if b then l else [].
Proof. destruct b; induction l as [|x r IH]; cbn; [reflexivity|rewrite IH; reflexivity|reflexivity|exact IH]. Qed.

Lemma flat_map_map {A B C} (f : B -> list C) (g : A -> B) l : flat_map f (map g l) = flat_map (fun x => f (g x)) l.
Proof. induction l as [|x l IH]; [reflexivity|]. cbn [map flat_map]. rewrite IH. reflexivity. Qed.

Lemma map_fst_combine {A B} (l : list A) : forall (l' : list B), List.length l = List.length l' -> map fst (combine l l') = l.
Proof. induction l as [|x l IH]; intros [|y l'] H; try discriminate; [reflexivity|]. cbn [combine map fst]. rewrite IH by (cbn in H; lia). reflexivity. Qed.

Lemma flat_map_snd_combine {A B} (l : list A) : forall (l' : list (list B)), List.length l = List.length l' ->
  flat_map snd (combine l l') = List.concat l'.
Proof. induction l as [|x l IH]; intros [|y l'] H; try discriminate; [reflexivity|]. cbn [combine flat_map snd List.concat]. rewrite IH by (cbn in H; lia). reflexivity. Qed.

Lemma combine_fst_snd {A B} (l : list (A * B)) : combine (map fst l) (map snd l) = l.
Proof. induction l as [|[a b] l IH]; [reflexivity|]. cbn [map combine fst snd]. rewrite IH. reflexivity. Qed.

Lemma length_in_concat {A} : forall (cs : list (list A)) c, In c cs -> (length c <= length (concat cs))%nat.
Proof.
  induction cs as [|d cs IH]; intros c Hin; [destruct Hin|].
  cbn [concat]. rewrite app_length. destruct Hin as [->|Hin]; [lia|].
  specialize (IH c Hin). lia.
Qed.

Lemma last_cons {A} (l : list A) : forall a d, List.last (a :: l) d = List.last l a.
Proof.
  induction l as [|b l IH]; intros a d; [reflexivity|].
  change (List.last (a :: b :: l) d) with (List.last (b :: l) d). rewrite !IH. reflexivity.
Qed.

Lemma option_map_app_nil {A} (x : option (list A)) : option_map (app []) x = x.
Proof. destruct x; reflexivity. Qed.

Lemma option_map_app_one {A} (a : A) (x : option (list A)) : option_map (app [a]) x = option_map (cons a) x.
Proof. destruct x; reflexivity. Qed.

(* for functions that recurse on the tail or on the tail of the tail *)
Lemma list_ind2 {A} (P : list A -> Prop) :
  P [] -> (forall a l, P l -> (forall b l', l = b :: l' -> P l') -> P (a :: l)) -> forall l, P l.
Proof.
  intros H0 Hs l. enough (H : P l /\ forall a, P (a :: l)) by apply H.
  induction l as [|b l [IH1 IH2]].
  - split; [exact H0|]. intros a. apply Hs; [exact H0|discriminate].
  - split; [apply IH2|]. intros a. apply Hs; [apply IH2|]. intros b' l' E. injection E as <- <-. exact IH1.
Qed.
