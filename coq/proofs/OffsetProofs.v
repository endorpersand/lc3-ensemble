(* OffsetProofs.v — C35: `Offset::new` accepts exactly the values its width represents, `new_trunc` keeps
   the low n bits.  All from 2^16 = 2^n * 2^(16-n): shifting left by 16-n in 16 bits and back is mod 2^n. *)
From Coq Require Import ZArith Lia.
From Model Require Import Bits Offset.
Open Scope Z_scope.

(* [Instr.rng] at these bounds (InstrProofs.fits_s_rng, fits_u_rng) *)
Definition fits_s (n v : Z) : bool := (- 2 ^ (n - 1) <=? v) && (v <? 2 ^ (n - 1)).
Definition fits_u (n v : Z) : bool := (0 <=? v) && (v <? 2 ^ n).

Lemma fits_s_i16 n v : 1 <= n <= 16 -> fits_s n v = true -> -32768 <= v < 32768.
Proof.
  intros Hn H. unfold fits_s in H.
  assert (2 ^ (n - 1) <= 2 ^ 15) by (apply Z.pow_le_mono_r; lia). change (2 ^ 15) with 32768 in *. lia.
Qed.
Lemma fits_s_range n v : 1 <= n <= 16 -> fits_s n v = true -> -32768 <= v <= 65535.
Proof. intros Hn H. pose proof (fits_s_i16 n v Hn H). lia. Qed.
Lemma fits_u_range n v : 1 <= n <= 16 -> fits_u n v = true -> 0 <= v <= 65535.
Proof.
  intros Hn H. unfold fits_u in H.
  assert (2 ^ n <= 2 ^ 16) by (apply Z.pow_le_mono_r; lia). change (2 ^ 16) with 65536 in *. lia.
Qed.

Lemma pow2_split n : 1 <= n <= 16 ->
  2 ^ n = 2 * 2 ^ (n - 1) /\ 0 < 2 ^ (n - 1) /\ 65536 = 2 ^ n * 2 ^ (16 - n) /\ 0 < 2 ^ (16 - n).
Proof.
  intros H. repeat split.
  - replace n with (n - 1 + 1) at 1 by lia. rewrite Z.pow_add_r by lia. lia.
  - apply Z.pow_pos_nonneg; lia.
  - change 65536 with (2 ^ 16). rewrite <- Z.pow_add_r by lia. f_equal. lia.
  - apply Z.pow_pos_nonneg; lia.
Qed.

Lemma shl_wrap v n : 1 <= n <= 16 -> wrap16 (Z.shiftl v (16 - n)) = v mod 2 ^ n * 2 ^ (16 - n).
Proof.
  intros Hn. destruct (pow2_split n Hn) as (_ & _ & E & Hk). unfold wrap16.
  rewrite Z.shiftl_mul_pow2, E, Z.mul_mod_distr_r by lia. reflexivity.
Qed.

Lemma truncate_u_zext n v : 1 <= n <= 16 -> truncate_u v n = zext n v.
Proof.
  intros Hn. destruct (pow2_split n Hn) as (_ & _ & _ & Hk).
  unfold truncate_u, shr_u16, shl_u16, zext. rewrite shl_wrap, Z.shiftr_div_pow2 by lia.
  apply Z.div_mul. lia.
Qed.

Lemma truncate_s_sext n v : 1 <= n <= 16 -> truncate_s v n = sext n v.
Proof.
  intros Hn. destruct (pow2_split n Hn) as (E2 & Hm & E & Hk).
  unfold truncate_s, shr_i16, shl_i16, to_i16, sext. rewrite shl_wrap, Z.shiftr_div_pow2 by lia.
  cbv zeta. set (r := v mod 2 ^ n). set (k := 2 ^ (16 - n)) in *. set (m := 2 ^ (n - 1)) in *.
  assert (E15 : 32768 = m * k) by lia.
  destruct (Z.ltb_spec r m); destruct (Z.ltb_spec (r * k) 32768); try nia.
  - apply Z.div_mul. lia.
  - rewrite E. replace (r * k - 2 ^ n * k) with ((r - 2 ^ n) * k) by ring. apply Z.div_mul. lia.
Qed.

Lemma sext_fits n v : 1 <= n <= 16 -> fits_s n (sext n v) = true.
Proof.
  intros Hn. destruct (pow2_split n Hn) as (E2 & Hm & _). unfold sext, fits_s. cbv zeta.
  pose proof (Z.mod_pos_bound v (2 ^ n)). destruct (Z.ltb_spec (v mod 2 ^ n) (2 ^ (n - 1))); lia.
Qed.

Lemma sext_low_bits n v : 1 <= n <= 16 -> (sext n v) mod 2 ^ n = v mod 2 ^ n.
Proof.
  intros Hn. destruct (pow2_split n Hn) as (E2 & Hm & _). unfold sext. cbv zeta.
  destruct (Z.ltb_spec (v mod 2 ^ n) (2 ^ (n - 1))).
  - apply Z.mod_mod. lia.
  - rewrite <- (Z.mod_add _ 1) by lia. rewrite Z.mul_1_l, Z.sub_add. apply Z.mod_mod. lia.
Qed.

Lemma zext_fits n v : 1 <= n <= 16 -> fits_u n (zext n v) = true.
Proof.
  intros Hn. destruct (pow2_split n Hn) as (E2 & Hm & _). unfold zext, fits_u.
  pose proof (Z.mod_pos_bound v (2 ^ n)). lia.
Qed.

Lemma zext_fix n v : 1 <= n <= 16 -> (v =? zext n v) = fits_u n v.
Proof.
  intros Hn. destruct (pow2_split n Hn) as (E2 & Hm & _). unfold zext, fits_u.
  pose proof (Z.mod_pos_bound v (2 ^ n)).
  destruct (Z.leb_spec 0 v); destruct (Z.ltb_spec v (2 ^ n)); cbn [andb]; try (rewrite Z.mod_small by lia); lia.
Qed.

Lemma sext_fix n v : 1 <= n <= 16 -> (v =? sext n v) = fits_s n v.
Proof.
  intros Hn. destruct (pow2_split n Hn) as (E2 & Hm & _).
  pose proof (sext_fits n v Hn) as F. unfold fits_s in *.
  destruct (Z.leb_spec (- 2 ^ (n - 1)) v); destruct (Z.ltb_spec v (2 ^ (n - 1))); cbn [andb]; try lia.
  apply Z.eqb_eq. unfold sext. cbv zeta.
  destruct (Z.leb_spec 0 v).
  - rewrite Z.mod_small by lia. destruct (Z.ltb_spec v (2 ^ (n - 1))); lia.
  - rewrite <- (Z.mod_add v 1), Z.mod_small by lia. destruct (Z.ltb_spec (v + 1 * 2 ^ n) (2 ^ (n - 1))); lia.
Qed.

Lemma n_ok_true n : 1 <= n <= 16 -> n_ok n = true.
Proof. unfold n_ok. lia. Qed.

Lemma new_s_spec n v : 1 <= n <= 16 ->
  new_s n v = if fits_s n v then Ok v else Err (CannotFitSigned n).
Proof. intros Hn. unfold new_s. rewrite n_ok_true, truncate_s_sext, sext_fix by assumption. reflexivity. Qed.

Lemma new_u_spec n v : 1 <= n <= 16 ->
  new_u n v = if fits_u n v then Ok v else Err (CannotFitUnsigned n).
Proof. intros Hn. unfold new_u. rewrite n_ok_true, truncate_u_zext, zext_fix by assumption. reflexivity. Qed.

Lemma new_trunc_s_spec n v : 1 <= n <= 16 -> new_trunc_s n v = Ok (sext n v).
Proof. intros Hn. unfold new_trunc_s. rewrite n_ok_true, truncate_s_sext by assumption. reflexivity. Qed.

Lemma new_trunc_u_spec n v : 1 <= n <= 16 -> new_trunc_u n v = Ok (zext n v).
Proof. intros Hn. unfold new_trunc_u. rewrite n_ok_true, truncate_u_zext by assumption. reflexivity. Qed.
