(* SimStepFrames2.v — C27 at step level: a completed JSR / JSRR step with debug frames on pushes one frame
   (address of the calling instruction, subroutine start, kind Subroutine) on the unchanged older frames. *)
From Coq Require Import ZArith List Bool Lia.
From Gen Require Import Constants.
From Model Require Import Tree Bits Word Instr Sim.
From Proofs Require Import SimHoare SimAccess SimFrames SimStepObs.
Import ListNotations.
Open Scope Z_scope.

Definition jsr_target (s : sim) (o : imm_or_reg) : Z :=
  match o with Imm off => wrap16 (wrap16 (s_pc s + 1) + off) | RegOp br => w_data (rget (s_regs s) br) end.

Theorem step_jsr_frame e s s' u s1 w o fs : Completed e s s' u s1 w (SJSR o) ->
  0 <= s_pc s < 65536 -> s_frames s = Some fs ->
  exists top, s_frames s' = Some (top :: fs) /\
    f_caller top = s_pc s /\ f_callee top = jsr_target s o /\ f_type top = FSubroutine.
Proof.
  intros C PC F. destruct (step_exec _ _ _ _ _ _ _ C) as (V & s3 & X & ->). cbn [upd_instrs s_frames].
  set (sf := after_fetch s1) in *.
  unfold exec in X. rewrite run_bind, run_get in X. cbv zeta in X. apply get_if_init_inl, call_subroutine_ok in X.
  subst s3. cbn [upd_pc upd_frames upd_regs s_frames s_sr_defns s_regs s_mem s_frame_no].
  rewrite (fv_frames _ _ V), F.
  edestruct push_frs_top as (top & E & C1 & C2 & C3). rewrite E.
  exists top. repeat split; try assumption.
  - rewrite C1. unfold prefetch_pc. cbn [upd_regs s_pc s_prefetch]. change (s_prefetch sf) with false.
    rewrite (fv_pc _ _ V). apply wrap16_succ_pred. exact PC.
  - rewrite C2. unfold jsr_target. destruct o as [off|br]; cbn [w_data new_init];
      [rewrite (fv_pc _ _ V)|rewrite (fv_regs _ _ V)]; reflexivity.
Qed.
