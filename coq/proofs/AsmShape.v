(* AsmShape.v — `assemble` (no source text) looks neither at source positions nor at the letter
   case of labels.  [canon_stmt] erases every position and upper-cases every label name (ASCII);
   [assemble_canon]: a program and its canonical form are rejected with the same error kind or
   accepted with the same blocks and the same label table up to source offsets.  The run on the
   canonical form is the IMAGE of the run on the program under the position-erasing maps [c_*]. *)
From Coq Require Import ZArith List Bool Lia.
From Gen Require Import Constants.
From Model Require Import Tree Text Bits Instr Offset AsmAst Obj SourceInfo Assembler.
From Spec Require Import LayoutSpec WfSpec.
From Proofs Require Import AsmBase PrintParseProofs.
Import ListNotations.
Open Scope Z_scope.

Definition canon_label (l : label) : label := mkLabel (upper (l_name l)) 0.
Definition canon_pcoff (o : pcoff) : pcoff := match o with POff v => POff v | PLab l => PLab (canon_label l) end.
Definition canon_instr (i : asm_instr) : asm_instr :=
  match i with
  | ABR cc o => ABR cc (canon_pcoff o) | AJSR o => AJSR (canon_pcoff o)
  | ALD r o => ALD r (canon_pcoff o) | ALDI r o => ALDI r (canon_pcoff o) | ALEA r o => ALEA r (canon_pcoff o)
  | AST r o => AST r (canon_pcoff o) | ASTI r o => ASTI r (canon_pcoff o) | ANOP o => ANOP (canon_pcoff o)
  | _ => i
  end.
Definition canon_directive (d : directive) : directive :=
  match d with DFill o => DFill (canon_pcoff o) | DExternal l => DExternal (canon_label l) | _ => d end.
Definition canon_nucleus (n : nucleus) : nucleus :=
  match n with NInstr i => NInstr (canon_instr i) | NDir d => NDir (canon_directive d) end.
Definition canon_stmt (s : stmt) : stmt :=
  mkStmt (map canon_label (s_labels s)) (canon_nucleus (s_nucleus s)) 0 0.

Lemma canon_label_shape l : canon_label (shape_label l) = canon_label l.
Proof. reflexivity. Qed.
Lemma canon_stmt_shape s : canon_stmt (shape_stmt s) = canon_stmt s.
Proof.
  unfold canon_stmt, shape_stmt. cbn [s_labels s_nucleus]. rewrite map_map. f_equal.
  destruct (s_nucleus s) as [i|d]; cbn [shape_nucleus canon_nucleus].
  - f_equal. destruct i; try reflexivity; destruct o; reflexivity.
  - f_equal. destruct d as [a|o|n|t| |l]; try reflexivity. destruct o; reflexivity.
Qed.
Lemma canon_of_shape l1 l2 : map shape_stmt l1 = map shape_stmt l2 -> map canon_stmt l1 = map canon_stmt l2.
Proof.
  intros H. assert (E : forall l, map canon_stmt l = map canon_stmt (map shape_stmt l)).
  { intros l. rewrite map_map. apply map_ext. intros s. symmetry. apply canon_stmt_shape. }
  rewrite (E l1), (E l2), H. reflexivity.
Qed.

Definition core (kd : str * symdata) : str * Z * bool := (fst kd, sd_addr (snd kd), sd_external (snd kd)).

(* results up to spans *)
Definition rr {A B} (R : A -> B -> Prop) (r : ares A) (r' : ares B) : Prop :=
  match r, r' with
  | AOk a, AOk b => R a b
  | AErr k _, AErr k' _ => k = k'
  | APanic, APanic => True
  | _, _ => False
  end.

Lemma rr_bind {A B A' B'} (R : A -> B -> Prop) (S : A' -> B' -> Prop) r r' (f : A -> ares A') (g : B -> ares B') :
  rr R r r' -> (forall a b, R a b -> rr S (f a) (g b)) -> rr S (abind r f) (abind r' g).
Proof.
  destruct r as [a|k sp|]; destruct r' as [b|k' sp'|]; cbn [rr abind]; intros H G; try contradiction; [exact (G a b H) | exact H | exact H].
Qed.

Definition rc {A B} (f : A -> B) : ares A -> ares B -> Prop := rr (fun a b => b = f a).

Lemma rc_bind {A B A' B'} (f : A -> B) (g : A' -> B') r r' (h : A -> ares A') (h' : B -> ares B') :
  rc f r r' -> (forall a, rc g (h a) (h' (f a))) -> rc g (abind r h) (abind r' h').
Proof. intros H G. apply (rr_bind _ _ _ _ _ _ H). intros a b ->. apply G. Qed.
Lemma rc_afold {S S' X X'} (step : S -> X -> ares S) (step' : S' -> X' -> ares S') (g : X -> X') (f : S -> S') :
  (forall st x, rc f (step st x) (step' (f st) (g x))) ->
  forall l st, rc f (afold step st l) (afold step' (f st) (map g l)).
Proof.
  intros HS. induction l as [|x l IH]; intros st; cbn [afold map]; [reflexivity|].
  apply (rc_bind f f); [apply HS | exact IH].
Qed.

Definition c_sd (d : symdata) : symdata := mkSym (sd_addr d) 0 (sd_external d).
Definition c_lm (L : labmap) : labmap := map (fun kd => (fst kd, c_sd (snd kd))) L.

Lemma c_lm_assoc k L : assoc k (c_lm L) = option_map c_sd (assoc k L).
Proof. induction L as [|[k0 d0] L IH]; cbn [c_lm map assoc fst snd]; [reflexivity|]. destruct (str_eqb k k0); [reflexivity | exact IH]. Qed.
Lemma c_lm_snoc L k d : c_lm (L ++ [(k, d)]) = c_lm L ++ [(k, c_sd d)].
Proof. unfold c_lm. apply map_app. Qed.
Lemma core_c L : map core (c_lm L) = map core L.
Proof. unfold c_lm. rewrite map_map. reflexivity. Qed.

Lemma add_label_sim L l addr ext : rc c_lm (add_label L l addr ext) (add_label (c_lm L) (canon_label l) addr ext).
Proof.
  unfold add_label. cbn [canon_label l_name l_start]. rewrite upper_idem, c_lm_assoc.
  destruct (assoc (upper (l_name l)) L) as [d|]; cbn [option_map c_sd sd_addr].
  - destruct (sd_addr d =? addr); reflexivity.
  - cbn [rc rr]. symmetry. apply c_lm_snoc.
Qed.
Lemma add_labels_sim ls L addr : rc c_lm (add_labels L ls addr) (add_labels (c_lm L) (map canon_label ls) addr).
Proof. rewrite !add_labels_afold. apply rc_afold. intros L1 l. apply add_label_sim. Qed.

Definition c_cu (c : cursor) : cursor := mkCur (c_lc c) (c_ovf c) (0, 0).
Definition c_p1 (st : p1) : p1 := mkP1 (option_map c_cu (p1_cur st)) (c_lm (p1_labels st)) (p1_rel st) None.

Lemma shift_sim c n :
  match shift c n, shift (c_cu c) n with
  | SOk a, SOk b => b = c_cu a
  | SErr k, SErr k' => k = k'
  | _, _ => False
  end.
Proof.
  unfold shift. cbn [c_cu c_lc c_ovf c_orig]. destruct (n =? 0); [reflexivity|]. destruct (c_ovf c); [reflexivity|].
  destruct (c_lc c + n <? 65536); [destruct (c_lc c + n >? asm.IO_START) | destruct (c_lc c =? wrap16 (- n))]; reflexivity.
Qed.

Lemma stmt_len_canon n : stmt_len (canon_nucleus n) = stmt_len n.
Proof. destruct n as [i|d]; [reflexivity|]. destruct d as [a|o|m|t| |l]; reflexivity. Qed.

Lemma p1_lab_sim st s : rc c_lm (p1_lab st s) (p1_lab (c_p1 st) (canon_stmt s)).
Proof.
  unfold p1_lab. cbn [canon_stmt s_labels c_p1 p1_cur p1_labels]. destruct (s_labels s) as [|l ls]; [reflexivity|]. cbn [map].
  destruct (p1_cur st) as [cu|]; cbn [option_map c_cu c_lc]; [apply (add_labels_sim (l :: ls)) | reflexivity].
Qed.

Definition c_dir (x : option cursor * labmap * list (Z * str)) : option cursor * labmap * list (Z * str) :=
  (option_map c_cu (fst (fst x)), c_lm (snd (fst x)), snd x).

Lemma p1_dir_sim st s L1 : rc c_dir (p1_dir st s L1) (p1_dir (c_p1 st) (canon_stmt s) (c_lm L1)).
Proof.
  unfold p1_dir. cbn [canon_stmt s_nucleus c_p1 p1_cur p1_rel stmt_span s_start s_end].
  destruct (s_nucleus s) as [i|[a|[v|l]|n|t| |l]]; cbn [canon_nucleus canon_instr canon_directive canon_pcoff]; try reflexivity.
  - destruct (p1_cur st); reflexivity.
  - cbv zeta. cbn [canon_label l_name]. rewrite upper_idem, c_lm_assoc. destruct (p1_cur st) as [cu|]; [reflexivity|].
    destruct (assoc (upper (l_name l)) L1) as [d|]; [cbn [option_map c_sd sd_external]; destruct (sd_external d)|]; reflexivity.
  - destruct (p1_cur st); reflexivity.
  - apply (rc_bind c_lm); [apply add_label_sim | reflexivity].
Qed.

(* without a source text the line phase hands the table on, whatever it is *)
Lemma p1_tail_sim st s c2 L2 r2 :
  rc c_p1 (p1_tail None st s c2 L2 r2) (p1_tail None (c_p1 st) (canon_stmt s) (option_map c_cu c2) (c_lm L2) r2).
Proof.
  unfold p1_tail, p1_line, p1_move. cbn [c_p1 p1_lines canon_stmt s_nucleus abind]. rewrite stmt_len_canon.
  destruct c2 as [cu|]; [|reflexivity]. cbn [option_map]. destruct (p1_lines st); cbn [abind].
  all: destruct (stmt_len (s_nucleus s)) as [n|]; [|exact Logic.I].
  all: pose proof (shift_sim cu n) as SS; destruct (shift cu n) as [cu1|k1]; destruct (shift (c_cu cu) n) as [cu2|k2]; try contradiction; [subst cu2; reflexivity | exact SS].
Qed.

Lemma p1_step_sim st s : rc c_p1 (p1_step None st s) (p1_step None (c_p1 st) (canon_stmt s)).
Proof.
  rewrite !p1_step_eq.
  apply (rc_bind c_lm); [apply p1_lab_sim|]. intros L1.
  apply (rc_bind c_dir); [apply p1_dir_sim|]. intros [[c2 L2] r2]. exact (p1_tail_sim st s c2 L2 r2).
Qed.

Lemma p1_loop_sim p st : rc c_p1 (p1_loop None st p) (p1_loop None (c_p1 st) (map canon_stmt p)).
Proof. rewrite !p1_loop_afold. apply rc_afold. exact p1_step_sim. Qed.

Definition c_sym (t : symtab) : symtab := mkSymtab (c_lm (st_labels t)) (st_rel t) None.

Lemma c_lm_is_external L k : is_external (c_lm L) k = is_external L k.
Proof. unfold is_external. rewrite c_lm_assoc. destruct (assoc k L); reflexivity. Qed.

Lemma pass1_sim p : rc c_sym (pass1 p None) (pass1 (map canon_stmt p) None).
Proof.
  unfold pass1. apply (rc_bind c_p1); [apply p1_loop_sim|].
  intros st. cbn [c_p1 p1_cur p1_labels p1_rel p1_lines]. destruct (p1_cur st); [reflexivity|]. cbn [option_map].
  destruct (p1_lines st); cbn [rc rr]; unfold c_sym; cbn [st_labels st_rel]; f_equal;
    unfold rel_of; f_equal; apply filter_ext; intros av; apply c_lm_is_external.
Qed.

Definition mapv {V W} (f : V -> W) (m : list (Z * V)) : list (Z * W) := map (fun kv => (fst kv, f (snd kv))) m.
Lemma bt_le_mapv {V W} (f : V -> W) k m : bt_le k (mapv f m) = option_map (fun kv => (fst kv, f (snd kv))) (bt_le k m).
Proof.
  induction m as [|[k0 v0] m IH]; cbn [mapv map bt_le fst snd]; [reflexivity|]. destruct (k0 <=? k); [|reflexivity].
  fold (mapv f m). rewrite IH. destruct (bt_le k m); reflexivity.
Qed.
Lemma bt_ge_mapv {V W} (f : V -> W) k m : bt_ge k (mapv f m) = option_map (fun kv => (fst kv, f (snd kv))) (bt_ge k m).
Proof. induction m as [|[k0 v0] m IH]; cbn [mapv map bt_ge fst snd]; [reflexivity|]. destruct (k <=? k0); [reflexivity | exact IH]. Qed.
Lemma bt_insert_mapv {V W} (f : V -> W) k v m : bt_insert k (f v) (mapv f m) = mapv f (bt_insert k v m).
Proof.
  induction m as [|[k0 v0] m IH]; cbn [mapv map bt_insert fst snd]; [reflexivity|].
  destruct (k <? k0); [reflexivity|]. destruct (k =? k0); [reflexivity|]. cbn [map fst snd]. fold (mapv f m). rewrite IH. reflexivity.
Qed.

Definition c_ob (b : oblock) : oblock := mkOB (ob_start b) (ob_words b) (0, 0).
Definition c_kb (kb : Z * oblock) : Z * oblock := (fst kb, c_ob (snd kb)).
Definition c_p2 (st : p2) : p2 := mkP2 (mapv c_ob (p2_map st)) (option_map c_kb (p2_cur st)).

Lemma c_ob_range b : ob_range (c_ob b) = ob_range b.
Proof. reflexivity. Qed.
Lemma find_overlap_sim blk c : rc (option_map c_ob) (find_overlap blk c) (find_overlap (c_ob blk) (mapv c_ob c)).
Proof.
  induction c as [|[k0 b0] c IH]; cbn [mapv map find_overlap fst snd]; [reflexivity|]. rewrite !c_ob_range.
  destruct (ob_range blk) as [rb|]; [|exact Logic.I]. destruct (ob_range b0) as [r0|]; [|exact Logic.I]. destruct (ranges_overlap rb r0); [reflexivity | exact IH].
Qed.

Lemma rpo_sim n o pc L : rr eq (replace_pc_offset n o pc L) (replace_pc_offset n (canon_pcoff o) pc (c_lm L)).
Proof.
  destruct o as [v|l]; cbn [canon_pcoff replace_pc_offset canon_label l_name]; [reflexivity|]. rewrite upper_idem, c_lm_assoc.
  destruct (assoc (upper (l_name l)) L) as [d|]; cbn [option_map c_sd sd_external sd_addr]; [|reflexivity].
  destruct (sd_external d); [reflexivity|]. destruct (new_s n (to_i16 (sd_addr d - pc))); reflexivity.
Qed.
Lemma into_sim_sim i pc L : rr eq (into_sim_instr i pc L) (into_sim_instr (canon_instr i) pc (c_lm L)).
Proof.
  destruct i; cbn [canon_instr into_sim_instr]; try reflexivity;
    (apply (rr_bind eq); [apply rpo_sim | intros v ? <-; reflexivity]).
Qed.
Lemma write_directive_sim ws d L : rr eq (write_directive ws d L) (write_directive ws (canon_directive d) (c_lm L)).
Proof.
  destruct d as [a|[v|l]|n|t| |l]; cbn [canon_directive canon_pcoff write_directive]; try reflexivity.
  unfold lookup_label_map. cbn [canon_label l_name]. rewrite upper_idem, c_lm_assoc.
  destruct (assoc (upper (l_name l)) L) as [d|]; reflexivity.
Qed.

Lemma word_len_canon d : word_len (canon_directive d) = word_len d.
Proof. destruct d as [a|o|n|t| |l]; reflexivity. Qed.

Lemma neighbours_mapv b m :
  opt_list (bt_le (ob_start b) (mapv c_ob m)) ++ opt_list (bt_ge (ob_start b) (mapv c_ob m))
  = mapv c_ob (opt_list (bt_le (ob_start b) m) ++ opt_list (bt_ge (ob_start b) m)).
Proof. rewrite bt_le_mapv, bt_ge_mapv. destruct (bt_le (ob_start b) m); destruct (bt_ge (ob_start b) m); reflexivity. Qed.

Lemma needs_addr_canon s : needs_addr (canon_stmt s) = needs_addr s.
Proof. unfold needs_addr. cbn [canon_stmt s_nucleus]. destruct (s_nucleus s) as [i|[a|o|n|t| |l]]; reflexivity. Qed.
Lemma emit_sim L s lc ws : rr eq (emit L s lc ws) (emit (c_lm L) (canon_stmt s) lc ws).
Proof.
  unfold emit. cbn [canon_stmt s_nucleus]. destruct (s_nucleus s) as [i|d]; cbn [canon_nucleus]; [|apply write_directive_sim].
  apply (rr_bind eq); [apply into_sim_sim | intros sim ? <-; reflexivity].
Qed.

Lemma p2_step_sim L st s : rc c_p2 (p2_step L st s) (p2_step (c_lm L) (c_p2 st) (canon_stmt s)).
Proof.
  destruct (needs_addr s) eqn:NA.
  - rewrite (p2_step_emit L st s NA), (p2_step_emit _ _ (canon_stmt s)) by (rewrite needs_addr_canon; exact NA).
    cbn [canon_stmt s_nucleus c_p2 p2_cur p2_map]. rewrite stmt_len_canon.
    destruct (p2_cur st) as [[lc b]|]; [|reflexivity]. cbn [option_map c_kb fst snd].
    destruct (stmt_len (s_nucleus s)) as [n|]; [|exact Logic.I].
    apply (rr_bind eq); [apply emit_sim|]. intros w ? <-. reflexivity.
  - unfold needs_addr in NA. unfold p2_step. cbn [canon_stmt s_nucleus stmt_span s_start s_end c_p2 p2_cur p2_map].
    destruct (s_nucleus s) as [i|[a|o|n|t| |l]]; try discriminate NA; cbn [canon_nucleus canon_directive].
    + destruct (p2_cur st); [exact Logic.I | reflexivity].
    + destruct (p2_cur st) as [[lc b]|]; [|reflexivity]. cbn [option_map c_kb fst snd].
      change (ob_words (c_ob b)) with (ob_words b). change (ob_start (c_ob b)) with (ob_start b). change (ob_span (c_ob b)) with (0, 0).
      destruct (ob_words b) eqn:EW; [reflexivity|]. rewrite neighbours_mapv.
      apply (rc_bind (option_map c_ob)); [apply find_overlap_sim|]. intros [o1|]; cbn [option_map rc rr]; [reflexivity|].
      unfold c_p2. cbn [p2_map p2_cur option_map]. rewrite <- bt_insert_mapv. reflexivity.
    + reflexivity.
Qed.

Lemma p2_loop_sim L p st : rc c_p2 (p2_loop L st p) (p2_loop (c_lm L) (c_p2 st) (map canon_stmt p)).
Proof. rewrite !p2_loop_afold. apply rc_afold. exact (p2_step_sim L). Qed.

Definition obj_sim (o o' : objfile) : Prop :=
  o_blocks o = o_blocks o' /\
  match o_sym o, o_sym o' with
  | Some t, Some t' => map core (st_labels t) = map core (st_labels t') /\ st_rel t = st_rel t'
  | None, None => True
  | _, _ => False
  end.

Definition c_obj (o : objfile) : objfile := mkObj (o_blocks o) (option_map c_sym (o_sym o)).

Lemma mapv_blocks m :
  map (fun kb : Z * oblock => (fst kb, ob_words (snd kb))) (mapv c_ob m) = map (fun kb : Z * oblock => (fst kb, ob_words (snd kb))) m.
Proof. unfold mapv. rewrite map_map. reflexivity. Qed.

Lemma c_lm_existsb_ext L :
  existsb (fun kv : str * symdata => sd_external (snd kv)) (c_lm L) = existsb (fun kv : str * symdata => sd_external (snd kv)) L.
Proof. induction L as [|[k d] L IH]; [reflexivity|]. cbn [c_lm map existsb snd c_sd sd_external]. fold (c_lm L). rewrite IH. reflexivity. Qed.

Theorem assemble_erased p : rc c_obj (assemble false None p) (assemble false None (map canon_stmt p)).
Proof.
  unfold assemble. apply (rc_bind c_sym); [apply pass1_sim|]. intros t. unfold pass2. cbn [c_sym st_labels].
  apply (rc_bind c_p2); [exact (p2_loop_sim (st_labels t) p (mkP2 [] None))|].
  intros st. cbn [rc rr orb]. unfold c_obj. cbn [o_blocks o_sym c_p2 p2_map]. rewrite mapv_blocks, c_lm_existsb_ext.
  destruct (existsb _ (st_labels t)); reflexivity.
Qed.

Lemma obj_sim_erased o : obj_sim o (c_obj o).
Proof.
  split; [reflexivity|]. cbn [c_obj o_sym]. destruct (o_sym o) as [t|]; [|exact Logic.I].
  cbn [option_map c_sym st_labels st_rel]. rewrite core_c. split; reflexivity.
Qed.

Theorem assemble_canon p : rr obj_sim (assemble false None p) (assemble false None (map canon_stmt p)).
Proof.
  pose proof (assemble_erased p) as H. unfold rc in H.
  destruct (assemble false None p) as [o|k sp|]; destruct (assemble false None (map canon_stmt p)) as [o'|k' sp'|]; try exact H.
  cbn [rr] in *. subst o'. apply obj_sim_erased.
Qed.

Theorem assemble_same_canon l1 l2 : map canon_stmt l1 = map canon_stmt l2 ->
  rr obj_sim (assemble false None l1) (assemble false None l2).
Proof.
  intros E. pose proof (assemble_canon l1) as S1. pose proof (assemble_canon l2) as S2. rewrite E in S1.
  destruct (assemble false None l1) as [o1|k1 sp1|]; destruct (assemble false None (map canon_stmt l2)) as [oc|kc spc|];
    destruct (assemble false None l2) as [o2|k2 sp2|]; cbn [rr] in *; try contradiction; try congruence; try exact Logic.I.
  destruct S1 as [B1 Y1]. destruct S2 as [B2 Y2]. split; [congruence|].
  destruct (o_sym o1) as [t1|]; destruct (o_sym oc) as [tc|]; destruct (o_sym o2) as [t2|]; try contradiction; try exact Logic.I.
  destruct Y1 as [Y1 Z1]. destruct Y2 as [Y2 Z2]. split; congruence.
Qed.

Theorem assemble_same_shape l1 l2 : map shape_stmt l1 = map shape_stmt l2 ->
  rr obj_sim (assemble false None l1) (assemble false None l2).
Proof. intros E. apply assemble_same_canon. apply canon_of_shape. exact E. Qed.

Lemma typed_stmt_canon s : typed_stmt (canon_stmt s) = typed_stmt s.
Proof. unfold typed_stmt, canon_stmt. cbn [s_nucleus]. destruct (s_nucleus s) as [i|[a|o|n|t| |l]]; reflexivity. Qed.
Lemma typed_canon p : typed (map canon_stmt p) = typed p.
Proof. unfold typed. induction p as [|s p IH]; [reflexivity|]. cbn [map forallb]. rewrite typed_stmt_canon, IH. reflexivity. Qed.
Lemma typed_same_canon l1 l2 : map canon_stmt l1 = map canon_stmt l2 -> typed l1 = typed l2.
Proof. intros E. rewrite <- (typed_canon l1), <- (typed_canon l2), E. reflexivity. Qed.

Theorem pass1_same_canon l1 l2 t1 t2 : map canon_stmt l1 = map canon_stmt l2 ->
  pass1 l1 None = AOk t1 -> pass1 l2 None = AOk t2 ->
  map core (st_labels t1) = map core (st_labels t2) /\ st_rel t1 = st_rel t2.
Proof.
  intros E E1 E2. pose proof (pass1_sim l1) as S1. pose proof (pass1_sim l2) as S2. rewrite E in S1. rewrite E1 in S1. rewrite E2 in S2.
  destruct (pass1 (map canon_stmt l2) None) as [tc|k sp|]; cbn [rc rr] in *; try contradiction.
  rewrite <- (core_c (st_labels t1)), <- (core_c (st_labels t2)).
  change (map core (st_labels (c_sym t1)) = map core (st_labels (c_sym t2)) /\ st_rel (c_sym t1) = st_rel (c_sym t2)).
  rewrite <- S1, <- S2. split; reflexivity.
Qed.
