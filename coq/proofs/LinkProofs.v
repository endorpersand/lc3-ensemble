(* LinkProofs.v — the linker model (model/Link.v) refines the order-free specification
   (spec/LinkSpec.v) on objects satisfying the object invariant: what the invariant says; `link`
   by its outcome (link_spec) and every order and bracketing of a set of files on top of it; the
   load check and `addr_iter`. *)
From Coq Require Import ZArith List Bool Lia Permutation Morphisms Setoid.
From Model Require Import Tree Bits Text SourceInfo Obj Link.
From Spec Require Import LinkSpec.
From Proofs Require Import ListFacts TextFacts SourceInfoProofs LinkBlocks LinkSyms LinkDebug LinkSpecProofs.
Import ListNotations.
Open Scope Z_scope.

(* Part 1, the invariant: the boolean the harness evaluates on every assembled and linked object *)
Definition ObjInv (o : objfile) : Prop := obj_inv_b o = true.

Definition ExtSitesRecorded (o : objfile) (sites : list (Z * str)) : Prop := ext_sites_recorded_b o sites = true.

Definition nlines (o : objfile) : Z :=
  match o_sym o with
  | Some st => match st_debug st with Some d => count_lines (ds_src d) | None => 0 end
  | None => 0
  end.
(* the line numbers of the combined source fit in a usize (Rust strings are shorter than 2^63 bytes) *)
Definition LinesFit (a b : objfile) : Prop := nlines a + nlines b <= usize_max.

Definition fsym (d : symdata) : Z * bool := (sd_addr d, sd_external d).

Lemma img_at_blocks o addr : img_at o addr = img_blocks (o_blocks o) addr.
Proof.
  unfold img_at. induction (o_blocks o) as [|(s, ws) r IH]; cbn; [reflexivity|].
  change (Z.of_nat (Datatypes.length ws)) with (zlen ws).
  destruct ((s <=? addr) && (addr <? s + zlen ws)); [reflexivity|exact IH].
Qed.
Lemma lbl_at_lookup o n :
  lbl_at o n = match o_sym o with Some st => option_map fsym (lookup n (st_labels st)) | None => None end.
Proof.
  unfold lbl_at. destruct (o_sym o) as [st|]; [|reflexivity].
  induction (st_labels st) as [|(k, d) r IH]; cbn; [reflexivity|]. rewrite (str_eqb_sym k n).
  destruct (str_eqb n k); [reflexivity|exact IH].
Qed.
Lemma pend_at_find o a :
  pend_at o a = match o_sym o with Some st => rel_find a (st_rel st) | None => None end.
Proof.
  unfold pend_at. destruct (o_sym o) as [st|]; [|reflexivity].
  induction (st_rel st) as [|(k, n) r IH]; cbn; [reflexivity|]. destruct (k =? a); [reflexivity|exact IH].
Qed.

(* the view of blocks with a symbol table not yet inside an object (for link_sym_spec) *)
Definition sview (bs : blocks) (st : symtab) : view :=
  mkView (img_blocks bs) (fun n => option_map fsym (lookup n (st_labels st))) (fun a => rel_find a (st_rel st)).
Lemma view_of_sym o st : o_sym o = Some st -> veq (view_of o) (sview (o_blocks o) st).
Proof.
  intro E. split; [|split]; intro x; cbn.
  - apply img_at_blocks.
  - rewrite lbl_at_lookup, E. reflexivity.
  - rewrite pend_at_find, E. reflexivity.
Qed.

Lemma objinv_blocks o : ObjInv o -> blocks_ok 0 (o_blocks o) = true.
Proof. unfold ObjInv, obj_inv_b. intro H. apply andb_true_iff in H. tauto. Qed.

Record SymInv (bs : blocks) (st : symtab) : Prop := {
  si_labels : NoDup (map fst (st_labels st));
  si_rel : NoDup (map fst (st_rel st));
  si_rel_ext : forall a n, In (a, n) (st_rel st) -> is_external (st_labels st) n = true /\ covered bs a = true;
  si_ext0 : forall n d, In (n, d) (st_labels st) -> sd_external d = true -> sd_addr d = 0;
  si_lines : match st_debug st with
             | Some d => lines_ok 0 (count_lines (ds_src d)) bs (ds_lines d) = true
             | None => True
             end
}.
Lemma symtab_ok_iff bs st : symtab_ok bs st = true <-> SymInv bs st.
Proof.
  unfold symtab_ok. rewrite !andb_true_iff, nodup_str_iff, nodup_z_iff, !forallb_forall. split.
  - intros ((((H1 & H2) & H3) & H4) & H5). constructor; auto.
    + intros a n Hin. specialize (H3 _ Hin). cbn in H3. apply andb_true_iff in H3. exact H3.
    + intros n d Hin Hx. specialize (H4 _ Hin). cbn in H4. rewrite Hx in H4. cbn in H4. apply Z.eqb_eq in H4. exact H4.
    + destruct (st_debug st); [exact H5|trivial].
  - intros [H1 H2 H3 H4 H5]. repeat split; auto.
    + intros (a, n) Hin. cbn. apply andb_true_iff. apply H3. exact Hin.
    + intros (n, d) Hin. cbn. destruct (sd_external d) eqn:E; [|reflexivity]. cbn. apply Z.eqb_eq. eauto.
    + destruct (st_debug st); [exact H5|reflexivity].
Qed.
Lemma objinv_sym o st : ObjInv o -> o_sym o = Some st -> SymInv (o_blocks o) st.
Proof.
  unfold ObjInv, obj_inv_b. intros H E. rewrite E in H. apply andb_true_iff in H. apply symtab_ok_iff. tauto.
Qed.
Lemma objinv_intro bs sym : blocks_ok 0 bs = true ->
  (forall st, sym = Some st -> SymInv bs st) -> ObjInv (mkObj bs sym).
Proof.
  intros H1 H2. unfold ObjInv, obj_inv_b. cbn. rewrite H1. cbn. destruct sym as [st|]; [|reflexivity].
  apply symtab_ok_iff. auto.
Qed.
Lemma syminv_mono bs bs' st : (forall x, covered bs x = true -> covered bs' x = true) -> SymInv bs st -> SymInv bs' st.
Proof.
  intros Hc [S1 S2 S3 S4 S5]. constructor; auto.
  - intros a n Hin. destruct (S3 _ _ Hin). auto.
  - destruct (st_debug st); [|trivial]. exact (lines_ok_mono _ _ _ _ _ Hc S5).
Qed.

Lemma is_external_lookup labels n : is_external labels n = true <-> exists d, lookup n labels = Some d /\ sd_external d = true.
Proof.
  unfold is_external. destruct (lookup n labels) as [d|].
  - split; [eauto|]. intros (d' & E & X). inversion E; subst. exact X.
  - split; [discriminate|]. intros (d' & E & _). discriminate.
Qed.

Lemma objinv_viewinv o : ObjInv o -> ViewInv (view_of o).
Proof.
  intro H. unfold ViewInv. cbn [v_img v_lbl v_pend view_of]. destruct (o_sym o) as [st|] eqn:E.
  2:{ repeat split; intros *; rewrite ?lbl_at_lookup, ?pend_at_find, E; discriminate. }
  destruct (objinv_sym _ _ H E) as [_ _ S3 S4 _]. repeat split.
  - intros n x. rewrite lbl_at_lookup, E. destruct (lookup n (st_labels st)) as [d|] eqn:El; [|discriminate].
    intros [= <- Xd]. exact (S4 n d (lookup_in _ _ _ El) Xd).
  - intros addr n. rewrite pend_at_find, lbl_at_lookup, E. intro K. apply rel_find_in in K.
    destruct (S3 _ _ K) as (X & _). apply is_external_lookup in X. destruct X as (d & -> & Xd).
    exists (sd_addr d). unfold fsym. cbn. rewrite Xd. reflexivity.
  - intros addr n. rewrite pend_at_find, img_at_blocks, E. intro K. apply rel_find_in in K.
    destruct (S3 _ _ K) as (_ & C). unfold covered in C. destruct (img_blocks (o_blocks o) addr); discriminate.
Qed.
Lemma objinv_views l : Forall ObjInv l -> Forall ViewInv (map view_of l).
Proof. intro H. apply Forall_map. eapply Forall_impl; [|exact H]. exact objinv_viewinv. Qed.

(* Part 2: `link` against the specification, one link, then trees of them *)
Definition shifted (sh : Z) (bl : list (str * symdata)) := map (fun p => (fst p, shift_sym sh (snd p))) bl.
Lemma lookup_shift sh bl n : lookup n (shifted sh bl) = option_map (shift_sym sh) (lookup n bl).
Proof. induction bl as [|(k, d) r IH]; cbn; [reflexivity|]. destruct (str_eqb n k); [reflexivity|exact IH]. Qed.
Lemma keys_shift sh bl : map fst (shifted sh bl) = map fst bl.
Proof. unfold shifted. rewrite map_map. reflexivity. Qed.
Lemma in_shifted sh bl n d : In (n, d) (shifted sh bl) -> exists bd, In (n, bd) bl /\ d = shift_sym sh bd.
Proof. intro H. apply in_map_iff in H. destruct H as ((k, bd) & [= <- <-] & Hin). eauto. Qed.
Lemma fsym_shift sh d : fsym (shift_sym sh d) = fsym d.
Proof. reflexivity. Qed.
Lemma is_external_shift sh bl n : is_external (shifted sh bl) n = is_external bl n.
Proof. unfold is_external. rewrite lookup_shift. destruct (lookup n bl); reflexivity. Qed.
Lemma lblagree_shift sh la lb : LblAgree la (shifted sh lb) <-> LblAgree la lb.
Proof.
  split; intros H n ad bd Ha Hb.
  - apply (H n ad (shift_sym sh bd) Ha). rewrite lookup_shift, Hb. reflexivity.
  - rewrite lookup_shift in Hb. destruct (lookup n lb) as [bd0|] eqn:E0; [|discriminate].
    injection Hb as <-. exact (H n ad bd0 Ha E0).
Qed.

Lemma lbl_linkable_iff a b sa sb : o_sym a = Some sa -> o_sym b = Some sb ->
  ((forall n x y, lbl_at a n = Some (x, false) -> lbl_at b n = Some (y, false) -> x = y) <->
   LblAgree (st_labels sa) (st_labels sb)).
Proof.
  intros Ea Eb. split; intros H n.
  - intros ad bd Ha Hb Xa Xb.
    apply (H n); rewrite lbl_at_lookup, ?Ea, ?Eb, ?Ha, ?Hb; unfold fsym; cbn; rewrite ?Xa, ?Xb; reflexivity.
  - intros x y. rewrite !lbl_at_lookup, Ea, Eb.
    destruct (lookup n (st_labels sa)) as [ad|] eqn:La; [|discriminate].
    destruct (lookup n (st_labels sb)) as [bd|] eqn:Lb; [|discriminate].
    unfold fsym. cbn. intros Ka Kb. injection Ka as <- Xa. injection Kb as <- Xb. exact (H n ad bd La Lb Xa Xb).
Qed.

Lemma mrule_lmerge x y : option_map fsym (mrule x y) = lmerge (option_map fsym x) (option_map fsym y).
Proof.
  destruct x as [[aa sa [|]]|], y as [[ab sb [|]]|]; reflexivity.
Qed.
(* for a name external on one side: resolved in the model = defined in the merged label map *)
Lemma is_defined_resolved la bl n : is_external la n = true \/ is_external bl n = true ->
  is_defined (lmerge (option_map fsym (lookup n la)) (option_map fsym (lookup n bl))) =
  if resolvedb la bl n then Some (target la bl n) else None.
Proof.
  unfold is_external, resolvedb, target, entry_res, entry_target, fsym.
  destruct (lookup n la) as [[aa sa [|]]|], (lookup n bl) as [[ab sb [|]]|]; cbn; intros [H|H]; try discriminate; reflexivity.
Qed.
Lemma unresolved_external la bl n : is_external la n = true \/ is_external bl n = true ->
  resolvedb la bl n = false ->
  match mrule (lookup n la) (lookup n bl) with Some d => sd_external d | None => false end = true.
Proof.
  unfold is_external, resolvedb, entry_res.
  destruct (lookup n la) as [[aa sa [|]]|], (lookup n bl) as [[ab sb [|]]|]; cbn; intros [H|H] R; try discriminate; reflexivity.
Qed.

Definition src_shift (sa sb : symtab) : Z :=
  match st_debug sa, st_debug sb with Some da, Some _ => byte_len (ds_src da) + 1 | _, _ => 0 end.
Definition link_dbg (sa sb : symtab) : option (option debug_symbols) :=
  match st_debug sa, st_debug sb with
  | Some da, Some db => match debug_link da db with Some d => Some (Some d) | None => None end
  | Some da, None => Some (Some da)
  | None, x => Some x
  end.
Definition link_merge (sa sb : symtab) : mres :=
  merge_labels (shifted (src_shift sa sb) (st_labels sb)) (st_labels sa) (rel_extend (st_rel sa) (st_rel sb)) [].

Lemma link_sym_eq bs sa sb : link_sym bs sa sb =
  match link_dbg sa sb with
  | None => LPanic
  | Some dbg =>
      match link_merge sa sb with
      | MPanic => LPanic
      | MErr sp => LErr OverlappingLabels sp
      | MOk labels rel' relocs =>
          match apply_relocs bs relocs with
          | None => LPanic
          | Some bs' => LOk (mkObj bs' (Some (mkSymtab labels rel' dbg)))
          end
      end
  end.
Proof. reflexivity. Qed.

Definition dbg_lines (d : option debug_symbols) : Z := match d with Some d => count_lines (ds_src d) | None => 0 end.
Lemma nlines_sym o st : o_sym o = Some st -> nlines o = dbg_lines (st_debug st).
Proof. unfold nlines. intros ->. reflexivity. Qed.
Lemma nlines_nonneg o : 0 <= nlines o.
Proof.
  unfold nlines. destruct (o_sym o) as [st|]; [|lia]. destruct (st_debug st) as [d|]; [|lia].
  pose proof (count_lines_pos (ds_src d)). lia.
Qed.

Lemma link_dbg_spec bs sa sb : SymInv bs sa -> SymInv bs sb ->
  match link_dbg sa sb with
  | Some dbg =>
      match dbg with Some d => lines_ok 0 (count_lines (ds_src d)) bs (ds_lines d) = true | None => True end /\
      dbg_lines dbg <= dbg_lines (st_debug sa) + dbg_lines (st_debug sb)
  | None => usize_max < dbg_lines (st_debug sa) + dbg_lines (st_debug sb)
  end.
Proof.
  intros [_ _ _ _ A5] [_ _ _ _ B5]. unfold link_dbg.
  destruct (st_debug sa) as [da|], (st_debug sb) as [db|]; cbn [dbg_lines] in *.
  - pose proof (debug_link_spec da db _ _ A5 B5) as DS. destruct (debug_link da db) as [d|]; [subst d|exact DS].
    cbn [ds_src ds_lines dbg_lines]. split; [exact (joined_lines_ok _ _ _ _ _ A5 B5)|rewrite count_lines_join; lia].
  - split; [exact A5|lia].
  - split; [exact B5|pose proof (count_lines_pos (ds_src db)); lia].
  - split; [exact Logic.I|lia].
Qed.

Lemma link_rel_ok a_bs b_bs bs sa sb :
  (forall x, covered a_bs x = true -> covered bs x = true) ->
  (forall x, covered b_bs x = true -> covered bs x = true) ->
  ImgDisjoint a_bs b_bs -> SymInv a_bs sa -> SymInv b_bs sb ->
  NoDup (map fst (rel_extend (st_rel sa) (st_rel sb))) /\
  (forall addr, rel_find addr (rel_extend (st_rel sa) (st_rel sb)) =
                first_of (rel_find addr (st_rel sa)) (rel_find addr (st_rel sb))) /\
  (forall a n, In (a, n) (rel_extend (st_rel sa) (st_rel sb)) -> covered bs a = true /\
     (is_external (st_labels sa) n = true \/ is_external (st_labels sb) n = true)).
Proof.
  intros Ca Cb Hd [_ A2 A3 _ _] [_ B2 B3 _ _].
  assert (Nrel : NoDup (map fst (rel_extend (st_rel sa) (st_rel sb)))) by (apply rel_extend_keys; exact A2).
  assert (Frel : forall addr, rel_find addr (rel_extend (st_rel sa) (st_rel sb)) =
                   first_of (rel_find addr (st_rel sa)) (rel_find addr (st_rel sb))).
  { intro addr. rewrite (rel_extend_find _ _ _ B2). unfold first_of.
    destruct (rel_find addr (st_rel sb)) as [n|] eqn:Eb, (rel_find addr (st_rel sa)) as [m|] eqn:Ea; try reflexivity.
    exfalso. apply rel_find_in in Ea, Eb. destruct (A3 _ _ Ea) as (_ & Ka). destruct (B3 _ _ Eb) as (_ & Kb).
    unfold covered in Ka, Kb. destruct (Hd addr) as [K|K]; rewrite K in *; discriminate. }
  split; [exact Nrel|]. split; [exact Frel|].
  intros a n Hin. apply (in_rel_find _ _ _ Nrel) in Hin. rewrite Frel in Hin. unfold first_of in Hin.
  destruct (rel_find a (st_rel sa)) as [m|] eqn:Ea.
  - injection Hin as ->. apply rel_find_in in Ea. destruct (A3 _ _ Ea). auto.
  - apply rel_find_in in Hin. destruct (B3 _ _ Hin). auto.
Qed.

Definition span_fits (p : str * symdata) : Prop := sd_src_start (snd p) + byte_len (fst p) <= usize_max.
Definition SpansFit (a b : objfile) : Prop :=
  match o_sym a, o_sym b with
  | Some sa, Some sb =>
      Forall span_fits (st_labels sa) /\
      Forall span_fits (shifted (match st_debug sa, st_debug sb with Some da, Some _ => byte_len (ds_src da) + 1 | _, _ => 0 end) (st_labels sb))
  | _, _ => True
  end.

Lemma span_fits_some p : span_fits p -> span_some p.
Proof. unfold span_fits, span_some, sym_span. intro F. rewrite (proj2 (Z.ltb_ge _ _) F). discriminate. Qed.

Lemma linkable_iff a b : Linkable (view_of a) (view_of b) <->
  ImgDisjoint (o_blocks a) (o_blocks b) /\
  match o_sym a, o_sym b with
  | Some sa, Some sb => LblAgree (st_labels sa) (st_labels sb)
  | _, _ => True
  end.
Proof.
  unfold Linkable, ImgDisjoint. cbn [view_of v_img v_lbl].
  assert (Im : (forall addr, img_at a addr = None \/ img_at b addr = None) <->
               (forall x, img_blocks (o_blocks a) x = None \/ img_blocks (o_blocks b) x = None))
    by (split; intros H x; specialize (H x); rewrite !img_at_blocks in *; exact H).
  rewrite Im. apply and_iff_compat_l.
  destruct (o_sym a) as [sa|] eqn:Ea; [|split; [trivial|intros _ n x y; rewrite lbl_at_lookup, Ea; discriminate]].
  destruct (o_sym b) as [sb|] eqn:Eb; [|split; [trivial|intros _ n x y _; rewrite lbl_at_lookup, Eb; discriminate]].
  exact (lbl_linkable_iff a b sa sb Ea Eb).
Qed.

(* the last field is what the views do not show: the debug symbols and where each label comes from *)
Record linked (a b r : objfile) : Prop := {
  lk_linkable : Linkable (view_of a) (view_of b);
  lk_view : veq (view_of r) (vlink (view_of a) (view_of b));
  lk_inv : ObjInv r;
  lk_lines : nlines r <= nlines a + nlines b;
  lk_origin : forall sa sb, o_sym a = Some sa -> o_sym b = Some sb ->
                exists sr, o_sym r = Some sr /\ link_dbg sa sb = Some (st_debug sr) /\
                  forall e, In e (st_labels sr) -> In e (st_labels sa) \/ In e (shifted (src_shift sa sb) (st_labels sb))
}.
Arguments lk_linkable {a b r}. Arguments lk_view {a b r}. Arguments lk_inv {a b r}.
Arguments lk_lines {a b r}. Arguments lk_origin {a b r}.

(* The symbol-table half of `link` by its outcome, on the merged blocks bs.  Disjointness serves the
   relocation maps alone (link_rel_ok). *)
Lemma link_sym_spec oa ob bs sa sb : ObjInv oa -> ObjInv ob -> o_sym oa = Some sa -> o_sym ob = Some sb ->
  blocks_ok 0 bs = true ->
  (forall x, img_blocks bs x = first_of (img_blocks (o_blocks oa) x) (img_blocks (o_blocks ob) x)) ->
  ImgDisjoint (o_blocks oa) (o_blocks ob) ->
  match link_sym bs sa sb with
  | LOk r => linked oa ob r
  | LErr _ _ => ~ Linkable (view_of oa) (view_of ob)
  | LPanic => LinesFit oa ob -> ~ Linkable (view_of oa) (view_of ob) /\ ~ SpansFit oa ob
  end.
Proof.
  intros Ia Ib Ea Eb Hs Img Hd. pose proof (objinv_sym _ _ Ia Ea) as Sa. pose proof (objinv_sym _ _ Ib Eb) as Sb.
  pose proof (linkable_iff oa ob) as LK. rewrite Ea, Eb in LK.
  unfold LinesFit, SpansFit. rewrite (nlines_sym oa sa Ea), (nlines_sym ob sb Eb), Ea, Eb.
  set (a_bs := o_blocks oa) in *. set (b_bs := o_blocks ob) in *.
  destruct (merged_covered _ _ _ Img) as (Ca & Cb).
  set (LL := fun n => lmerge (option_map fsym (lookup n (st_labels sa))) (option_map fsym (lookup n (st_labels sb)))).
  set (PU := fun addr => first_of (rel_find addr (st_rel sa)) (rel_find addr (st_rel sb))).
  destruct (link_rel_ok _ _ _ _ _ Ca Cb Hd Sa Sb) as (Nrel & Frel & Hrel).
  pose proof Sa as [A1 _ _ A4 _]. pose proof Sb as [B1 _ _ B4 _].
  rewrite link_sym_eq. pose proof (link_dbg_spec bs _ _ (syminv_mono _ _ _ Ca Sa) (syminv_mono _ _ _ Cb Sb)) as DS.
  destruct (link_dbg sa sb) as [dbg|] eqn:Edbg; [destruct DS as (Hlines & Hnl)|intro Hfit; lia].
  unfold link_merge.
  set (rel := rel_extend (st_rel sa) (st_rel sb)) in *. set (bl' := shifted (src_shift sa sb) (st_labels sb)).
  assert (Nb' : NoDup (map fst bl')) by (unfold bl'; rewrite keys_shift; exact B1).
  pose proof (merge_post bl' Nb' (st_labels sa) rel []) as MP.
  destruct (merge_labels bl' (st_labels sa) rel []) as [L0 R0 Q0|sp|].
  2:{ unfold bl' in MP. rewrite lblagree_shift in MP. tauto. }
  2:{ intros _. unfold bl' in MP at 1. rewrite lblagree_shift in MP. destruct MP as (NA & NF). split; [tauto|].
      intros (Fa & Fb). apply NF. split; eapply Forall_impl; try exact span_fits_some; assumption. }
  destruct MP as [Hl Look Nod Orig Rel (Q' & Qeq & Sites)]. apply lblagree_shift in Hl. cbn [app] in Qeq. subst Q0.
  assert (LLeq : forall n, LL n = lmerge (option_map fsym (lookup n (st_labels sa))) (option_map fsym (lookup n bl'))).
  { intro n. unfold LL, bl'. rewrite lookup_shift. destruct (lookup n (st_labels sb)); reflexivity. }
  assert (Ext : forall a n, In (a, n) rel -> is_external (st_labels sa) n = true \/ is_external bl' n = true).
  { intros a n Hin. unfold bl'. rewrite is_external_shift. apply (Hrel _ _ Hin). }
  assert (Req : forall a n, In (a, n) rel ->
            is_defined (LL n) = if resolvedb (st_labels sa) bl' n then Some (target (st_labels sa) bl' n) else None).
  { intros a n Hin. rewrite LLeq. apply is_defined_resolved. eapply Ext; eauto. }
  destruct (apply_relocs_spec 0 bs Q' Hs) as (bs' & P1 & P2 & P3 & P4 & P5).
  { intros a t Hin. apply Sites in Hin. destruct Hin as (n & Hin & _). apply (Hrel _ _ Hin). }
  rewrite P1. cbn [st_labels st_rel st_debug].
  assert (Fpend : forall addr, rel_find addr R0 = res_pend (PU addr) LL).
  { intro addr. rewrite Rel, (rel_find_filter _ _ _ Nrel), Frel. unfold res_pend. fold (PU addr).
    destruct (PU addr) as [n|] eqn:Ep; [|reflexivity]. cbn [snd].
    assert (Hin : In (addr, n) rel) by (apply rel_find_in; rewrite Frel; exact Ep).
    rewrite (Req _ _ Hin). destruct (resolvedb (st_labels sa) bl' n); reflexivity. }
  constructor.
  - apply LK. split; [exact Hd|exact Hl].
  - rewrite (view_of_sym (mkObj bs' (Some (mkSymtab L0 R0 dbg))) _ eq_refl), (view_of_sym oa sa Ea), (view_of_sym ob sb Eb).
    fold a_bs b_bs. split; [|split]; intro x; cbn [o_blocks st_labels st_rel st_debug].
    + (* a site in rel is patched iff its label got resolved, and then with the label's address *)
      rewrite vlink_img_eq. cbn [v_img v_lbl v_pend sview]. rewrite <- Img, <- Frel. fold LL. unfold res_img.
      rename x into addr.
      assert (Site : forall n t, In (addr, n) rel -> In (addr, t) Q' ->
                resolvedb (st_labels sa) bl' n = true /\ t = target (st_labels sa) bl' n).
      { intros n t Hin Ht. apply Sites in Ht. destruct Ht as (n' & Hin' & Hr' & Et).
        assert (n' = n) by (apply (in_rel_find _ _ _ Nrel) in Hin, Hin'; congruence). subst n'. auto. }
      destruct (rel_find addr rel) as [n|] eqn:Ep.
      * apply rel_find_in in Ep. destruct (Hrel _ _ Ep) as (Hc & _). unfold covered in Hc.
        destruct (img_blocks bs addr) as [w|] eqn:Ew; [|discriminate].
        rewrite (Req _ _ Ep). destruct (resolvedb (st_labels sa) bl' n) eqn:Er.
        -- apply P5; [apply Sites; exists n; auto|]. intros t' Ht'. apply (Site n t' Ep Ht').
        -- rewrite P4; [exact Ew|]. intros t Ht. destruct (Site n t Ep Ht). congruence.
      * rewrite P4; [destruct (img_blocks bs addr); reflexivity|].
        intros t Ht. apply Sites in Ht. destruct Ht as (n' & Hin' & _). apply (in_rel_find _ _ _ Nrel) in Hin'. congruence.
    + cbn. rewrite Look, mrule_lmerge. symmetry. apply LLeq.
    + rewrite vlink_pend_eq. apply Fpend.
  - apply objinv_intro; [exact P2|]. intros st [= <-]. constructor; cbn [st_labels st_rel st_debug].
    + apply Nod. exact A1.
    + rewrite Rel. apply filter_keys_nodup. exact Nrel.
    + intros a n Hin. rewrite Rel in Hin. apply filter_In in Hin. destruct Hin as (Hin & Hr). cbn in Hr.
      apply negb_true_iff in Hr. split; [|rewrite P3; apply (Hrel _ _ Hin)].
      unfold is_external. rewrite Look. apply unresolved_external; [eapply Ext; eauto|exact Hr].
    + intros n d Hin Hx. destruct (Orig _ Hin) as [K|K]; [exact (A4 n d K Hx)|].
      apply in_shifted in K. destruct K as (bd & K & ->). exact (B4 n bd K Hx).
    + destruct dbg as [d|]; [|exact Logic.I].
      eapply lines_ok_mono; [intros x Hx; rewrite P3; exact Hx|exact Hlines].
  - rewrite (nlines_sym oa sa Ea), (nlines_sym ob sb Eb). exact Hnl.
  - intros sa0 sb0 E1 E2. rewrite Ea in E1. rewrite Eb in E2. injection E1 as <-. injection E2 as <-.
    eexists. split; [reflexivity|]. split; [exact Edbg|exact Orig].
Qed.

Lemma nosym_view d : o_sym d = None -> (forall n, lbl_at d n = None) /\ (forall x, pend_at d x = None).
Proof. intro Ed. split; intro x; rewrite ?lbl_at_lookup, ?pend_at_find, Ed; reflexivity. Qed.

Lemma link_one_table c bs : ObjInv c -> blocks_ok 0 bs = true ->
  (forall x, covered (o_blocks c) x = true -> covered bs x = true) ->
  ObjInv (mkObj bs (o_sym c)) /\ nlines (mkObj bs (o_sym c)) = nlines c /\
  (forall n, lbl_at (mkObj bs (o_sym c)) n = lbl_at c n) /\ (forall x, pend_at (mkObj bs (o_sym c)) x = pend_at c x).
Proof.
  intros Ic Hs Cc. split; [|split; [reflexivity|]].
  - apply objinv_intro; [exact Hs|]. intros st K. eapply syminv_mono; [exact Cc|]. apply objinv_sym; assumption.
  - split; intro x; rewrite ?lbl_at_lookup, ?pend_at_find; reflexivity.
Qed.

Theorem link_spec a b : ObjInv a -> ObjInv b ->
  match link a b with
  | LOk r => linked a b r
  | LErr _ _ => ~ Linkable (view_of a) (view_of b)
  | LPanic => LinesFit a b -> ~ Linkable (view_of a) (view_of b) /\ ~ SpansFit a b
  end.
Proof.
  intros Ia Ib. pose proof (objinv_blocks _ Ia) as Ha. pose proof (objinv_blocks _ Ib) as Hb.
  pose proof (blocks_phase _ _ Ha Hb) as BP. pose proof (linkable_iff a b) as LK.
  unfold link. destruct (insert_blocks (o_blocks b) (o_blocks a)) as [bs|]; [|tauto].
  destruct (adj_check bs); [|tauto|destruct BP].
  destruct BP as (Hd & Hs & Img). destruct (merged_covered _ _ _ Img) as (Ca & Cb).
  pose proof (objinv_viewinv _ Ia) as Va. pose proof (objinv_viewinv _ Ib) as Vb.
  pose proof (nlines_nonneg a). pose proof (nlines_nonneg b).
  assert (ImgR : forall sym x, img_at (mkObj bs sym) x = first_of (img_at a x) (img_at b x)).
  { intros sym x. rewrite !img_at_blocks. apply Img. }
  destruct (o_sym a) as [sa|] eqn:Ea; [destruct (o_sym b) as [sb|] eqn:Eb|].
  - exact (link_sym_spec a b bs sa sb Ia Ib Ea Eb Hs Img Hd).
  - destruct (link_one_table a bs Ia Hs Ca) as (Ir & Nr & Lr & Pr). destruct (nosym_view b Eb) as (Lb & Pb). rewrite Ea in *.
    constructor; [tauto| |exact Ir|lia|intros sa0 sb0 _ E2; rewrite Eb in E2; discriminate].
    rewrite (vlink_nolabels_r (view_of a) (view_of b) Va Lb Pb). split; [intro x; apply ImgR|split; [exact Lr|exact Pr]].
  - destruct (link_one_table b bs Ib Hs Cb) as (Ir & Nr & Lr & Pr). destruct (nosym_view a Ea) as (La & Pa).
    constructor; [tauto| |exact Ir|lia|intros sa0 sb0 E1; rewrite Ea in E1; discriminate].
    rewrite (vlink_nolabels_l (view_of a) (view_of b) Vb La Pa). split; [intro x; apply ImgR|split; [exact Lr|exact Pr]].
Qed.

Theorem link_err_inv a b k sp : link a b = LErr k sp ->
  (k = OverlappingBlocks /\ sp = [no_source]) \/
  (k = OverlappingLabels /\ exists n ad bd sa sb, sp = [sa; sb] /\ sym_span ad n = Some sa /\ sym_span bd n = Some sb).
Proof.
  unfold link. destruct (insert_blocks (o_blocks b) (o_blocks a)) as [bs|]; [|intros [= <- <-]; auto].
  destruct (adj_check bs); [|intros [= <- <-]; auto|discriminate].
  destruct (o_sym a) as [sa|]; [destruct (o_sym b) as [sb|]|]; try discriminate.
  rewrite link_sym_eq. destruct (link_dbg sa sb); [|discriminate].
  destruct (link_merge sa sb) as [L R Q|sp'|] eqn:EM; [destruct (apply_relocs bs Q); discriminate| |discriminate].
  intros [= <- <-]. right. split; [reflexivity|]. exact (merge_labels_err _ _ _ _ _ EM).
Qed.

Fixpoint lt_eval (t : ltree) : link_result :=
  match t with
  | Leaf o => LOk o
  | Node l r => match lt_eval l with
                | LOk a => match lt_eval r with
                           | LOk b => link a b
                           | other => other
                           end
                | other => other
                end
  end.
Definition total_lines (l : list objfile) : Z := fold_right (fun o acc => nlines o + acc) 0 l.

Lemma total_lines_cons o l : total_lines (o :: l) = nlines o + total_lines l.
Proof. reflexivity. Qed.
Lemma total_lines_app l1 l2 : total_lines (l1 ++ l2) = total_lines l1 + total_lines l2.
Proof.
  induction l1 as [|o r IH]; cbn [app]; [change (total_lines []) with 0; lia|].
  rewrite !total_lines_cons, IH. lia.
Qed.
Lemma total_lines_nonneg l : 0 <= total_lines l.
Proof. induction l as [|o r IH]; [unfold total_lines; cbn; lia|]. rewrite total_lines_cons. pose proof (nlines_nonneg o). lia. Qed.
Lemma total_lines_perm l l' : Permutation l l' -> total_lines l = total_lines l'.
Proof. induction 1; rewrite ?total_lines_cons; lia. Qed.

Lemma lt_eval_spec t : Forall ObjInv (leaves t) -> total_lines (leaves t) <= usize_max ->
  match lt_eval t with
  | LOk r => AllLinkable (map view_of (leaves t)) /\ veq (view_of r) (vlink_all (map view_of (leaves t))) /\
             ObjInv r /\ nlines r <= total_lines (leaves t)
  | _ => ~ AllLinkable (map view_of (leaves t))
  end.
Proof.
  induction t as [o|l IHl r IHr]; intros Hinv Hn.
  - inversion Hinv; subst. cbn [lt_eval leaves]. rewrite total_lines_cons. change (total_lines []) with 0.
    split; [split; constructor|]. split; [|split; [assumption|lia]].
    symmetry. apply vlink_empty_r, objinv_viewinv. assumption.
  - cbn [leaves lt_eval] in *.
    (* map_app by hand: `rewrite` does not reach the list under the binders of the match arms *)
    set (V := map view_of (leaves l ++ leaves r)).
    assert (EV : V = map view_of (leaves l) ++ map view_of (leaves r)) by apply map_app. clearbody V. subst V.
    pose proof (alllinkable_app (map view_of (leaves l)) (map view_of (leaves r))) as App.
    apply Forall_app in Hinv. destruct Hinv as (Il & Ir).
    rewrite total_lines_app in *. pose proof (total_lines_nonneg (leaves l)). pose proof (total_lines_nonneg (leaves r)).
    specialize (IHl Il ltac:(lia)). specialize (IHr Ir ltac:(lia)).
    destruct (lt_eval l) as [rl| |]; [|tauto..]. destruct (lt_eval r) as [rr| |]; [|tauto..].
    destruct IHl as (Al & Vl & Jl & Nl), IHr as (Ar & Vr & Jr & Nr).
    assert (F : LinesFit rl rr) by (unfold LinesFit; lia).
    pose proof (linkable_all_all _ _ Al Ar) as X. rewrite <- Vl, <- Vr in X.
    pose proof (link_spec rl rr Jl Jr) as S. destruct (link rl rr) as [x| |].
    + pose proof (lk_lines S). pose proof (lk_linkable S) as L. apply X in L.
      split; [tauto|]. split; [|split; [exact (lk_inv S)|lia]].
      rewrite (lk_view S), Vl, Vr. apply vlink_all_app; try (apply objinv_views; assumption). tauto.
    + tauto.
    + destruct (S F). tauto.
Qed.

Lemma lt_eval_ok_iff t : Forall ObjInv (leaves t) -> total_lines (leaves t) <= usize_max ->
  ((exists r, lt_eval t = LOk r) <-> AllLinkable (map view_of (leaves t))).
Proof.
  intros Hinv Hn. pose proof (lt_eval_spec t Hinv Hn) as S.
  destruct (lt_eval t); split; try tauto; eauto; intros (r & E); discriminate.
Qed.

Theorem link_any_order t t' : Permutation (leaves t) (leaves t') -> Forall ObjInv (leaves t) ->
  total_lines (leaves t) <= usize_max ->
  ((exists r, lt_eval t = LOk r) <-> (exists r', lt_eval t' = LOk r')) /\
  (forall r r', lt_eval t = LOk r -> lt_eval t' = LOk r' -> veq (view_of r) (view_of r')).
Proof.
  intros Hp Hinv Hn.
  assert (Hinv' : Forall ObjInv (leaves t')) by (eapply Permutation_Forall; eauto).
  assert (Hn' : total_lines (leaves t') <= usize_max) by (rewrite <- (total_lines_perm _ _ Hp); exact Hn).
  assert (Pv : Permutation (map view_of (leaves t)) (map view_of (leaves t'))) by (apply Permutation_map; exact Hp).
  split.
  - rewrite (lt_eval_ok_iff t), (lt_eval_ok_iff t') by assumption.
    split; apply alllinkable_perm; [exact Pv|apply Permutation_sym; exact Pv].
  - intros r r' E E'. pose proof (lt_eval_spec t Hinv Hn) as S. pose proof (lt_eval_spec t' Hinv' Hn') as S'.
    rewrite E in S. rewrite E' in S'. destruct S as (A & V & _), S' as (_ & V' & _).
    rewrite V, V'. apply vlink_all_perm; [exact Pv|apply objinv_views; exact Hinv|exact A].
Qed.

Theorem link_tree_refines t r : Forall ObjInv (leaves t) -> total_lines (leaves t) <= usize_max ->
  lt_eval t = LOk r -> veq (view_of r) (vlink_all (map view_of (leaves t))) /\ AllLinkable (map view_of (leaves t)).
Proof. intros Hinv Hn E. pose proof (lt_eval_spec t Hinv Hn) as S. rewrite E in S. tauto. Qed.

Lemma pair_tree a b : ObjInv a -> ObjInv b -> LinesFit a b ->
  Forall ObjInv (leaves (Node (Leaf a) (Leaf b))) /\ total_lines (leaves (Node (Leaf a) (Leaf b))) <= usize_max.
Proof. unfold LinesFit. intros Ia Ib Hf. split; [repeat constructor; assumption|]. cbn [leaves app]. rewrite !total_lines_cons. change (total_lines []) with 0. lia. Qed.
Lemma linesfit_sym a b : LinesFit a b -> LinesFit b a.
Proof. unfold LinesFit. lia. Qed.

Theorem link_tree_site t r u addr n : Forall ObjInv (leaves t) -> total_lines (leaves t) <= usize_max ->
  lt_eval t = LOk r -> In u (leaves t) -> pend_at u addr = Some n ->
  (forall d x, In d (leaves t) -> lbl_at d n = Some (x, false) ->
     img_at r addr = Some (Some x) /\ pend_at r addr = None) /\
  ((forall d x, In d (leaves t) -> lbl_at d n <> Some (x, false)) ->
     img_at r addr = img_at u addr /\ pend_at r addr = Some n /\ lbl_at r n = Some (0, true)).
Proof.
  intros Hinv Hn E Hu Hp.
  destruct (link_tree_refines t r Hinv Hn E) as ((V1 & V2 & V3) & All).
  pose proof (objinv_views _ Hinv) as Il. cbn [v_img v_lbl v_pend view_of] in V1, V2, V3.
  destruct (site_in_all _ (view_of u) addr n Il All (in_map view_of _ _ Hu) Hp) as (S1 & S2).
  rewrite V1, V3, V2. split.
  - intros d x Hd Hl.
    assert (D : v_lbl (vlink_all (map view_of (leaves t))) n = Some (x, false)).
    { apply lbl_all_defined; [assumption|]. exists (view_of d). split; [apply in_map; exact Hd|exact Hl]. }
    rewrite D in S1, S2. auto.
  - intro Hnd.
    assert (D : is_defined (v_lbl (vlink_all (map view_of (leaves t))) n) = None).
    { destruct (v_lbl (vlink_all (map view_of (leaves t))) n) as [[y [|]]|] eqn:K; try reflexivity. exfalso.
      apply (lbl_all_defined _ _ _ All) in K. destruct K as (w & Hw & Hd).
      apply in_map_iff in Hw. destruct Hw as (o & <- & Ho). exact (Hnd o y Ho Hd). }
    rewrite D in S1, S2. split; [exact S1|]. split; [exact S2|].
    exact (pend_external _ _ _ (viewinv_all _ Il All) S2).
Qed.

(* Part 3: the load check and `addr_iter`, facts about one object *)
Lemma load_check_of_label o n x : lbl_at o n = Some (x, true) -> load_check o = LoadUnresolvedExternal.
Proof.
  unfold load_check, has_external. rewrite lbl_at_lookup. destruct (o_sym o) as [st|]; [|discriminate].
  destruct (lookup n (st_labels st)) as [d|] eqn:E; [|discriminate]. unfold fsym. cbn. intro H.
  assert (X : sd_external d = true) by congruence. clear H.
  rewrite (existsb_in _ _ (n, d) (lookup_in _ _ _ E) X). reflexivity.
Qed.
Lemma load_check_label o : ObjInv o -> load_check o = LoadUnresolvedExternal -> exists n, lbl_at o n = Some (0, true).
Proof.
  intros Io. unfold load_check, has_external. destruct (o_sym o) as [st|] eqn:E; [|discriminate].
  destruct (existsb _ _) eqn:H; [intros _|discriminate].
  apply existsb_exists in H. destruct H as ((n, d) & Hin & X). cbn in X.
  destruct (objinv_sym _ _ Io E) as [S1 S2 S3 S4 S5].
  exists n. rewrite lbl_at_lookup, E, (in_lookup _ _ _ S1 Hin). unfold fsym. cbn. rewrite X, (S4 _ _ Hin X). reflexivity.
Qed.

Theorem load_fails o sites : ExtSitesRecorded o sites -> sites <> [] -> load_check o = LoadUnresolvedExternal.
Proof.
  unfold ExtSitesRecorded, ext_sites_recorded_b. intros H Hne.
  destruct sites as [|(a, n) r]; [contradiction|].
  destruct (o_sym o) as [st|] eqn:E; [|discriminate].
  cbn [forallb] in H. apply andb_true_iff in H. destruct H as (H & _). apply andb_true_iff in H. destruct H as (X & _).
  cbn [snd] in X. apply is_external_lookup in X. destruct X as (d & Ed & Xd).
  apply (load_check_of_label o n (sd_addr d)). rewrite lbl_at_lookup, E, Ed. unfold fsym. cbn. rewrite Xd. reflexivity.
Qed.

Lemma ext_sites_pend o sites a n : ObjInv o -> ExtSitesRecorded o sites -> In (a, n) sites -> pend_at o a = Some n.
Proof.
  unfold ExtSitesRecorded, ext_sites_recorded_b. intros Io H Hin. rewrite pend_at_find.
  destruct (o_sym o) as [st|] eqn:E; [|destruct sites; [contradiction|discriminate]].
  rewrite forallb_forall in H. specialize (H _ Hin). cbn [fst snd] in H. apply andb_true_iff in H. destruct H as (_ & H).
  apply existsb_exists in H. destruct H as ((a', n') & Hr & K). cbn in K. apply andb_true_iff in K. destruct K as (K1 & K2).
  apply Z.eqb_eq in K1. apply str_eqb_eq in K2. subst.
  destruct (objinv_sym _ _ Io E) as [S1 S2 S3 S4 S5]. apply in_rel_find; assumption.
Qed.

Lemma block_addrs_in s ws : forall i addr w, 0 <= s -> 0 <= i -> s + i + zlen ws <= 65536 ->
  (In (addr, w) (block_addrs s ws i) <->
   s + i <= addr < s + i + zlen ws /\ nth_error ws (Z.to_nat (addr - s - i)) = Some w).
Proof.
  induction ws as [|x r IH]; intros i addr w Hs Hi Hb; cbn [block_addrs In].
  - unfold zlen. cbn. lia.
  - rewrite zlen_cons in *. pose proof (zlen_nonneg r).
    rewrite (IH (i + 1) addr w Hs) by lia. rewrite wrap16_small by lia.
    destruct (Z.eq_dec addr (s + i)) as [->|Ne].
    + replace (s + i - s - i) with 0 by lia. cbn [Z.to_nat nth_error]. split.
      * intros [E|(K & _)]; [injection E as <-; split; [lia|reflexivity]|lia].
      * intros (_ & E). left. congruence.
    + split.
      * intros [E|(K & En)]; [congruence|]. split; [lia|].
        replace (Z.to_nat (addr - s - i)) with (S (Z.to_nat (addr - s - (i + 1)))) by lia. exact En.
      * intros (K & En). right. split; [lia|].
        replace (Z.to_nat (addr - s - i)) with (S (Z.to_nat (addr - s - (i + 1)))) in En by lia. exact En.
Qed.

Theorem addr_iter_image o addr w : ObjInv o -> (In (addr, w) (addr_iter o) <-> img_at o addr = Some w).
Proof.
  intro Io. pose proof (objinv_blocks _ Io) as Hb. rewrite img_at_blocks. unfold addr_iter.
  assert (K : forall s ws, In (s, ws) (o_blocks o) ->
            (In (addr, w) (block_addrs s ws 0) <-> covers (s, ws) addr /\ nth_error ws (Z.to_nat (addr - s)) = Some w)).
  { intros s ws Hin. destruct (blocks_ok_in _ _ _ _ Hb Hin) as (Z0 & Z1 & Z2).
    rewrite (block_addrs_in s ws 0) by lia. unfold covers. cbn [fst snd].
    replace (addr - s - 0) with (addr - s) by lia. replace (s + 0) with s by lia. reflexivity. }
  rewrite in_flat_map. split.
  - intros ((s, ws) & Hin & Ha). apply (K s ws Hin) in Ha. destruct Ha as (Hc & En).
    rewrite (img_blocks_of_in 0 _ addr s ws Hb Hin Hc). exact En.
  - intro H. destruct (img_blocks_in _ _ _ H) as (s & ws & Hin & Hc & En). exists (s, ws). split; [exact Hin|].
    apply (K s ws Hin). auto.
Qed.

