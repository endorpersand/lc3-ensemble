(* IrqCongruence.v — C10 transparency for user-mode code: two states that show a user program the same things ([veq])
   execute any non-TRAP instruction with the same result and stay so related ([Cong], a two-run rule for [bind]).
   Non-strict mode only: the strict jump check peeks at the target word, which may be supervisor memory. *)
From Coq Require Import ZArith List Bool Lia FMapPositive.
From Gen Require Import Constants.
From Model Require Import Tree Bits Word Instr Sim.
From Proofs Require Import PsrBits SimHoare SimAccess SimUser IrqProofs.
Import ListNotations.
Open Scope Z_scope.

Definition veq (s t : sim) : Prop :=
  s_regs t = s_regs s /\ s_pc t = s_pc s /\ s_psr t = s_psr s /\ s_saved_sp t = s_saved_sp s /\
  s_mcr t = s_mcr s /\ s_flags t = s_flags s /\ s_ireg t = s_ireg s /\ s_alloca t = s_alloca s /\
  s_prefetch t = s_prefetch s /\ same_io (s_devs s) (s_devs t) /\
  (forall a, in_user a = true -> mget (s_mem t) a = mget (s_mem s) a).

Lemma veq_iff s t : veq s t <-> peq s t /\ s_prefetch t = s_prefetch s.
Proof.
  split.
  - intros (E1 & E2 & E3 & E4 & E5 & E6 & E7 & E8 & E9 & E10 & E11). split; [constructor|]; assumption.
  - intros [[A1 A2 A3 A4 A5 A6 A7 A8 A9 A10] P]. repeat split; assumption.
Qed.
Lemma veq_peq s t : veq s t -> peq s t.
Proof. intros V. apply veq_iff, V. Qed.

Definition uok (s : sim) : Prop :=
  32768 <= s_psr s < 65536 /\ fl_ignore_priv (s_flags s) = false /\ fl_strict (s_flags s) = false.

Lemma uok_ctx s : uok s -> c_priv (default_ctx s) = false.
Proof. intros (P & I & _). apply user_ctx. split; [exact (user_psr_not_priv _ P)|exact I]. Qed.

Definition R2 {A} (m1 m2 : M A) (s t : sim) : Prop :=
  snd (m2 t) = snd (m1 s) /\ veq (fst (m1 s)) (fst (m2 t)) /\ uok (fst (m1 s)).
Definition Cong {A} (m : M A) : Prop := forall s t, veq s t -> uok s -> R2 m m s t.

Lemma cong_ret {A} (a : A) : Cong (ret a).
Proof. intros s t V U. repeat split; assumption || apply V || apply U. Qed.
Lemma cong_fail {A} b : Cong (@fail A b).
Proof. intros s t V U. repeat split; assumption || apply V || apply U. Qed.
Lemma cong_err {A} x : Cong (@err A x).
Proof. apply cong_fail. Qed.
Lemma cong_of_opt {A} (o : option A) x : Cong (of_opt o x).
Proof. destruct o; [apply cong_ret|apply cong_err]. Qed.
Lemma cong_modify f :
  (forall s t, veq s t -> veq (f s) (f t)) -> (forall s, uok s -> uok (f s)) -> Cong (modify f).
Proof. intros H1 H2 s t V U. unfold R2, modify. cbn [fst snd]. split; [reflexivity|]. split; [apply H1, V|apply H2, U]. Qed.

Lemma cong_bind {A B} (m : M A) (k : A -> M B) : Cong m -> (forall a, Cong (k a)) -> Cong (bind m k).
Proof.
  intros Hm Hk s t V U. specialize (Hm s t V U). unfold R2, bind in *.
  destruct (m s) as [s1 [a|b]], (m t) as [t1 r]; cbn [fst snd] in *; destruct Hm as (E & V1 & U1); subst r.
  - apply (Hk a s1 t1 V1 U1).
  - cbn [fst snd]. repeat split; assumption || apply V1 || apply U1.
Qed.

Lemma cong_bind_get {B} (k : sim -> M B) :
  (forall s0, uok s0 -> Cong (k s0)) ->
  (forall s0 t0, veq s0 t0 -> uok s0 -> forall x, k t0 x = k s0 x) -> Cong (bind get k).
Proof.
  intros Hk He s t V U. unfold R2.
  change (bind get k s) with (k s s). change (bind get k t) with (k t t). rewrite (He s t V U).
  apply (Hk s U s t V U).
Qed.
Lemma cong_if {A} (b : bool) (m1 m2 : M A) : Cong m1 -> Cong m2 -> Cong (if b then m1 else m2).
Proof. destruct b; auto. Qed.

Lemma veq_obs s t o : veq s t -> veq (upd_obs s o) t.
Proof. intros V. exact V. Qed.

Lemma cong_read e a c : c_priv c = false -> Cong (read_mem e a c).
Proof.
  intros P s t V U. unfold R2. destruct (in_user a) eqn:Ua.
  - rewrite (read_user e a c s P Ua), (read_user e a c t P Ua). cbn [fst snd].
    split; [f_equal; destruct (c_track c); apply V; exact Ua|].
    split; [|destruct (c_track c); exact U].
    destruct (c_track c); exact V.
  - rewrite (read_denied e a c s P Ua), (read_denied e a c t P Ua). cbn [fst snd].
    repeat split; assumption || apply V || apply U.
Qed.

Lemma cong_write e a w c : c_priv c = false -> Cong (write_mem e a w c).
Proof.
  intros P s t V U. unfold R2. destruct (in_user a) eqn:Ua.
  - assert (Pm : negb (c_priv c) && negb (in_user a) = false) by (rewrite Ua; apply andb_false_r).
    rewrite !(write_mem_plain e a w c _ Pm (in_user_below_io a Ua)). cbv zeta.
    destruct V as (E1 & E2 & E3 & E4 & E5 & E6 & E7 & E8 & E9 & E10 & E11).
    destruct (set_if_init w (c_strict c)) as [w'|]; destruct (c_track c); cbn [fst snd];
      (split; [reflexivity|]); (split; [|exact U]);
      unfold veq; cbn [upd_mem upd_obs s_mem s_regs s_pc s_psr s_saved_sp s_mcr s_flags s_ireg s_alloca s_prefetch s_devs];
      repeat (split; [assumption|]); try exact E11;
      intros b Hb; (destruct (Z.eq_dec b a) as [->|Hne];
        [rewrite !mget_mset_same; reflexivity
        |rewrite !mget_mset_other by (try apply in_user_nonneg; auto); apply E11; exact Hb]).
  - rewrite (write_denied e a w c s P Ua), (write_denied e a w c t P Ua). cbn [fst snd].
    repeat split; assumption || apply V || apply U.
Qed.

Ltac veq_upd :=
  let s := fresh "s" in let t := fresh "t" in let V := fresh "V" in
  intros s t V; destruct V as (E1 & E2 & E3 & E4 & E5 & E6 & E7 & E8 & E9 & E10 & E11);
  unfold veq;
  cbn [upd_mem upd_regs upd_pc upd_psr upd_saved_sp upd_frames upd_instrs upd_prefetch upd_obs upd_mcr upd_devs upd_alloca
       s_mem s_regs s_pc s_psr s_saved_sp s_mcr s_flags s_ireg s_alloca s_prefetch s_devs];
  rewrite ?E1, ?E2, ?E3, ?E4, ?E5, ?E6, ?E7, ?E8, ?E9; repeat (split; [first [reflexivity|assumption]|]); assumption.

Lemma cong_set_cc r : Cong (set_cc r).
Proof.
  unfold set_cc. apply cong_modify; [veq_upd|].
  intros s (P & I & S). split; [|split; assumption]. cbn [upd_psr s_psr]. apply psr_set_cc_user. exact P.
Qed.
Lemma cong_set_pc w b : Cong (set_pc w b).
Proof.
  intros s t V U. unfold R2.
  assert (St : fl_strict (s_flags t) = false).
  { rewrite (pq_flags _ _ (veq_peq _ _ V)). apply U. }
  rewrite (set_pc_lax w b s) by apply U. rewrite (set_pc_lax w b t St). cbn [fst snd].
  split; [reflexivity|]. split; [|exact U]. revert s t V U St. intros s t V _ _. revert s t V. veq_upd.
Qed.
Lemma cong_offset_pc o b : Cong (offset_pc o b).
Proof.
  unfold offset_pc. apply cong_bind_get; [intros s0 _; apply cong_set_pc|].
  intros s0 t0 V _ x. rewrite (pq_pc _ _ (veq_peq _ _ V)). reflexivity.
Qed.
Lemma cong_set_reg dr v st : Cong (set_reg_if_init dr v st).
Proof.
  unfold set_reg_if_init. apply cong_bind; [apply cong_of_opt|intro w]. apply cong_modify; [veq_upd|exact (fun _ H => H)].
Qed.
Lemma cong_push_frame a b c : Cong (push_frame a b c).
Proof.
  intros s t V U. unfold R2. rewrite !push_frame_run. cbn [fst snd]. split; [reflexivity|]. split; [exact V|exact U].
Qed.
Lemma cong_pop_frame : Cong pop_frame.
Proof. unfold pop_frame. apply cong_modify; [veq_upd|exact (fun _ H => H)]. Qed.

(* the one idea of [cong_exec]: the continuation of a [get] looks at its snapshot only through fields [veq] equates,
   never through [s_mem] (except [set_pc] under strict mode, which [uok] excludes) *)
Ltac veq_rw :=
  let s0 := fresh "s0" in let t0 := fresh "t0" in let V := fresh "V" in let U0 := fresh "U0" in let x := fresh "x" in
  intros s0 t0 V U0 x; destruct V as (E1 & E2 & E3 & E4 & E5 & E6 & E7 & E8 & E9 & E10 & E11);
  unfold default_ctx, strict, operand, in_alloca, prefetch_pc;
  rewrite ?E1, ?E2, ?E3, ?E4, ?E5, ?E6, ?E7, ?E8, ?E9; reflexivity.
Ltac ctx_side := first [ apply uok_ctx; assumption | (cbn [c_priv]; apply uok_ctx; assumption) ].

Create HintDb cg discriminated.
#[export] Hint Constants Opaque : cg.
#[export] Hint Resolve cong_set_cc cong_set_pc cong_offset_pc cong_set_reg cong_push_frame cong_pop_frame : cg.

Ltac cg1 :=
  lazymatch goal with
  | |- Cong (ret _) => apply cong_ret
  | |- Cong (fail _) => apply cong_fail
  | |- Cong (err _) => apply cong_err
  | |- Cong (of_opt _ _) => apply cong_of_opt
  | |- Cong (read_mem _ _ _) => apply cong_read; ctx_side
  | |- Cong (write_mem _ _ _ _) => apply cong_write; ctx_side
  | |- Cong (modify _) => apply cong_modify; [veq_upd|exact (fun _ H => H)]
  | |- Cong (bind get _) => apply cong_bind_get; [intros ? ?|veq_rw]
  | |- Cong (bind _ _) => apply cong_bind; [ | intro ]
  | |- Cong (if _ then _ else _) => apply cong_if
  | |- Cong (match ?x with _ => _ end) => destruct x
  | |- Cong _ => solve [auto 1 with cg nocore]
  end.
Ltac cg := repeat cg1.

Lemma cong_call_subroutine a : Cong (call_subroutine a).
Proof. unfold call_subroutine. cg. Qed.
#[export] Hint Resolve cong_call_subroutine : cg.

Theorem cong_exec e i : is_trap i = false -> Cong (exec e i).
Proof.
  intros NT. unfold exec. apply cong_bind_get; [intros s0 U0|veq_rw]. cbv zeta.
  destruct i; try discriminate NT; try solve [cg].
  destruct U0 as (P & I & S). rewrite (user_psr_not_priv _ P), I. cbn [orb]. apply cong_err.
Qed.

Lemma cong_counted (m : M unit) : Cong m -> Cong (fun s => counted (m s)).
Proof.
  intros C s t V Uo. destruct (C s t V Uo) as (R & V' & U'). unfold R2.
  destruct (m s) as [s3 [[]|b]], (m t) as [t3 rt]; cbn [fst snd] in *; subst rt; cbn [counted fst snd]; auto.
Qed.

Lemma peq_uok s s' : peq s s' -> uok s -> uok s'.
Proof. intros P (A & B & C). unfold uok. rewrite (pq_psr _ _ P), (pq_flags _ _ P). auto. Qed.

Lemma veq_fetched_u s t : veq s t -> veq (fetched_u s) (fetched_u t).
Proof. revert s t. unfold fetched_u. veq_upd. Qed.

(* the two runs fetch the same word: the one in user memory, which they share *)
Theorem cong_fetch_exec e s t :
  veq s t -> uok s ->
  (forall i, decode (w_data (mget (s_mem s) (s_pc s))) = DOk i -> is_trap i = false) ->
  R2 (fetch_exec e) (fetch_exec e) s t.
Proof.
  intros V Uo NT. pose proof (veq_peq _ _ V) as P. pose proof (peq_uok _ _ P Uo) as Ut.
  unfold R2. rewrite (fetch_exec_user e s (uok_ctx s Uo)), (fetch_exec_user e t (uok_ctx t Ut)).
  unfold strict. rewrite (pq_pc _ _ P), (pq_flags _ _ P).
  destruct (in_user (s_pc s)) eqn:Ua; [|cbn [fst snd]; auto].
  rewrite (pq_umem _ _ P _ Ua). destruct (fetched_instr _ _) as [i|b] eqn:D; [|cbn [fst snd]; auto].
  exact (cong_counted _ (cong_exec e i (NT i (fetched_instr_inl _ _ _ D))) _ _ (veq_fetched_u s t V) Uo).
Qed.

Lemma peq_after_poll e s : peq s (after_poll e s).
Proof. constructor; try reflexivity. apply same_io_polled. Qed.

(* interrupts serviced at one boundary, each taken by the gate in a whole [step_inner] *)
Inductive Svc : sim -> sim -> Prop :=
| svc_nil s : Svc s s
| svc_cons e e' s v p s1 s2 s3 s' :
    takes_irq e s v p -> entry_pre s v p -> step_inner e s = (s1, inl tt) ->
    HandlerOK (after_poll e s) s1 s2 ->
    (exists d, entry_sp s = new_init d /\ 2 <= d <= 12288) ->
    exec e' SRTI s2 = (s3, inl tt) -> Svc s3 s' -> Svc s s'.

Lemma svc_peq s s' : Svc s s' -> peq s s'.
Proof.
  induction 1 as [s|e e' s v p s1 s2 s3 s' Ht Hpre Hstep Hok Hsp Hrti Hrest IH]; [apply peq_refl|].
  rewrite (gate_taken _ _ _ _ Ht) in Hstep.
  eapply peq_trans; [apply (peq_after_poll e s)|]. eapply peq_trans; [|exact IH].
  exact (serviced_step e e' _ v p s1 s2 s3 (entry_pre_after_poll e s v p Hpre) Hstep Hok Hsp Hrti).
Qed.

Definition nontrap_at (s : sim) : Prop :=
  forall i, decode (w_data (mget (s_mem s) (s_pc s))) = DOk i -> is_trap i = false.

(* n user instructions, each a [step_inner] with NO request pending (one pending but masked is not covered), any number
   of serviced interrupts before each *)
Inductive IRun : nat -> sim -> sim -> Prop :=
| ir_done s : IRun O s s
| ir_service n s s1 s' : Svc s s1 -> IRun n s1 s' -> IRun n s s'
| ir_step e n s s1 s' :
    pending e s = None -> nontrap_at s -> step_inner e s = (s1, inl tt) -> IRun n s1 s' -> IRun (S n) s s'.
Inductive URun : nat -> sim -> sim -> Prop :=
| ur_done t : URun O t t
| ur_step e n t t1 t' : fetch_exec e (upd_prefetch t true) = (t1, inl tt) -> URun n t1 t' -> URun (S n) t t'.

Lemma peq_veq_step e s t : peq s t -> veq (after_poll e s) (upd_prefetch t true).
Proof.
  intros [A1 A2 A3 A4 A5 A6 A7 A8 A9 A10]. unfold veq, after_poll.
  cbn [upd_devs upd_prefetch s_regs s_pc s_psr s_saved_sp s_mcr s_flags s_ireg s_alloca s_prefetch s_devs s_mem].
  repeat (split; [first [assumption|reflexivity]|]). split; [|exact A5].
  eapply same_io_trans; [apply same_io_sym, same_io_polled|exact A6].
Qed.

Lemma nontrap_peq s s' : peq s s' -> in_user (s_pc s) = true -> nontrap_at s' -> nontrap_at s.
Proof.
  intros [P _ _ _ M _ _ _ _ _] Hu H i Hi. apply H. rewrite P, (M _ Hu). exact Hi.
Qed.

Theorem user_run_transparent : forall n s s', IRun n s s' ->
  forall t, peq s t -> uok s -> exists t', URun n t t' /\ peq s' t' /\ uok s'.
Proof.
  induction 1 as [s|n s s1 s' Hsvc Hrun IH|e n s s1 s' Hp Hnt Hstep Hrun IH]; intros t Hpeq Hu.
  - exists t. split; [constructor|]. split; assumption.
  - pose proof (svc_peq _ _ Hsvc) as H1.
    apply IH; [exact (peq_trans _ _ _ (peq_sym _ _ H1) Hpeq)|eapply peq_uok; eassumption].
  - rewrite step_inner_cases, Hp in Hstep.
    pose proof (peq_veq_step e s t Hpeq) as V.
    assert (U1 : uok (after_poll e s)) by exact Hu.
    pose proof (cong_fetch_exec e (after_poll e s) (upd_prefetch t true) V U1 Hnt) as (R & V' & U').
    rewrite Hstep in R, V', U'. cbn [fst snd] in R, V', U'.
    destruct (fetch_exec e (upd_prefetch t true)) as [t1 r] eqn:Ht. cbn [fst snd] in R, V'. subst r.
    destruct (IH t1 (veq_peq _ _ V') U') as (t' & Hur & Hpq & Hu').
    exists t'. split; [econstructor; eassumption|]. split; assumption.
Qed.
