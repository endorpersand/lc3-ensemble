(* PiecesProofs.v — a text as token pieces: its token stream is the pieces' tokens with the spans of
   their texts ([lex_pieces]).  [word_res x res]: the text x is one word of the lexer with outcome res
   before any delimiter; [word_ok], its accepting case, for every class of word in every spelling. *)
From Coq Require Import ZArith List Bool Lia.
From Model Require Import Text Instr Lexer Print.
From Spec Require Import Numerals.
From Proofs Require Import TextFacts LexerProofs LexStepProofs LexNumProofs.
Import ListNotations.
Open Scope Z_scope.

(* not all that ends a word (`#`, `.` do too): what layouts and the printer put after one *)
Definition is_delim (d : Z) : bool :=
  (d =? 32) || (d =? 9) || (d =? 44) || (d =? 58) || (d =? 59) || (d =? 10) || (d =? 13) || (d =? 34).
Definition delim (rest : str) : Prop := match rest with [] => True | d :: _ => is_delim d = true end.

Lemma delim_not_word d : is_delim d = true -> is_word d = false /\ d <> 45 /\ is_dec d || is_hex_letter d = false.
Proof.
  intros H. assert (C : d = 32 \/ d = 9 \/ d = 44 \/ d = 58 \/ d = 59 \/ d = 10 \/ d = 13 \/ d = 34) by (unfold is_delim in H; lia).
  destruct C as [->|[->|[->|[->|[->|[->|[->| ->]]]]]]]; (split; [reflexivity|split; [lia|reflexivity]]).
Qed.
Lemma delim_stops rest : delim rest -> stops is_word rest.
Proof. destruct rest as [|d r]; [trivial|]. cbn [delim stops]. intros H. apply delim_not_word in H. apply H. Qed.

Inductive piece :=
| W (text : str) (t : token)      (* a word-like token: needs a delimiter after it *)
| Sp                              (* one blank *)
| Cm                              (* a comma *)
| St (text : str) (v : str)       (* a string literal, quotes included, with its value *)
| Bl (bs : str)                   (* a run of blanks and tabs, possibly empty *)
| Col                             (* a colon *)
| Nl (crlf : bool)                (* a line end: LF or CR LF *)
| Cmt (body : str).               (* a comment: ';' and everything up to the line feed (a CR before it included) *)

Definition nl_text (crlf : bool) : str := if crlf then [13; 10] else [10].
Definition piece_text (p : piece) : str :=
  match p with
  | W x _ => x | Sp => [32] | Cm => [44] | St x _ => x
  | Bl bs => bs | Col => [58] | Nl crlf => nl_text crlf | Cmt body => 59 :: body
  end.
Definition text_of (ps : list piece) : str := flat_map piece_text ps.

Fixpoint toks_of (pos : Z) (ps : list piece) : list tok :=
  match ps with
  | [] => []
  | W x t :: r => (t, (pos, pos + byte_len x)) :: toks_of (pos + byte_len x) r
  | Sp :: r => toks_of (pos + 1) r
  | Cm :: r => (TComma, (pos, pos + 1)) :: toks_of (pos + 1) r
  | St x v :: r => (TString v, (pos, pos + byte_len x)) :: toks_of (pos + byte_len x) r
  | Bl bs :: r => toks_of (pos + byte_len bs) r
  | Col :: r => (TColon, (pos, pos + 1)) :: toks_of (pos + 1) r
  | Nl crlf :: r => (TNewLine, (pos, pos + byte_len (nl_text crlf))) :: toks_of (pos + byte_len (nl_text crlf)) r
  | Cmt body :: r => (TComment, (pos, pos + (1 + byte_len body))) :: toks_of (pos + (1 + byte_len body)) r
  end.

Definition word_res (x : str) (res : step_res) : Prop :=
  exists c w, x = c :: w /\ is_blank c = false /\
    forall fx rest, delim rest -> lex_step fx c (w ++ rest) = (res, byte_len x, rest).
Definition word_ok (x : str) (t : token) : Prop :=
  exists c w, x = c :: w /\ is_blank c = false /\
    forall fx rest, delim rest -> lex_step fx c (w ++ rest) = (SOk t, byte_len x, rest).
Definition str_ok (x v : str) : Prop :=
  exists body, x = 34 :: body /\
    forall rest, lex_step true 34 (body ++ rest) = (SOk (TString v), byte_len x, rest).

Lemma word_ok_res x t : word_ok x t <-> word_res x (SOk t).
Proof. reflexivity. Qed.

Fixpoint delim_next (r : list piece) : Prop :=
  match r with
  | W _ _ :: _ => False
  | Bl [] :: r' => delim_next r'
  | _ => True
  end.
(* a CR before the line feed belongs to the comment, so CR LF may not follow one *)
Fixpoint eol_next (r : list piece) : Prop :=
  match r with
  | [] => True
  | Nl false :: _ => True
  | Bl [] :: r' => eol_next r'
  | _ => False
  end.

Fixpoint pieces_ok (ps : list piece) : Prop :=
  match ps with
  | [] => True
  | W x t :: r => word_ok x t /\ delim_next r /\ pieces_ok r
  | St x v :: r => str_ok x v /\ pieces_ok r
  | Bl bs :: r => forallb is_blank bs = true /\ pieces_ok r
  | Cmt body :: r => forallb (fun c => negb (c =? 10)) body = true /\ eol_next r /\ pieces_ok r
  | _ :: r => pieces_ok r
  end.

Lemma pieces_delim r : pieces_ok r -> delim_next r -> delim (text_of r).
Proof.
  induction r as [|p r IH]; [trivial|]. intros Hok Hh.
  destruct p; cbn [text_of flat_map piece_text app delim delim_next] in *; try reflexivity; try contradiction.
  - cbn [pieces_ok] in Hok. destruct Hok as [[body [-> _]] _]. reflexivity.
  - cbn [pieces_ok] in Hok. destruct Hok as [Hb Hok]. destruct bs as [|b bs].
    + cbn [app]. apply IH; assumption.
    + cbn [app delim]. cbn [forallb] in Hb. apply andb_prop in Hb. destruct Hb as [Hb _].
      unfold is_blank in Hb. unfold is_delim. lia.
  - destruct crlf; reflexivity.
Qed.

Lemma eol_stops r : pieces_ok r -> eol_next r -> stops (fun c => negb (c =? 10)) (text_of r).
Proof.
  induction r as [|p r IH]; [trivial|]. intros Hok Hh.
  destruct p; cbn [eol_next] in Hh; try contradiction.
  - destruct bs; [|contradiction]. cbn [pieces_ok] in Hok. destruct Hok as [_ Hok].
    cbn [text_of flat_map piece_text app]. apply IH; assumption.
  - destruct crlf; [contradiction|]. reflexivity.
Qed.

Lemma lex_at_blanks fx bs : forall pos r, forallb is_blank bs = true ->
  lex_at fx pos (bs ++ r) = lex_at fx (pos + byte_len bs) r.
Proof.
  induction bs as [|b bs IH]; intros pos r H.
  - cbn [app byte_len]. rewrite Z.add_0_r. reflexivity.
  - cbn [forallb] in H. apply andb_prop in H. destruct H as [Hb Hbs].
    cbn [app]. rewrite lex_at_cons, Hb. rewrite IH by exact Hbs. cbn [byte_len].
    rewrite (utf8_len_ascii b) by (unfold is_blank in Hb; lia). f_equal. lia.
Qed.

Lemma lex_at_tok fx pos c r t n rest : is_blank c = false -> lex_step fx c r = (SOk t, n, rest) ->
  lex_at fx pos (c :: r) = lex_cons (t, (pos, pos + n)) (lex_at fx (pos + n) rest).
Proof. intros Hb Hs. rewrite lex_at_cons, Hb, Hs. reflexivity. Qed.

Theorem lex_pieces ps : pieces_ok ps -> lex (text_of ps) = LexOk (toks_of 0 ps).
Proof.
  change (lex (text_of ps)) with (lex_at true 0 (text_of ps)). generalize 0 as pos.
  induction ps as [|p ps IH]; intros pos Hok; [reflexivity|].
  destruct p as [x t| | |x v|bs| |crlf|body]; cbn [text_of flat_map piece_text pieces_ok toks_of] in *; fold (text_of ps).
  - destruct Hok as [[c [w [-> [Hb Hstep]]]] [Hnext Hrest]]. cbn [app].
    rewrite (lex_at_tok _ _ _ _ _ _ _ Hb (Hstep true _ (pieces_delim _ Hrest Hnext))), IH by exact Hrest. reflexivity.
  - cbn [app]. rewrite lex_at_cons. apply IH. exact Hok.
  - cbn [app]. rewrite (lex_at_tok _ _ 44 _ TComma 1 _ eq_refl eq_refl), IH by exact Hok. reflexivity.
  - destruct Hok as [[body [-> Hstep]] Hrest]. cbn [app].
    rewrite (lex_at_tok _ _ 34 _ _ _ _ eq_refl (Hstep _)), IH by exact Hrest. reflexivity.
  - destruct Hok as [Hb Hrest]. rewrite lex_at_blanks by exact Hb. apply IH. exact Hrest.
  - cbn [app]. rewrite (lex_at_tok _ _ 58 _ TColon 1 _ eq_refl eq_refl), IH by exact Hok. reflexivity.
  - destruct crlf; cbn [nl_text app].
    + rewrite (lex_at_tok _ _ 13 (10 :: text_of ps) TNewLine 2 _ eq_refl eq_refl), IH by exact Hok. reflexivity.
    + rewrite (lex_at_tok _ _ 10 _ TNewLine 1 _ eq_refl eq_refl), IH by exact Hok. reflexivity.
  - destruct Hok as [Hb [Hn Hrest]]. cbn [app].
    rewrite (lex_at_tok _ _ 59 _ _ _ _ eq_refl (lex_step_comment _ _ _ Hb (eol_stops _ Hrest Hn))), IH by exact Hrest.
    reflexivity.
Qed.

Lemma text_of_app a b : text_of (a ++ b) = text_of a ++ text_of b.
Proof. unfold text_of. apply flat_map_app. Qed.

Lemma toks_of_app a : forall pos b,
  toks_of pos (a ++ b) = toks_of pos a ++ toks_of (pos + byte_len (text_of a)) b.
Proof.
  induction a as [|p a IH]; intros pos b; [cbn [app text_of flat_map byte_len toks_of]; f_equal; lia|].
  change (text_of (p :: a)) with (piece_text p ++ text_of a). rewrite byte_len_app.
  destruct p; cbn [app toks_of piece_text byte_len]; rewrite IH; change (utf8_len 32) with 1;
    change (utf8_len 44) with 1; change (utf8_len 58) with 1; change (utf8_len 59) with 1;
    repeat first [lia | f_equal].
Qed.

Lemma delim_next_app r b : delim_next r -> delim_next b -> delim_next (r ++ b).
Proof.
  induction r as [|p r IH]; intros H Hb; [exact Hb|]. destruct p as [x t| | |x v|bs| |crlf|bd]; cbn [app delim_next] in *; try exact Logic.I; try contradiction.
  destruct bs; [apply IH; assumption | exact Logic.I].
Qed.
Lemma eol_next_app r b : eol_next r -> eol_next b -> eol_next (r ++ b).
Proof.
  induction r as [|p r IH]; intros H Hb; [exact Hb|]. destruct p as [x t| | |x v|bs| |crlf|bd]; cbn [app eol_next] in *; try contradiction.
  - destruct bs; [apply IH; assumption | contradiction].
  - exact H.
Qed.
Lemma eol_next_delim b : eol_next b -> delim_next b.
Proof. induction b as [|p b IH]; [trivial|]. destruct p as [x t| | |x v|bs| |crlf|bd]; cbn [eol_next delim_next]; try contradiction; trivial. destruct bs; [exact IH|trivial]. Qed.
Lemma pieces_ok_app a b : pieces_ok a -> pieces_ok b -> eol_next b -> pieces_ok (a ++ b).
Proof.
  induction a as [|p a IH]; intros Ha Hb E; [exact Hb|]. pose proof (eol_next_delim b E) as D.
  destruct p as [x t| | |x v|bs| |crlf|bd]; cbn [app pieces_ok] in *; try (apply IH; assumption).
  - destruct Ha as [H1 [H2 H3]]. split; [exact H1|]. split; [apply delim_next_app; assumption | apply IH; assumption].
  - destruct Ha as [H1 H3]. split; [exact H1 | apply IH; assumption].
  - destruct Ha as [H1 H3]. split; [exact H1 | apply IH; assumption].
  - destruct Ha as [H1 [H2 H3]]. split; [exact H1|]. split; [apply eol_next_app; assumption | apply IH; assumption].
Qed.

(* the alphabet C36 is stated for *)
Definition alpha_char (c : Z) : bool :=
  ((32 <=? c) && (c <? 127)) || (c =? 9) || (c =? 10) || (c =? 13) || (c =? 0).

Lemma scan_esc_debug c r : alpha_char c = true ->
  scan_str true (esc_debug c ++ r) = sc_push [c] (byte_len (esc_debug c)) (scan_str true r).
Proof.
  intros Hc. unfold esc_debug.
  repeat match goal with |- context [c =? ?k] =>
    destruct (Z.eqb_spec c k) as [->|?]; [cbn [app]; rewrite scan_esc by lia; reflexivity|] end.
  unfold alpha_char in Hc. replace ((32 <=? c) && (c <? 127)) with true by lia.
  cbn [app byte_len]. rewrite scan_plain by lia. f_equal. lia.
Qed.

Lemma scan_escaped v rest : forallb alpha_char v = true ->
  scan_str true (flat_map esc_debug v ++ 34 :: rest) = ScClosed v (byte_len (flat_map esc_debug v) + 1) rest.
Proof.
  induction v as [|c v IH]; intros Hv; [apply scan_quote|].
  cbn [forallb] in Hv. apply andb_prop in Hv. destruct Hv as [Hc Hv].
  cbn [flat_map]. rewrite <- app_assoc, byte_len_app, scan_esc_debug, (IH Hv) by exact Hc.
  cbn [sc_push app]. f_equal. lia.
Qed.

Lemma str_piece_ok v : forallb alpha_char v = true -> byte_len v <? 65535 = true ->
  str_ok (debug_str v) v.
Proof.
  intros Hv Hlen. unfold debug_str. exists (flat_map esc_debug v ++ [34]). split; [reflexivity|].
  intros rest. unfold lex_step. cbn [Z.eqb Pos.eqb]. unfold lex_str_literal.
  rewrite <- app_assoc. cbn [app]. rewrite scan_escaped by exact Hv. rewrite Hlen.
  cbn [byte_len]. rewrite byte_len_app. cbn [byte_len]. change (utf8_len 34) with 1.
  replace (1 + 0) with 1 by lia. reflexivity.
Qed.

Lemma lex_word_res x res : word_res x res -> lex x = one_token res (byte_len x).
Proof.
  intros (c & w & -> & Hb & Hs). specialize (Hs true [] Logic.I). rewrite app_nil_r in Hs.
  unfold lex. rewrite lex_with_at, lex_at_cons, Hb, Hs. destruct res; [|reflexivity|reflexivity].
  rewrite lex_at_nil. reflexivity.
Qed.

(* per notation: maximal munch gives the callback on the whole text, [conv_(un)signed] its value *)
Lemma numeral_res nt ds : nt_ok nt -> ds <> [] -> Forall (nt_digit nt) ds ->
  word_res (nt_prefix nt ++ ds) (nt_result nt (value_of (nt_radix nt) ds)).
Proof.
  intros Hok Hne Hd. destruct (nt_digits nt ds Hd) as [Hh Hv]. pose proof (hex_digits_word ds Hh) as Hw.
  destruct ds as [|d ds]; [congruence|]. assert (Hd0 : hex_digit d) by (inversion Hh; assumption).
  unfold nt_result.
  destruct nt; cbn [nt_prefix nt_radix nt_signed nt_digit nt_ok app] in *; eexists _, _; (split; [reflexivity|]);
    (split; [first [reflexivity | apply is_x_not_blank; exact Hok | idtac]|]); try (intros fx rest Hs; apply delim_stops in Hs).
  - assert (Hdd : dec_digit d) by (inversion Hd; assumption). unfold dec_digit in Hdd. unfold is_blank. lia.
  - assert (Hdd : dec_digit d) by (inversion Hd; assumption). unfold dec_digit in Hdd.
    cbn [forallb] in Hw. apply andb_prop in Hw.
    rewrite step_digit by (first [apply Hw | exact Hs | unfold is_digit; lia]).
    unfold lex_unsigned_dec, strip_hash. replace (d =? 35) with false by lia. rewrite conv_unsigned by (assumption || lia). reflexivity.
  - rewrite step_hash by (assumption || discriminate). unfold lex_unsigned_dec, strip_hash. cbn [Z.eqb Pos.eqb].
    rewrite conv_unsigned by (assumption || lia). reflexivity.
  - rewrite step_minus by (assumption || discriminate). unfold lex_signed_dec, strip_hash. cbn [Z.eqb Pos.eqb].
    rewrite conv_signed by (assumption || lia). reflexivity.
  - rewrite step_hash_minus by assumption. unfold lex_signed_dec, strip_hash. cbn [Z.eqb Pos.eqb].
    rewrite conv_signed by (assumption || lia). reflexivity.
  - rewrite step_x_hex by (first [assumption | apply hex_digit_hexlike; exact Hd0]).
    unfold lex_unsigned_hex. rewrite Hok. rewrite conv_unsigned by (assumption || lia). reflexivity.
  - rewrite step_x_minus by assumption. unfold lex_signed_hex. rewrite Hok. rewrite conv_signed by (assumption || lia). reflexivity.
Qed.

Lemma register_res r ds : is_r r = true -> ds <> [] -> Forall dec_digit ds -> word_res (r :: ds) (reg_result (value_of 10 ds)).
Proof.
  intros Hr Hne Hd. destruct (is_r_ascii r Hr) as [_ Hb]. exists r, ds. split; [reflexivity|]. split; [exact Hb|].
  intros fx rest Hdl.
  rewrite step_reg by (first [assumption | apply dec_digits_is_digit; exact Hd | apply delim_stops; exact Hdl]).
  rewrite lex_reg_digits by assumption. reflexivity.
Qed.

Theorem lex_numeral nt ds : nt_ok nt -> ds <> [] -> Forall (nt_digit nt) ds ->
  lex (nt_prefix nt ++ ds) = one_token (nt_result nt (value_of (nt_radix nt) ds)) (byte_len (nt_prefix nt ++ ds)).
Proof. intros Hok Hne Hd. apply lex_word_res, numeral_res; assumption. Qed.

Lemma word_ok_numeral nt ds t : nt_ok nt -> ds <> [] -> Forall (nt_digit nt) ds ->
  nt_result nt (value_of (nt_radix nt) ds) = SOk t -> word_ok (nt_prefix nt ++ ds) t.
Proof. intros Hok Hne Hd Ht. apply word_ok_res. rewrite <- Ht. apply numeral_res; assumption. Qed.

Lemma word_ok_unsigned nt ds : nt_signed nt = false -> nt_ok nt -> ds <> [] -> Forall (nt_digit nt) ds ->
  value_of (nt_radix nt) ds <= 65535 -> word_ok (nt_prefix nt ++ ds) (TUnsigned (value_of (nt_radix nt) ds)).
Proof.
  intros Hsg Hok Hne Hd Hv. apply word_ok_numeral; try assumption.
  unfold nt_result, unsigned_result. rewrite Hsg. replace (_ <=? 65535) with true by lia. reflexivity.
Qed.
Lemma word_ok_signed nt ds : nt_signed nt = true -> nt_ok nt -> ds <> [] -> Forall (nt_digit nt) ds ->
  value_of (nt_radix nt) ds <= 32768 -> word_ok (nt_prefix nt ++ ds) (TSigned (- value_of (nt_radix nt) ds)).
Proof.
  intros Hsg Hok Hne Hd Hv. apply word_ok_numeral; try assumption.
  unfold nt_result, signed_result. rewrite Hsg. replace (_ <=? 32768) with true by lia. reflexivity.
Qed.

Lemma word_ok_reg_digits r ds : is_r r = true -> ds <> [] -> Forall dec_digit ds -> value_of 10 ds <= 7 ->
  word_ok (r :: ds) (TReg (value_of 10 ds)).
Proof.
  intros Hr Hne Hd Hv. apply word_ok_res.
  replace (SOk (TReg (value_of 10 ds))) with (reg_result (value_of 10 ds)); [apply register_res; assumption|].
  unfold reg_result. replace (_ <=? 7) with true by lia. reflexivity.
Qed.

Definition tok_of_off (v : Z) : token := if v <? 0 then TSigned v else TUnsigned v.

Lemma word_ok_spell nt up lz m t : nt_ok nt -> 0 <= m -> nt_result nt m = SOk t ->
  word_ok (nt_prefix nt ++ spell_mag (nt_radix nt) up lz m) t.
Proof.
  intros Hok Hm Ht. apply word_ok_numeral; [exact Hok|apply spell_mag_nonempty|apply spell_mag_digits; exact Hm|].
  rewrite spell_mag_value by (destruct nt; cbn [nt_radix]; lia). exact Ht.
Qed.

Lemma word_ok_off v : -32768 <= v <= 65535 -> word_ok (print_off v) (tok_of_off v).
Proof.
  intros Hv. unfold print_off, dec_str, tok_of_off. destruct (Z.ltb_spec v 0).
  - apply (word_ok_spell NHashMinus true 0 (- v)); [exact Logic.I|lia|].
    unfold nt_result, signed_result. cbn [nt_signed]. replace (- v <=? 32768) with true by lia.
    rewrite Z.opp_involutive. reflexivity.
  - apply (word_ok_spell NHash true 0 v); [exact Logic.I|lia|].
    unfold nt_result, unsigned_result. cbn [nt_signed]. replace (v <=? 65535) with true by lia. reflexivity.
Qed.

Lemma word_ok_reg r : reg_ok r = true -> word_ok (print_reg r) (TReg r).
Proof.
  intros Hr. assert (0 <= r <= 7) by (unfold reg_ok in Hr; lia). clear Hr. unfold print_reg, dec_str. replace (r <? 0) with false by lia.
  change (map (digit_char true) (nat_digits 10 r)) with (spell_mag 10 true 0 r).
  rewrite <- (spell_mag_value 10 true 0 r) at 2 by lia.
  apply word_ok_reg_digits; [reflexivity|apply spell_mag_nonempty|apply (spell_mag_digits NDec); lia|].
  rewrite spell_mag_value; lia.
Qed.

Lemma word_ok_hex w v : 0 <= v <= 65535 -> word_ok (120 :: hex_pad w v) (TUnsigned v).
Proof.
  intros Hv. apply (word_ok_spell (NHex 120) true (Nat.sub w (length (map (digit_char true) (nat_digits 16 v)))) v);
    [reflexivity|lia|].
  unfold nt_result, unsigned_result. cbn [nt_signed]. replace (v <=? 65535) with true by lia. reflexivity.
Qed.

Definition label_name_ok (name : str) : bool :=
  match name with
  | [] => false
  | c :: w =>
      is_alpha_us c && forallb is_word w
      && (negb (is_x c) || match w with [] => true | d :: _ => negb (is_dec d || is_hex_letter d) end)
      && (negb (is_r c) || negb (negb (is_nil w) && forallb is_dec w))
      && match ident_of name with ILabel _ => true | IKw _ => false end
  end.

(* after x comes the first of w (no hex digit by [ident_like], no '-' as a word character) or the delimiter *)
Lemma ident_res c w i : ident_like c w /\ forallb is_word w = true /\ ident_of (c :: w) = i ->
  word_res (c :: w) (SOk (TIdent i)).
Proof.
  intros ([Ha [Hx Hr]] & Hw & <-). exists c, w. split; [reflexivity|]. split; [apply not_blank_alpha; exact Ha|].
  intros fx rest Hd. pose proof (delim_stops rest Hd) as Hs. rewrite lex_step_alpha by exact Ha.
  cbn [byte_len]. rewrite (alpha_len c Ha).
  destruct (is_x c) eqn:Ex; [|destruct (is_r c) eqn:Er].
  - assert (Hnext : match w ++ rest with d :: _ => d <> 45 /\ is_dec d || is_hex_letter d = false | [] => True end).
    { specialize (Hx eq_refl). destruct w as [|d w']; cbn [app].
      - destruct rest as [|d r]; [trivial|]. apply delim_not_word in Hd. split; apply Hd.
      - split; [|exact Hx]. cbn [forallb] in Hw. apply andb_prop in Hw. destruct Hw as [Hwd _]. intros ->. discriminate. }
    destruct (w ++ rest) as [|d r1] eqn:E.
    + destruct w; [|discriminate]. cbn [app] in E. subst rest. reflexivity.
    + destruct Hnext as [H45 Hh]. neq_false d 45. rewrite Hh. rewrite <- E.
      apply (word_tok_exact (fun w => SOk (TIdent (ident_of w))) [c] 1); assumption.
  - rewrite span_word_exact by assumption. rewrite (Hr eq_refl). reflexivity.
  - apply (word_tok_exact (fun w => SOk (TIdent (ident_of w))) [c] 1); assumption.
Qed.

Lemma label_name_ok_iff c w : label_name_ok (c :: w) = true <->
  ident_like c w /\ forallb is_word w = true /\ ident_of (c :: w) = ILabel (c :: w).
Proof.
  unfold label_name_ok, ident_like. rewrite !andb_true_iff, !orb_true_iff, !negb_true_iff.
  assert (Hi : match ident_of (c :: w) with ILabel _ => true | IKw _ => false end = true <-> ident_of (c :: w) = ILabel (c :: w)).
  { unfold ident_of. destruct (assoc_str (kw_upper (c :: w)) kw_table); split; (reflexivity || discriminate). }
  rewrite Hi. destruct (is_x c), (is_r c), w as [|d w']; rewrite ?negb_true_iff; intuition congruence.
Qed.

Lemma word_ok_label name : label_name_ok name = true -> word_ok name (TIdent (ILabel name)).
Proof.
  destruct name as [|c w]; [discriminate|]. intros H. apply word_ok_res, ident_res, label_name_ok_iff, H.
Qed.

Definition kw_text_ok (x : str) (k : kw) : bool :=
  match x with
  | [] => false
  | c :: w =>
      is_alpha_us c && forallb is_word w && negb (is_x c)
      && (negb (is_r c) || negb (negb (is_nil w) && forallb is_dec w))
      && match ident_of x with IKw k' => kw_index k' =? kw_index k | ILabel _ => false end
  end.
Lemma kw_index_inj a b : kw_index a = kw_index b -> a = b.
Proof. destruct a, b; cbn; intros H; try reflexivity; discriminate. Qed.

Lemma kw_text_ok_like c w k : kw_text_ok (c :: w) k = true ->
  ident_like c w /\ forallb is_word w = true /\ ident_of (c :: w) = IKw k.
Proof.
  unfold kw_text_ok, ident_like. rewrite !andb_true_iff, !orb_true_iff, !negb_true_iff. intros ((((Ha & Hw) & Hx) & Hr) & Hk).
  split; [|split; [exact Hw|]].
  - split; [exact Ha|]. split; [congruence|]. intros Hrc. destruct Hr as [Hr|Hr]; congruence.
  - destruct (ident_of (c :: w)) as [k'|]; [|discriminate]. f_equal. apply kw_index_inj, Z.eqb_eq, Hk.
Qed.

Lemma word_ok_kw x k : kw_text_ok x k = true -> word_ok x (TIdent (IKw k)).
Proof.
  destruct x as [|c w]; [discriminate|]. intros H. apply word_ok_res, ident_res, kw_text_ok_like, H.
Qed.

Lemma word_ok_directive w : forallb is_word w = true -> word_ok (46 :: w) (TDirective w).
Proof.
  intros Hw. exists 46, w. split; [reflexivity|]. split; [reflexivity|].
  intros fx rest Hd. apply step_directive; [exact Hw|apply delim_stops; exact Hd].
Qed.
