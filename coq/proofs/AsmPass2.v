(* AsmPass2.v — pass 2 (`ObjectFile::new`) against the positional specification, after pass 1
   succeeded.  [I2]: after any prefix, block map and open block together hold exactly the cells the
   specification assigns, the map holds the non-empty closed blocks (sorted, disjoint), nothing
   pass 2 checks is violated so far; or the error names a violated condition. *)
From Coq Require Import ZArith List Bool Lia Permutation.
From Gen Require Import Constants.
From Model Require Import Tree Text Bits Instr Offset AsmAst Obj SourceInfo Assembler.
From Spec Require Import LayoutSpec WfSpec.
From Proofs Require Import ListFacts AsmBase AsmPass1 AsmBlocks.
Import ListNotations.
Open Scope Z_scope.

(* the lambdas of WfSpec.v_undet_stmt, v_not_found, v_external, v_offset *)
Definition f_undet (cs : pos * stmt) : bool := negb (inside (fst cs)) && needs_addr (snd cs).
Definition f_nf (bs : list binding) (cs : pos * stmt) : bool :=
  match operand_of (snd cs) with
  | Some (_, l) => match lookup (l_name l) bs with None => true | Some _ => false end
  | None => false
  end.
Definition f_ext (bs : list binding) (cs : pos * stmt) : bool :=
  match operand_of (snd cs) with
  | Some (n, l) => (0 <? n) && match lookup (l_name l) bs with Some b => b_ext b | None => false end
  | None => false
  end.
Definition f_off (n : Z) (bs : list binding) (cs : pos * stmt) : bool :=
  match fst cs, operand_of (snd cs) with
  | Some (_, a), Some (n', l) =>
      (0 <? n') && (n' =? n) &&
      match lookup (l_name l) bs with
      | Some b => negb (b_ext b) && match field_value n (b_addr b) a with None => true | Some _ => false end
      | None => false
      end
  | _, _ => false
  end.
Lemma v_undet_stmt_f p : v_undet_stmt p = existsb f_undet (placed p). Proof. reflexivity. Qed.
Lemma v_not_found_f p : v_not_found p = existsb (f_nf (bindings p)) (placed p). Proof. reflexivity. Qed.
Lemma v_external_f p : v_external p = existsb (f_ext (bindings p)) (placed p). Proof. reflexivity. Qed.
Lemma v_offset_f n p : v_offset n p = existsb (f_off n (bindings p)) (placed p). Proof. reflexivity. Qed.

Lemma rep_lookup L bs name : labels_rep L bs -> assoc (upper name) L = option_map sym_of (lookup name bs).
Proof. intros [_ R]. apply R. Qed.

Definition pc_operand (i : asm_instr) : option (Z * pcoff * (Z -> sim_instr)) :=
  match i with
  | ABR cc o => Some (9, o, SBR cc)
  | AJSR o => Some (11, o, fun v => SJSR (Imm v))
  | ALD dr o => Some (9, o, SLD dr)
  | ALDI dr o => Some (9, o, SLDI dr)
  | ALEA dr o => Some (9, o, SLEA dr)
  | AST sr o => Some (9, o, SST sr)
  | ASTI sr o => Some (9, o, SSTI sr)
  | ANOP o => Some (9, o, SBR 0)
  | _ => None
  end.
(* without PC-relative operand [expand] looks neither at bindings nor at the address *)
Lemma into_sim_pc i pc L :
  into_sim_instr i pc L =
  match pc_operand i with
  | Some (n, o, k) => abind (replace_pc_offset n o pc L) (fun v => AOk (k v))
  | None => AOk (expand [] 0 i)
  end.
Proof. destruct i; reflexivity. Qed.
Lemma expand_pc bs a i :
  expand bs a i = match pc_operand i with Some (n, o, k) => k (operand_value bs n o a) | None => expand [] 0 i end.
Proof. destruct i; reflexivity. Qed.
Lemma operand_of_instr s i : s_nucleus s = NInstr i ->
  operand_of s = match pc_operand i with Some (n, PLab l, _) => Some (n, l) | _ => None end.
Proof. intros E. unfold operand_of. rewrite E. destruct i as [| |? o| |o| |? o|? o| |? o| | | |? o|? o| | |o| | | | | | |]; try reflexivity; destruct o; reflexivity. Qed.
Lemma pc_operand_width i n o k : pc_operand i = Some (n, o, k) -> n = 9 \/ n = 11.
Proof. destruct i; cbn; intros H; try discriminate; injection H as <- _ _; auto. Qed.

Lemma operand_width s n l : operand_of s = Some (n, l) -> n = 0 \/ n = 9 \/ n = 11.
Proof.
  destruct (s_nucleus s) as [i|d] eqn:EN.
  - rewrite (operand_of_instr s i EN). destruct (pc_operand i) as [[[n' o] f]|] eqn:EP; [|discriminate].
    destruct o as [v|l']; [discriminate|]. intros [= <- _]. right. exact (pc_operand_width i n' _ f EP).
  - unfold operand_of. rewrite EN. destruct d as [a|[v|l']|m|t| |l']; try discriminate. intros [= <- _]. auto.
Qed.

(* a label operand makes one word, from the value it resolves to (width 0: .fill) *)
Definition operand_word (s : stmt) (v : Z) : Z :=
  match s_nucleus s with
  | NInstr i => match pc_operand i with Some (_, _, k) => encode (k v) | None => 0 end
  | NDir _ => v
  end.
Definition resolve (n : Z) (l : label) (pc : Z) (L : labmap) : ares Z :=
  if n =? 0 then match lookup_label_map L (l_name l) with Some a => AOk a | None => AErr CouldNotFindLabel [label_span l] end
  else replace_pc_offset n (PLab l) pc L.
Definition operand_val (bs : list binding) (a n : Z) (l : label) : Z :=
  if n =? 0 then label_addr bs l else match field_value n (label_addr bs l) a with Some f => f | None => 0 end.

Lemma emit_operand L s lc words :
  emit L s lc words =
  match operand_of s with
  | Some (n, l) => abind (resolve n l (wrap16 (lc + 1)) L) (fun v => AOk (words ++ [Some (operand_word s v)]))
  | None => AOk (words ++ stmt_words [] 0 s)
  end.
Proof.
  unfold emit, operand_word, stmt_words, resolve. destruct (s_nucleus s) as [i|d] eqn:EN.
  - rewrite into_sim_pc, (operand_of_instr s i EN), (expand_pc [] 0 i).
    destruct (pc_operand i) as [[[n o] k]|] eqn:EP; [|reflexivity]. destruct o as [v|l]; [reflexivity|].
    destruct (pc_operand_width i n _ k EP) as [-> | ->]; cbn [Z.eqb]; destruct (replace_pc_offset _ (PLab l) _ L); reflexivity.
  - unfold operand_of, write_directive, snoc. rewrite EN. destruct d as [a|[v|l]|m|t| |l]; rewrite ?app_nil_r, <- ?app_assoc; try reflexivity.
    cbn [Z.eqb]. destruct (lookup_label_map L (l_name l)); reflexivity.
Qed.
Lemma stmt_words_operand bs a s :
  stmt_words bs a s = match operand_of s with Some (n, l) => [Some (operand_word s (operand_val bs a n l))] | None => stmt_words [] 0 s end.
Proof.
  unfold stmt_words, operand_word, operand_val. destruct (s_nucleus s) as [i|d] eqn:EN.
  - rewrite (operand_of_instr s i EN), (expand_pc bs a i), (expand_pc [] 0 i). destruct (pc_operand i) as [[[n o] k]|] eqn:EP; [|reflexivity].
    destruct o as [v|l]; [reflexivity|]. destruct (pc_operand_width i n _ k EP) as [-> | ->]; reflexivity.
  - unfold operand_of. rewrite EN. destruct d as [a0|[v|l]|m|t| |l]; reflexivity.
Qed.
Lemma resolve_spec n l a L bs : n = 0 \/ n = 9 \/ n = 11 -> labels_rep L bs ->
  resolve n l (a + 1) L =
  match lookup (l_name l) bs with
  | None => AErr CouldNotFindLabel [label_span l]
  | Some b => if n =? 0 then AOk (b_addr b) else if b_ext b then AErr OffsetExternal [label_span l]
              else match field_value n (b_addr b) a with
                   | Some f => AOk f
                   | None => AErr (OffsetNewErr (CannotFitSigned n)) [label_span l]
                   end
  end.
Proof.
  intros Hn R. unfold resolve, lookup_label_map, replace_pc_offset. rewrite (rep_lookup L bs (l_name l) R).
  destruct (lookup (l_name l) bs) as [b|]; cbn [option_map sym_of sd_addr sd_external]; [|destruct (n =? 0); reflexivity].
  destruct Hn as [-> | Hn]; [reflexivity|]. replace (n =? 0) with false by (destruct Hn; subst n; reflexivity).
  destruct (b_ext b); [reflexivity|]. rewrite (new_s_field_value n (b_addr b) a Hn). destruct (field_value n (b_addr b) a); reflexivity.
Qed.

Definition ocells (b : oblock) : list (Z * option Z) := cells_from (ob_start b) (ob_words b).
Definition mcells (m : blockmap) : list (Z * option Z) := flat_map (fun kb => ocells (snd kb)) m.
Definition open_cells (cur : option (Z * oblock)) : list (Z * option Z) :=
  match cur with Some (_, blk) => ocells blk | None => [] end.

Definition f_any (bs : list binding) (cs : pos * stmt) : bool :=
  f_undet cs || f_nf bs cs || f_ext bs cs || f_off 9 bs cs || f_off 11 bs cs.

(* last conjunct: a block may be opened anywhere; the I/O limit is checked only when words are added *)
Definition cur2_rel (cur : option (Z * oblock)) (c : pos) : Prop :=
  match cur, c with
  | None, None => True
  | Some (lc, blk), Some (o, a) =>
      lc = a /\ ob_start blk = o /\ len (ob_words blk) = a - o /\ 0 <= o < 65536 /\ (a = o \/ a <= asm.IO_START)
  | _, _ => False
  end.

Definition nonempty (x : Z * Z) : bool := fst x <? snd x.

(* the block map against the closed blocks so far (ranges, program order): its entries are the
   non-empty ones, and no two of them overlap *)
Definition holds (m : blockmap) (bl : list (Z * Z)) : Prop :=
  map_inv m /\ Permutation (map (fun kb => rng (snd kb)) m) (filter nonempty bl) /\ any_pair overlap bl = false.

Record I2 (bs : list binding) (pre : list stmt) (st : p2) : Prop := mkI2 {
  i2_cur : cur2_rel (p2_cur st) (final None pre);
  i2_blocks : holds (p2_map st) (blocks pre);
  i2_cells : Permutation (mcells (p2_map st) ++ open_cells (p2_cur st)) (flat_map (cells_of bs) (placed pre));
  i2_flags : existsb (f_any bs) (placed pre) = false }.

Lemma blocks_snoc pre s :
  blocks (pre ++ [s]) = blocks pre ++ match final None pre with Some oe => if is_end s then [oe] else [] | None => [] end.
Proof. unfold blocks. apply flat_map_placed_snoc. Qed.

Lemma any_pair_snoc {A} (f : A -> A -> bool) l x : any_pair f (l ++ [x]) = any_pair f l || existsb (fun y => f y x) l.
Proof.
  induction l as [|a l IH]; cbn [any_pair app existsb]; [reflexivity|].
  rewrite IH, existsb_snoc. destruct (existsb (f a) l); destruct (f a x); destruct (any_pair f l); reflexivity.
Qed.
Lemma any_pair_app_true {A} (f : A -> A -> bool) l l' : any_pair f l = true -> any_pair f (l ++ l') = true.
Proof.
  induction l as [|a l IH]; cbn [any_pair app]; [discriminate|]. intros H. apply orb_prop in H. destruct H as [H|H].
  - rewrite existsb_app, H. reflexivity.
  - rewrite (IH H). apply orb_true_r.
Qed.
Lemma v_overlap_mono pre r : v_overlap pre = true -> v_overlap (pre ++ r) = true.
Proof. unfold v_overlap, blocks. rewrite placed_app, flat_map_app. apply any_pair_app_true. Qed.

Lemma len_stmt_words bs a s : typed_stmt s = true -> len (stmt_words bs a s) = size s.
Proof.
  unfold typed_stmt, stmt_words, size. destruct (s_nucleus s) as [i|[a0|[v|l]|n|t| |l]]; intros T; try reflexivity.
  - rewrite len_repeat. lia.
  - rewrite len_app, len_map. unfold len at 1. rewrite length_utf8_bytes. reflexivity.
Qed.

Lemma f_any_nonaddr bs c s : needs_addr s = false -> f_any bs (c, s) = false.
Proof.
  unfold f_any, f_undet, f_nf, f_ext, f_off, needs_addr, operand_of. cbn [fst snd].
  destruct (s_nucleus s) as [i|[a0|o|n|t| |l]]; intros H; try discriminate; destruct c as [[? ?]|]; reflexivity.
Qed.

Lemma I2_append bs pre s st o a lc blk :
  I2 bs pre st -> p2_cur st = Some (lc, blk) -> final None pre = Some (o, a) ->
  needs_addr s = true -> len (stmt_words bs a s) = size s ->
  (a + size s = o \/ a + size s <= asm.IO_START) ->
  f_any bs (Some (o, a), s) = false ->
  I2 bs (pre ++ [s]) (mkP2 (p2_map st) (Some (a + size s, mkOB (ob_start blk) (ob_words blk ++ stmt_words bs a s) (ob_span blk)))).
Proof.
  intros [CU HB CE FL] EC EF NA LW BD FA.
  rewrite EC, EF in CU. destruct CU as [U1 [U2 [U3 [U4 U5]]]].
  constructor; cbn [p2_cur p2_map].
  - rewrite final_snoc, EF, (next_addr _ s NA). cbn [cur2_rel ob_start ob_words]. rewrite len_app, LW, U3.
    split; [reflexivity|]. split; [exact U2|]. split; [lia|]. split; [exact U4 | exact BD].
  - rewrite blocks_snoc, EF, (needs_addr_not_end s NA), app_nil_r. exact HB.
  - rewrite flat_map_placed_snoc, EF. unfold cells_of. cbn [fst snd open_cells]. unfold ocells. cbn [ob_start ob_words].
    rewrite cells_from_app, app_assoc, U2, U3. replace (o + (a - o)) with a by lia.
    apply Permutation_app_tail. rewrite EC in CE. unfold open_cells, ocells in CE. rewrite U2 in CE. exact CE.
  - apply (v_snoc_false _ _ _ FL). rewrite EF. exact FA.
Qed.

Lemma I2_external bs pre s st l : I2 bs pre st -> s_nucleus s = NDir (DExternal l) -> I2 bs (pre ++ [s]) st.
Proof.
  intros [CU HB CE FL] EN.
  assert (FN : final None (pre ++ [s]) = final None pre).
  { rewrite final_snoc. unfold next, size. rewrite EN. destruct (final None pre) as [[o a]|]; [rewrite Z.add_0_r|]; reflexivity. }
  assert (BS : blocks (pre ++ [s]) = blocks pre).
  { rewrite blocks_snoc. unfold is_end. rewrite EN. destruct (final None pre); apply app_nil_r. }
  constructor.
  - rewrite FN. exact CU.
  - rewrite BS. exact HB.
  - rewrite flat_map_placed_snoc. unfold cells_of at 2, stmt_words. cbn [fst snd]. rewrite EN.
    destruct (final None pre) as [[o a]|]; cbn [cells_from]; rewrite app_nil_r; exact CE.
  - apply (v_snoc_false _ _ _ FL), f_any_nonaddr. unfold needs_addr. rewrite EN. reflexivity.
Qed.

Lemma I2_orig bs pre s st a :
  I2 bs pre st -> p2_cur st = None -> final None pre = None ->
  s_nucleus s = NDir (DOrig a) -> 0 <= a < 65536 ->
  I2 bs (pre ++ [s]) (mkP2 (p2_map st) (Some (a, mkOB a [] (stmt_span s)))).
Proof.
  intros [CU HB CE FL] EC EF EN Ha.
  constructor; cbn [p2_cur p2_map].
  - rewrite final_snoc, (is_orig_next _ s a EN). cbn [cur2_rel ob_start ob_words]. unfold len. cbn [length].
    split; [reflexivity|]. split; [reflexivity|]. split; [lia|]. split; [exact Ha | left; reflexivity].
  - rewrite blocks_snoc, EF, app_nil_r. exact HB.
  - rewrite flat_map_placed_snoc, EF. rewrite EC in CE. cbn [open_cells cells_of fst] in *. unfold ocells. cbn [ob_words cells_from].
    rewrite !app_nil_r in *. exact CE.
  - apply (v_snoc_false _ _ _ FL), f_any_nonaddr. unfold needs_addr. rewrite EN. reflexivity.
Qed.

Lemma overlap_rng (x y : Z * Z) : overlap x y = (fst x <? snd x) && (fst y <? snd y) && ranges_overlap y x.
Proof.
  unfold overlap, ranges_overlap.
  destruct (fst x <? snd x); destruct (fst y <? snd y); destruct (fst x <? snd y); destruct (fst y <? snd x); reflexivity.
Qed.

Lemma no_overlap_empty l x : nonempty x = false -> existsb (fun y => overlap y x) l = false.
Proof.
  intros E. induction l as [|y l IH]; [reflexivity|]. cbn [existsb]. rewrite IH, orb_false_r, overlap_rng. unfold nonempty in E.
  rewrite E, andb_false_r. reflexivity.
Qed.

(* the neighbour check on the sorted map decides [any_pair overlap] of the blocks in program order *)
Lemma end_holds L st s lc blk bl :
  s_nucleus s = NDir DEnd -> p2_cur st = Some (lc, blk) -> holds (p2_map st) bl ->
  0 <= ob_start blk -> (ob_words blk <> [] -> ob_start blk + len (ob_words blk) <= asm.IO_START) ->
  post (p2_step L st s)
    (fun st' => p2_cur st' = None /\ holds (p2_map st') (bl ++ [rng blk])
                /\ Permutation (mcells (p2_map st')) (mcells (p2_map st) ++ ocells blk))
    (fun k _ => k = OverlappingBlocks /\ any_pair overlap (bl ++ [rng blk]) = true) False.
Proof.
  intros EN EC [MI [MR NV]] B0 B1. unfold p2_step. rewrite EN, EC. fold (neighbours blk (p2_map st)).
  unfold holds. rewrite any_pair_snoc, NV, filter_app. cbn [orb filter]. unfold ocells.
  destruct (ob_words blk) as [|w ws] eqn:EW; cbn [post p2_cur p2_map].
  - assert (E : nonempty (rng blk) = false) by (unfold nonempty, rng; rewrite EW; cbn [fst snd]; apply Z.ltb_ge; unfold len; cbn; lia).
    cbn [cells_from]. rewrite E, !app_nil_r, (no_overlap_empty _ _ E). split; [reflexivity|]. split; [split; [exact MI | split; [exact MR | reflexivity]] | apply Permutation_refl].
  - rewrite <- EW in *.
    assert (NEW : ob_words blk <> []) by (rewrite EW; discriminate).
    pose proof (len_pos _ NEW) as LP. specialize (B1 NEW).
    assert (BO : block_ok blk) by (split; [exact NEW | split; assumption]).
    assert (E : nonempty (rng blk) = true) by (apply Z.ltb_lt; cbn; lia).
    pose proof MI as [S [OK DJ]]. rewrite E.
    (* the neighbours are map entries: their ranges are defined *)
    rewrite (find_overlap_find blk (neighbours blk (p2_map st)) BO)
      by (intros k b Hb; apply neighbours_in in Hb; exact (proj2 (OK k b Hb))).
    destruct (find _ (neighbours blk (p2_map st))) as [[k other]|] eqn:F; cbn [option_map snd abind post p2_cur p2_map].
    + apply find_some in F. destruct F as [Hk OV]. apply neighbours_in in Hk. cbn [snd] in OV. split; [reflexivity|].
      pose proof (Permutation_in _ MR (in_map (fun kb => rng (snd kb)) _ _ Hk)) as Ho. apply filter_In in Ho. destruct Ho as [Ho NEo].
      apply (existsb_in _ _ (rng other) Ho). rewrite overlap_rng. cbn [snd] in NEo. unfold nonempty in NEo, E. rewrite NEo, E, OV. reflexivity.
    + assert (FO' : forall k b, In (k, b) (neighbours blk (p2_map st)) -> ranges_overlap (rng blk) (rng b) = false)
        by (intros k b Hb; exact (find_none _ _ F _ Hb)).
      pose proof (neighbour_check_complete blk (p2_map st) MI BO FO') as NC.
      destruct (map_inv_insert blk (p2_map st) MI BO NC) as [MI' PI].
      split; [reflexivity|]. split; [split; [exact MI'|]; split|].
      * apply (perm_trans (Permutation_map _ PI)). cbn [map snd]. apply (perm_trans (perm_skip _ MR)). apply Permutation_cons_append.
      * destruct (existsb (fun y => overlap y (rng blk)) bl) eqn:EX; [exfalso|reflexivity].
        apply existsb_exists in EX. destruct EX as [y [Hy Oy]]. rewrite overlap_rng in Oy.
        apply andb_prop in Oy. destruct Oy as [Oy O3]. apply andb_prop in Oy. destruct Oy as [O1 _].
        assert (Hm : In y (map (fun kb => rng (snd kb)) (p2_map st))) by (apply (Permutation_in _ (Permutation_sym MR)); apply filter_In; split; assumption).
        apply in_map_iff in Hm. destruct Hm as [[k b] [Eb Hb]]. cbn [snd] in Eb. rewrite <- Eb, (NC k b Hb) in O3. discriminate O3.
      * apply perm_trans with (mcells ((ob_start blk, blk) :: p2_map st)); [apply Permutation_flat_map; exact PI|].
        apply Permutation_app_comm.
Qed.

Lemma I2_end L bs pre s st lc blk o a :
  I2 bs pre st -> p2_cur st = Some (lc, blk) -> final None pre = Some (o, a) ->
  s_nucleus s = NDir DEnd ->
  post (p2_step L st s) (I2 bs (pre ++ [s])) (fun k _ => k = OverlappingBlocks /\ v_overlap (pre ++ [s]) = true) False.
Proof.
  intros [CU HB CE FL] EC EF EN. rewrite EC, EF in CU. destruct CU as [-> [U2 [U3 [U4 U5]]]].
  assert (BS : blocks (pre ++ [s]) = blocks pre ++ [rng blk]).
  { rewrite blocks_snoc, EF. unfold is_end, rng. rewrite EN, U2, U3. do 3 f_equal. lia. }
  assert (B1 : ob_words blk <> [] -> ob_start blk + len (ob_words blk) <= asm.IO_START) by (intros NEW; pose proof (len_pos _ NEW); lia).
  generalize (end_holds L st s a blk (blocks pre) EN EC HB ltac:(lia) B1). unfold v_overlap. rewrite BS.
  apply post_mono; [|auto|auto]. intros st' [EC' [HB' PC]]. constructor; [| rewrite BS; exact HB' | |].
  - rewrite final_snoc, EC'. unfold next. rewrite EN. exact Logic.I.
  - rewrite flat_map_placed_snoc, EF, EC'. unfold cells_of at 2, stmt_words. cbn [fst snd open_cells]. rewrite EN. cbn [cells_from].
    rewrite !app_nil_r. rewrite EC in CE. exact (perm_trans PC CE).
  - apply (v_snoc_false _ _ _ FL), f_any_nonaddr. unfold needs_addr. rewrite EN. reflexivity.
Qed.

Lemma f_any_true_violated p c s : In (c, s) (placed p) -> f_any (bindings p) (c, s) = true ->
  v_undet_stmt p = true \/ v_not_found p = true \/ v_external p = true \/ v_offset 9 p = true \/ v_offset 11 p = true.
Proof.
  intros Hin H. unfold f_any in H.
  rewrite v_undet_stmt_f, v_not_found_f, v_external_f, !v_offset_f.
  repeat (apply orb_prop in H; destruct H as [H|H]);
    [left | right; left | right; right; left | right; right; right; left | right; right; right; right];
    apply existsb_exists; exists (c, s); split; assumption.
Qed.

Lemma emit_spec L bs s o a words :
  labels_rep L bs -> 0 <= a ->
  (0 <? size s) && (asm.IO_START <? a + size s) = false ->
  let cs := (Some (o, a), s) in
  post (emit L s a words)
    (fun w' => w' = words ++ stmt_words bs a s /\ f_any bs cs = false)
    (fun k _ => (k = CouldNotFindLabel /\ f_nf bs cs = true)
                \/ (k = OffsetExternal /\ f_ext bs cs = true)
                \/ (exists n, k = OffsetNewErr (CannotFitSigned n) /\ f_off n bs cs = true))
    False.
Proof.
  intros R Ha KIO cs. rewrite emit_operand, (stmt_words_operand bs a s).
  unfold f_any, f_undet, f_nf, f_ext, f_off, cs, operand_val, label_addr. cbn [fst snd inside negb andb orb]. clear cs.
  destruct (operand_of s) as [[n l]|] eqn:EO; [|split; reflexivity].
  assert (SZ : size s = 1) by (unfold operand_of in EO; unfold size; destruct (s_nucleus s) as [i|[?|?|?|?| |?]]; try reflexivity; discriminate EO).
  rewrite SZ in KIO. unfold asm.IO_START in KIO. rewrite wrap16_small, (resolve_spec n l a L bs (operand_width s n l EO) R) by lia.
  destruct (lookup (l_name l) bs) as [b|]; [|left; split; reflexivity].
  destruct (operand_width s n l EO) as [-> | Hn].
  - (* .fill LABEL asks only that the label is defined *)
    split; reflexivity.
  - replace (n =? 0) with false by (destruct Hn; subst n; reflexivity).
    replace (0 <? n) with true by (destruct Hn; subst n; reflexivity). cbn [andb abind].
    destruct (b_ext b); [right; left; split; reflexivity|]. cbn [negb andb].
    (* not external: in reach, no flag; out of reach, the flag of its width *)
    destruct Hn as [-> | ->]; cbn [Z.eqb Pos.eqb andb]; destruct (field_value _ (b_addr b) a) eqn:F; cbn [abind post orb].
    1,3: split; reflexivity.
    all: right; right; eexists; split; [reflexivity|]; cbn [Z.ltb Z.eqb Z.compare Pos.eqb andb negb]; rewrite F; reflexivity.
Qed.

Lemma p2_step_inv p L pre s suf st :
  p = pre ++ s :: suf -> typed p = true -> P1ok p L -> I2 (bindings p) pre st ->
  post (p2_step L st s) (I2 (bindings p) (pre ++ [s])) (fun k _ => violated p k = true) False.
Proof.
  intros EP T [_ R _ _ VU VN VIO] HI. set (bs := bindings p) in *. set (c := final None pre).
  assert (K1 : In (c, s) (placed p)) by (rewrite EP; apply placed_in).
  assert (Ts : typed_stmt s = true) by (apply (typed_in p); [exact T | rewrite EP; apply in_elt]).
  pose proof (existsb_false_in _ _ _ VN K1) as KN. pose proof (existsb_false_in _ _ _ VU K1) as KU.
  pose proof (existsb_false_in _ _ _ VIO K1) as KIO. cbn [fst snd] in KN, KU, KIO.
  pose proof (i2_cur _ _ _ HI) as CU. fold c in CU.
  destruct (needs_addr s) eqn:NA.
  - rewrite (p2_step_emit L st s NA), (stmt_len_size s Ts).
    destruct (p2_cur st) as [[lc blk]|] eqn:ECU; destruct c as [[o a]|] eqn:EC; try contradiction.
    + destruct CU as [-> [U2 [U3 [U4 U5]]]]. pose proof (size_bounds s Ts) as SB. pose proof (len_nonneg (ob_words blk)) as LNN.
      assert (B : a + size s = o \/ a + size s <= asm.IO_START).
      { unfold asm.IO_START in *. destruct (0 <? size s) eqn:X0; [|lia]. destruct (65024 <? a + size s) eqn:X; [discriminate KIO | lia]. }
      apply (post_seq (emit_spec L bs s o a (ob_words blk) R ltac:(lia) KIO)).
      * intros k _ [[-> F]|[[-> F]|[n [-> F]]]]; exact (existsb_in _ _ _ K1 F).
      * intros w' [-> FA]. cbn [post]. rewrite wrap16_small by (unfold asm.IO_START in B; lia).
        exact (I2_append bs pre s st o a a blk HI ECU EC NA (len_stmt_words bs a s Ts) B FA).
    + cbn [post violated]. unfold v_undet_stmt. apply (existsb_in _ _ _ K1). cbn [fst snd inside negb andb]. exact NA.
  - unfold needs_addr in NA. destruct (s_nucleus s) as [i|[a0|o1|n|t| |l]] eqn:EN; try discriminate NA.
    + assert (IO : is_orig s = true) by (unfold is_orig; rewrite EN; reflexivity).
      rewrite IO, andb_true_r in KN. destruct c as [[o a]|] eqn:EC; [discriminate KN|].
      destruct (p2_cur st) as [[lc blk]|] eqn:ECU; [contradiction|]. unfold p2_step. rewrite EN, ECU. cbn [post].
      apply I2_orig; try assumption. unfold typed_stmt in Ts. rewrite EN in Ts. lia.
    + assert (IE : is_end s = true) by (unfold is_end; rewrite EN; reflexivity).
      rewrite IE, andb_true_r in KU. destruct c as [[o a]|] eqn:EC; [|discriminate KU].
      destruct (p2_cur st) as [[lc blk]|] eqn:ECU; [|contradiction].
      generalize (I2_end L bs pre s st lc blk o a HI ECU EC EN). apply post_mono; [auto | | auto].
      intros k _ [-> OV]. cbn [violated]. rewrite EP, (app_cons_snoc pre s suf).
      apply v_overlap_mono. exact OV.
    + unfold p2_step. rewrite EN. cbn [post]. exact (I2_external bs pre s st l HI EN).
Qed.

Lemma I2_init bs : I2 bs [] (mkP2 [] None).
Proof.
  constructor; cbn; try reflexivity; try exact Logic.I.
  split; [|split; reflexivity]. split; [constructor|]. split; intros; contradiction.
Qed.

Lemma pass2_spec p L rel dbg debug : typed p = true -> P1ok p L ->
  post (pass2 p (mkSymtab L rel dbg) debug)
    (fun o => exists st, I2 (bindings p) p st /\ o_blocks o = map (fun kb => (fst kb, ob_words (snd kb))) (p2_map st))
    (fun k _ => violated p k = true) False.
Proof.
  intros T OK. unfold pass2. cbn [st_labels]. apply (post_bind _ _ (I2 (bindings p) p)).
  - rewrite p2_loop_afold. apply (afold_inv _ (I2 (bindings p))); [|apply I2_init].
    intros pre s r st EP HI. exact (p2_step_inv p L pre s r st EP T OK HI).
  - intros st HI. cbn [post o_blocks]. exists st. split; [exact HI | reflexivity].
Qed.

