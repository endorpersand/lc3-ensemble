(* ObjBinReadProofs.v — C19 for the binary reader (model/ObjBin.v): one postcondition, [deser_bin_post],
   says that deser_bin never returns RPanic (nor runs out of fuel) on any list of integers, and that on
   a list of bytes the object it returns has [blocks_ok] and [sym_checked] ([pipe_ok] but for [src_fits]). *)
From Coq Require Import ZArith List Bool Lia.
From Model Require Import Tree Text Obj ObjBin ObjPipeline.
From Proofs Require Import ListFacts ObjBytesProofs ObjMaps ObjPipelineProofs.
Import ListNotations.
Open Scope Z_scope.

Definition tail_of (bs r : list Z) : Prop := exists l, bs = l ++ r.
Lemma tail_of_refl bs : tail_of bs bs.
Proof. exists []. reflexivity. Qed.
Lemma tail_of_app b0 l r : tail_of b0 (l ++ r) -> tail_of b0 r.
Proof. intros [l0 E]. exists (l0 ++ l). rewrite <- app_assoc. exact E. Qed.
Lemma tail_of_length bs r : tail_of bs r -> (List.length r <= List.length bs)%nat.
Proof. intros [l ->]. rewrite app_length. lia. Qed.
Lemma tail_of_bytes bs r : tail_of bs r -> Forall is_byte bs -> Forall is_byte r.
Proof. intros [l ->] H. apply Forall_app in H. apply H. Qed.

Lemma from_le_bound l : Forall is_byte l -> 0 <= from_le l < 256 ^ len l.
Proof.
  induction 1 as [|b l Hb _ IH]; [cbn; lia|]. unfold is_byte in Hb. cbn [from_le].
  rewrite len_cons, Z.pow_add_r, Z.pow_1_r by (try apply len_nonneg; lia). lia.
Qed.
(* the tail is handed on as a function on tails of any [b0], so that nested reads compose by [auto] *)
Lemma take_int_then {B} n bs (R : B -> Prop) (g : Z -> list Z -> rd B) :
  (forall v r, (forall b0, tail_of b0 bs -> tail_of b0 r) -> (Forall is_byte bs -> 0 <= v < 256 ^ n) -> rd_post R (g v r)) ->
  rd_post R (rd_bind (take_int n bs) (fun '(v, r) => g v r)).
Proof.
  intro H. rewrite take_int_eq. destruct (take_slice n bs) as [[l r]|] eqn:E; [|exact Logic.I]. apply take_slice_some in E. destruct E as [-> <-].
  apply H; [intros b0; apply tail_of_app|]. intro Hb. apply Forall_app in Hb. apply from_le_bound. apply Hb.
Qed.
Lemma take_slice_then {B} n bs (R : B -> Prop) (g : list Z -> list Z -> rd B) :
  (forall l r, (forall b0, tail_of b0 bs -> tail_of b0 r) -> len l = n -> rd_post R (g l r)) ->
  rd_post R (rd_bind (of_opt (take_slice n bs)) (fun '(l, r) => g l r)).
Proof.
  intro H. destruct (take_slice n bs) as [[l r]|] eqn:E; [|exact Logic.I]. apply take_slice_some in E. destruct E as [-> E].
  apply H; [|exact E]. intros b0. apply tail_of_app.
Qed.
Lemma utf8_then {B} raw (R : B -> Prop) (g : str -> rd B) :
  (forall s, rd_post R (g s)) -> rd_post R (rd_bind (of_opt (utf8_decode raw)) g).
Proof. intro H. destruct (utf8_decode raw); [apply H|exact Logic.I]. Qed.

(* map_chunks::<_, N> asserts that the length is a multiple of N: it is, being N * dlen *)
Lemma chunks3_post k : forall l, List.length l = (3 * k)%nat -> rd_post (fun ws => List.length ws = k) (chunks3 l).
Proof.
  induction k as [|k IH]; intros l H.
  - destruct l; [reflexivity|discriminate].
  - destruct l as [|a [|b [|c r]]]; try (cbn in H; lia). cbn [chunks3].
    eapply rd_post_bind; [apply IH; cbn [List.length] in H; lia|]. intros ws Hw. cbn [rd_post List.length] in *. lia.
Qed.
Lemma chunks2_post k : forall l, List.length l = (2 * k)%nat -> rd_post (fun _ => True) (chunks2 l).
Proof.
  induction k as [|k IH]; intros l H.
  - destruct l; [exact Logic.I|discriminate].
  - destruct l as [|a [|b r]]; try (cbn in H; lia). cbn [chunks2].
    eapply rd_post_bind; [apply IH; cbn [List.length] in H; lia|]. intros; exact Logic.I.
Qed.

(* a start address is two bytes, a block length two bytes: hence 16 bits when the input is bytes *)
Lemma parse_chunk_post id body st :
  rd_post (fun rs => tail_of body (fst rs) /\
                     (Forall is_byte body -> blocks_ok (b_blocks st) = true -> blocks_ok (b_blocks (snd rs)) = true))
          (parse_chunk id body st).
Proof.
  pose proof (tail_of_refl body) as T. unfold parse_chunk.
  destruct (id =? 0).
  { apply take_int_then. intros addr b1 T1 B1. apply take_int_then. intros dlen b2 T2 B2.
    apply take_slice_then. intros raw b3 T3 L3. pose proof (len_nonneg raw) as Hraw.
    eapply rd_post_bind; [apply (chunks3_post (Z.to_nat dlen)); unfold len in *; lia|]. intros data Hd.
    cbn [rd_post fst snd b_blocks]. split; [auto|]. intros Hb Hok.
    specialize (B1 Hb). specialize (B2 (tail_of_bytes _ _ (T1 _ T) Hb)). change (256 ^ 2) with 65536 in *.
    apply blocks_ok_insert; [lia|unfold len; rewrite Hd; lia|exact Hok]. }
  destruct (id =? 1).
  { apply take_int_then. intros addr b1 T1 _. apply take_int_then. intros ext b2 T2 _.
    apply take_int_then. intros src_start b3 T3 _. apply take_int_then. intros slen b4 T4 _.
    apply take_slice_then. intros raw b5 T5 _. apply utf8_then. intros name.
    cbn [rd_post fst snd b_blocks]. split; [auto 7|]. intros _ Hok. exact Hok. }
  destruct (id =? 2).
  { destruct (dbg_or_default (b_dbg st)) as [lm src].
    apply take_int_then. intros lno b1 T1 _. apply take_int_then. intros dlen b2 T2 _.
    apply take_slice_then. intros raw b3 T3 L3. pose proof (len_nonneg raw) as Hraw.
    eapply rd_post_bind; [apply (chunks2_post (Z.to_nat dlen)); unfold len in *; lia|]. intros data _.
    destruct (strictly_sorted data); [|exact Logic.I].
    cbn [rd_post fst snd b_blocks]. split; [auto|]. intros _ Hok. exact Hok. }
  destruct (id =? 3).
  { destruct (dbg_or_default (b_dbg st)) as [lm src].
    apply take_int_then. intros slen b1 T1 _. apply take_slice_then. intros raw b2 T2 _. apply utf8_then. intros s.
    cbn [rd_post fst snd b_blocks]. split; [auto|]. intros _ Hok. exact Hok. }
  destruct (id =? 4).
  { apply take_int_then. intros addr b1 T1 _. apply take_int_then. intros slen b2 T2 _.
    apply take_slice_then. intros raw b3 T3 _. apply utf8_then. intros name.
    cbn [rd_post fst snd b_blocks]. split; [auto|]. intros _ Hok. exact Hok. }
  exact Logic.I.
Qed.

Lemma chunk_loop_post fuel : forall bs st, (List.length bs <= fuel)%nat ->
  rd_post (fun st' => Forall is_byte bs -> blocks_ok (b_blocks st) = true -> blocks_ok (b_blocks st') = true)
          (chunk_loop fuel bs st).
Proof.
  induction fuel as [|f IH]; intros bs st Hl; destruct bs as [|id body]; try (intros _ H; exact H); [cbn in Hl; lia|].
  cbn [chunk_loop]. eapply rd_post_bind; [apply parse_chunk_post|]. intros [rest st1] [T Hinv]. cbn [fst snd] in *.
  eapply rd_post_impl; [apply IH; apply tail_of_length in T; cbn [List.length] in Hl; lia|].
  intros st' H Hb Hok. inversion Hb; subst. apply H; [eapply tail_of_bytes; eassumption|apply Hinv; assumption].
Qed.

Lemma strip_prefix_bytes p : forall bs r, strip_prefix p bs = Some r -> Forall is_byte bs -> Forall is_byte r.
Proof.
  induction p as [|x p IH]; intros bs r H Hb; [inversion H; subst; exact Hb|].
  destruct bs as [|y bs]; [discriminate|]. cbn [strip_prefix] in H. destruct (x =? y); [|discriminate].
  inversion Hb; subst. eapply IH; eassumption.
Qed.

Theorem deser_bin_post bs :
  rd_post (fun o => (Forall is_byte bs -> blocks_ok (o_blocks o) = true) /\ sym_checked o) (deser_bin bs).
Proof.
  unfold deser_bin.
  destruct (strip_prefix BFMT_MAGIC bs) as [bs1|] eqn:E1; [|exact Logic.I].
  destruct (strip_prefix BFMT_VER bs1) as [bs2|] eqn:E2; [|exact Logic.I].
  eapply rd_post_bind; [apply (chunk_loop_post (List.length bs2)); apply le_n|]. intros st Hst.
  eapply rd_post_impl; [apply (read_tail_post lsm_from_blocks); exact lsm_from_blocks_post|].
  intros o [Eb Hc]. split; [|exact Hc]. intro Hb. rewrite Eb. apply Hst; [|reflexivity].
  exact (strip_prefix_bytes _ _ _ E2 (strip_prefix_bytes _ _ _ E1 Hb)).
Qed.
