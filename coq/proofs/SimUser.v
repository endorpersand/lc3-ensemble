(* SimUser.v — C09 for whole instructions and for the fetch: in user mode with privilege checks on, every instruction
   other than TRAP keeps [U s0]: still user mode, and memory outside user space, devices, saved SP, MCR and
   internal-register mappings are those of s0; on error paths too, since the state is returned on every path.  The
   fetch is [fetch_exec], the second half of [step_inner] (not of [step]). *)
From Coq Require Import ZArith List Bool Lia.
From Gen Require Import Constants.
From Model Require Import Tree Bits Word Instr Sim.
From Proofs Require Import PsrBits SimHoare SimAccess IrqProofs.
Import ListNotations.
Open Scope Z_scope.

Definition U (s0 s : sim) : Prop :=
  32768 <= s_psr s < 65536 /\ s_flags s = s_flags s0 /\ fl_ignore_priv (s_flags s0) = false
  /\ (forall a, 0 <= a -> in_user a = false -> mget (s_mem s) a = mget (s_mem s0) a)
  /\ s_devs s = s_devs s0 /\ s_saved_sp s = s_saved_sp s0 /\ s_mcr s = s_mcr s0 /\ s_ireg s = s_ireg s0.

Lemma user_psr_not_priv p : 32768 <= p < 65536 -> psr_privileged p = false.
Proof. intros H. rewrite psr_privileged_lt by lia. apply Z.ltb_ge. lia. Qed.
Lemma U_user s0 s : U s0 s -> user_mode s.
Proof. intros (P & F & I & _). split; [exact (user_psr_not_priv _ P)|rewrite F; exact I]. Qed.
Lemma U_ctx s0 s : U s0 s -> c_priv (default_ctx s) = false.
Proof. intros H. exact (user_ctx s (U_user s0 s H)). Qed.

Ltac Usplit := repeat match goal with |- _ /\ _ => split end; try assumption.

Lemma inv_U_read e a c s0 : c_priv c = false -> inv (U s0) (read_mem e a c).
Proof.
  intros P. unfold inv. intros s H. destruct (in_user a) eqn:Ua.
  - rewrite (read_user e a c s P Ua). cbn [fst]. destruct (c_track c); exact H.
  - rewrite (read_denied e a c s P Ua). exact H.
Qed.
Lemma inv_U_write e a w c s0 : c_priv c = false -> inv (U s0) (write_mem e a w c).
Proof.
  intros P. unfold inv. intros s H. destruct (in_user a) eqn:Ua.
  - destruct (write_user e a w c s P Ua) as (s' & E & R & PC & PS & D & SS & M & Mem). rewrite E. cbn [fst].
    destruct H as ([H1a H1b] & H2 & H3 & H4 & H5 & H6 & H7 & H8).
    pose proof (write_mem_kept _ _ _ _ _ _ _ E) as K.
    unfold U. rewrite PS, (kp_flags _ _ K), D, SS, M, (kp_ireg _ _ K). Usplit.
    intros b Hb Ub. rewrite Mem; [apply H4; assumption|assumption|]. intros ->. congruence.
  - rewrite (write_denied e a w c s P Ua). exact H.
Qed.
Lemma inv_U_modify_regs s0 f : inv (U s0) (modify (fun s => upd_regs s (f s))).
Proof. apply inv_modify. intros s H. exact H. Qed.
Lemma inv_U_set_cc r s0 : inv (U s0) (set_cc r).
Proof.
  unfold set_cc. apply inv_modify. intros s (H1 & H2 & H3 & H4 & H5 & H6 & H7 & H8).
  pose proof (psr_set_cc_user (s_psr s) (cc_of r) H1) as [Ha Hb].
  unfold U. cbn [s_psr s_flags s_mem s_devs s_saved_sp s_mcr s_ireg upd_psr]. Usplit.
Qed.
Lemma inv_U_push a b f s0 : inv (U s0) (push_frame a b f).
Proof. intros s H. rewrite push_frame_run. exact H. Qed.

#[export] Hint Extern 0 (hoareI (U _) (read_mem _ _ _) _ _) => apply inv_hi, inv_U_read; eapply U_ctx; eassumption : hoare.
#[export] Hint Extern 0 (hoareI (U _) (write_mem _ _ _ _) _ _) => apply inv_hi, inv_U_write; eapply U_ctx; eassumption : hoare.
#[export] Hint Extern 0 (hoareI (U _) (set_cc _) _ _) => apply inv_hi, inv_U_set_cc : hoare.
#[export] Hint Extern 0 (hoareI (U _) (push_frame _ _ _) _ _) => apply inv_hi, inv_U_push : hoare.
#[export] Hint Extern 0 (hoareI (U _) (modify _) _ _) => apply hi_modify; intros ? HU; exact HU : hoare.

Definition is_trap (i : sim_instr) : bool := match i with STRAP _ => true | _ => false end.

Theorem inv_U_exec e i s0 : is_trap i = false -> inv (U s0) (exec e i).
Proof.
  intros NT. apply inv_hi. unfold exec. apply hi_bind_get. intros s Hs. cbv zeta.
  destruct i; try discriminate NT;
    try solve [cbv beta delta [call_subroutine set_reg_if_init pop_frame offset_pc set_pc]; repeat hstep].
  destruct (U_user _ _ Hs) as [P I]. rewrite P, I. cbn [orb]. apply hi_err. exact Logic.I.
Qed.

Lemma rti_user e s : user_mode s -> exec e SRTI s = (s, inr (BErr PrivilegeViolation)).
Proof.
  intros [P I]. unfold exec. rewrite run_bind, run_get. cbv zeta. rewrite P, I. reflexivity.
Qed.

Lemma U_refl s : 32768 <= s_psr s < 65536 -> fl_ignore_priv (s_flags s) = false -> U s s.
Proof. intros [P1 P2] I. unfold U. Usplit; auto. Qed.

Definition fetch_exec_u (e : env) : M unit :=
  s <- get ;;
  w <- read_mem e (s_pc s) (default_ctx s) ;;
  word <- of_opt (get_if_init w (strict s)) StrictPCCurrUninit ;;
  instr <- decode_m word ;;
  offset_pc 1 false ;;;
  modify (fun s => upd_prefetch s false) ;;;
  exec e instr ;;;
  modify (fun s => upd_instrs s ((s_instrs s + 1) mod 18446744073709551616)).

(* C09 spells the second half of [step_inner] out; the proofs go through [IrqProofs.fetch_exec] *)
Lemma fetch_exec_u_eq : fetch_exec_u = fetch_exec.
Proof. reflexivity. Qed.

Definition fetched_u (s : sim) : sim :=
  upd_prefetch (upd_pc (upd_obs s (obs_update (s_obs s) (s_pc s) OBS_READ)) (wrap16 (s_pc s + 1))) false.

Lemma fetch_exec_user e s : c_priv (default_ctx s) = false ->
  fetch_exec e s =
  if in_user (s_pc s) then
    match fetched_instr (strict s) (mget (s_mem s) (s_pc s)) with
    | inl i => counted (exec e i (fetched_u s))
    | inr b => (upd_obs s (obs_update (s_obs s) (s_pc s) OBS_READ), inr b)
    end
  else (s, inr (BErr AccessViolation)).
Proof.
  intros P. rewrite fetch_exec_eq. destruct (in_user (s_pc s)) eqn:Ua.
  - rewrite (read_user e _ _ s P Ua). reflexivity.
  - rewrite (read_denied e _ _ s P Ua). reflexivity.
Qed.

Lemma fetch_exec_confined e s0 s :
  U s0 s ->
  (forall i, decode (w_data (mget (s_mem s) (s_pc s))) = DOk i -> inv (U s0) (exec e i)) ->
  U s0 (fst (fetch_exec e s)).
Proof.
  intros Hs X. rewrite (fetch_exec_user e s (U_ctx s0 s Hs)). destruct (in_user (s_pc s)); [|exact Hs].
  destruct (fetched_instr _ _) as [i|b] eqn:D; [|exact Hs].
  specialize (X i (fetched_instr_inl _ _ _ D) (fetched_u s) Hs). destruct (exec e i _) as [s3 [[]|b]]; exact X.
Qed.
