(* SimObsEntry.v — entry and RTI in closed form: [handle_interrupt] is the priority gate or the virtual
   short-cut in front of one common body, which, run symbolically once ([entry_body_run]), is
   [call_interrupt] on an explicit state; RTI of a privileged non-strict machine likewise
   ([exec_rti_lax]).  The observer marks of a completed entry (C28) are read off the former. *)
From Coq Require Import ZArith List Bool Lia.
From Gen Require Import Constants.
From Model Require Import Tree Bits Word Instr Sim.
From Proofs Require Import PsrBits SimHoare SimAccess SimObs.
Import ListNotations.
Open Scope Z_scope.

Definition rti_state (t : sim) (pc psr : Z) : sim :=
  let rs := rset (s_regs t) 6 (w_add (rget (s_regs t) 6) (new_init 2)) in
  let user := negb (psr_privileged psr) in
  mkSim (s_mem t) (if user then rset rs 6 (s_saved_sp t) else rs) pc psr (if user then rget rs 6 else s_saved_sp t)
        (Z.max 0 (s_frame_no t - 1)) (match s_frames t with Some (_ :: r) => Some r | x => x end)
        (s_sr_defns t) (s_alloca t) (s_instrs t) (s_prefetch t) (s_obs t) (s_mcr t) (s_flags t) (s_ireg t) (s_devs t).

Lemma exec_rti_lax e s :
  psr_privileged (s_psr s) = true -> fl_strict (s_flags s) = false ->
  (IO_START <=? w_data (rget (s_regs s) 6)) = false -> (IO_START <=? wrap16 (w_data (rget (s_regs s) 6) + 1)) = false ->
  exec e SRTI s =
  (let sp := w_data (rget (s_regs s) 6) in
   rti_state (upd_obs s (obs_update (obs_update (s_obs s) sp OBS_READ) (wrap16 (sp + 1)) OBS_READ))
             (w_data (mget (s_mem s) sp)) (w_data (mget (s_mem s) (wrap16 (sp + 1)))), inl tt).
Proof.
  intros P St IO1 IO2. unfold exec. rewrite run_bind, run_get. cbv zeta. rewrite P. cbn [orb].
  set (c := default_ctx s).
  assert (CP : forall a, negb (c_priv c) && negb (in_user a) = false).
  { intro a. unfold c, default_ctx. cbn [c_priv]. rewrite P. reflexivity. }
  unfold strict. rewrite St. cbn [get_if_init negb orb of_opt]. rewrite run_bind, run_ret.
  rewrite run_bind, read_mem_plain by auto. change (c_track c) with true. cbv iota. rewrite run_bind, run_ret.
  rewrite run_bind, read_mem_plain by auto. change (c_track c) with true. cbv iota. rewrite run_bind, run_ret.
  rewrite run_bind, run_modify, run_bind, set_pc_lax by exact St. rewrite run_bind, run_modify, run_bind.
  unfold rti_state. cbn [new_init w_data upd_obs s_mem].
  destruct (psr_privileged (w_data (mget (s_mem s) (wrap16 (w_data (rget (s_regs s) 6) + 1))))); reflexivity.
Qed.

Definition wmark (o : list (Z * Z)) (a : Z) (old new : word) : list (Z * Z) :=
  let o1 := obs_update o a OBS_WRITTEN in if word_eqb old new then o1 else obs_update o1 a OBS_MODIFIED.

(* The code the model's [handle_interrupt] repeats in its two branches.  The first [s] is the snapshot it took with
   [get], looked at only to decide the stack swap; the body is always run from that same state. *)
Definition entry_body (e : env) (v : Z) (ft : ftype) (psr_f : Z -> Z) (s : sim) : M unit :=
  (if negb (psr_privileged (s_psr s)) then swap_sp else ret tt);;;
  s0 <- get;; (let old_psr := s_psr s0 in let old_pc := s_pc s0 in
   modify (fun s1 => upd_psr s1 (psr_set_privileged (s_psr s1) true));;;
   s1 <- get;; (let mctx := default_ctx s1 in
    sp <- of_opt (get_if_init (rget (s_regs s1) 6) (strict s1)) StrictMemAddrUninit;;
    modify (fun s2 => upd_regs s2 (rset (s_regs s2) 6 (w_sub (rget (s_regs s2) 6) (new_init 2))));;;
    write_mem e (wrap16 (sp - 1)) (new_init old_psr) mctx;;;
    write_mem e (wrap16 (sp - 2)) (new_init old_pc) mctx;;;
    modify (fun s2 => upd_psr s2 (psr_f (s_psr s2)));;;
    call_interrupt e v ft)).

Definition shortcut (b : brk) : M unit :=
  s <- get ;;
  (if negb (s_prefetch s) then offset_pc (-1) false ;;; modify (fun s => upd_prefetch s true) else ret tt) ;;;
  fail b.

Lemma shortcut_eq b s :
  shortcut b s = ((if s_prefetch s then s else upd_prefetch (upd_pc s (wrap16 (s_pc s + -1))) true), inr b).
Proof.
  unfold shortcut. rewrite run_bind, run_get, run_bind. destruct (s_prefetch s); cbn [negb]; [reflexivity|].
  rewrite run_bind, offset_pc_eq, run_modify. reflexivity.
Qed.

Lemma handle_interrupt_eq e v prio s :
  handle_interrupt e v prio s =
  match prio with
  | Some p => if p <=? psr_priority (s_psr s) then (s, inl tt)
              else entry_body e v FInterrupt (fun x => psr_set_priority (psr_set_cc x 2) p) s s
  | None => match (if fl_real (s_flags s) then None else real_int_vect v) with
            | Some b => shortcut b s
            | None => entry_body e v FTrap (fun x => psr_set_cc x 2) s s
            end
  end.
Proof.
  unfold handle_interrupt. rewrite run_bind, run_get. destruct prio as [p|].
  - destruct (p <=? psr_priority (s_psr s)); reflexivity.
  - destruct (if fl_real (s_flags s) then None else real_int_vect v); reflexivity.
Qed.

Lemma handle_interrupt_some_is_entry e v p s : psr_priority (s_psr s) < p ->
  handle_interrupt e v (Some p) s = entry_body e v FInterrupt (fun x => psr_set_priority (psr_set_cc x 2) p) s s.
Proof. intros H. rewrite handle_interrupt_eq. apply Z.leb_gt in H. rewrite H. reflexivity. Qed.
Lemma handle_interrupt_none_is_entry e v s : (if fl_real (s_flags s) then None else real_int_vect v) = None ->
  handle_interrupt e v None s = entry_body e v FTrap (fun x => psr_set_cc x 2) s s.
Proof. intros H. rewrite handle_interrupt_eq, H. reflexivity. Qed.
(* the short-cut always ends in a break *)
Lemma handle_interrupt_none_ok e v s s' u : handle_interrupt e v None s = (s', inl u) ->
  entry_body e v FTrap (fun x => psr_set_cc x 2) s s = (s', inl u).
Proof.
  rewrite handle_interrupt_eq. destruct (if fl_real (s_flags s) then None else real_int_vect v) as [b|]; [|exact (fun E => E)].
  rewrite shortcut_eq. discriminate.
Qed.

(* the data of the supervisor stack pointer, for the observer addresses; [IrqProofs.entry_sp] is the word ([entry_sp_data]) *)
Definition entry_sp (s : sim) : Z :=
  if psr_privileged (s_psr s) then w_data (rget (s_regs s) 6) else w_data (s_saved_sp s).

Definition entry_swap (s : sim) : sim :=
  let user := negb (psr_privileged (s_psr s)) in
  upd_saved_sp (upd_regs s (if user then rset (s_regs s) 6 (s_saved_sp s) else s_regs s))
               (if user then rget (s_regs s) 6 else s_saved_sp s).
Definition entry_pushed (psr_f : Z -> Z) (s : sim) : sim :=
  let a1 := wrap16 (entry_sp s - 1) in let a2 := wrap16 (entry_sp s - 2) in
  let rs := s_regs (entry_swap s) in
  mkSim (mset (mset (s_mem s) a1 (new_init (s_psr s))) a2 (new_init (s_pc s)))
        (rset rs 6 (w_sub (rget rs 6) (new_init 2)))
        (s_pc s) (psr_f (psr_set_privileged (s_psr s) true)) (s_saved_sp (entry_swap s))
        (s_frame_no s) (s_frames s) (s_sr_defns s) (s_alloca s) (s_instrs s) (s_prefetch s)
        (wmark (wmark (s_obs s) a1 (mget (s_mem s) a1) (new_init (s_psr s))) a2 (mget (s_mem s) a2) (new_init (s_pc s)))
        (s_mcr s) (s_flags s) (s_ireg s) (s_devs s).

Lemma entry_swap_run s :
  (if negb (psr_privileged (s_psr s)) then swap_sp else ret tt) s = (entry_swap s, inl tt).
Proof. unfold entry_swap. destruct (psr_privileged (s_psr s)); [destruct s|]; reflexivity. Qed.
Lemma entry_swap_sp s : length (s_regs s) = 8%nat -> w_data (rget (s_regs (entry_swap s)) 6) = entry_sp s.
Proof.
  intros L. unfold entry_swap, entry_sp. cbn [upd_saved_sp upd_regs s_regs].
  destruct (psr_privileged (s_psr s)); cbn [negb]; [reflexivity|].
  rewrite rget_rset_same by (exact L || lia). reflexivity.
Qed.

Theorem entry_body_run e v ft psr_f s :
  length (s_regs s) = 8%nat ->
  (IO_START <=? wrap16 (entry_sp s - 1)) = false -> (IO_START <=? wrap16 (entry_sp s - 2)) = false ->
  entry_body e v ft psr_f s s =
  if negb (strict s) || is_init (rget (s_regs (entry_swap s)) 6)
  then call_interrupt e v ft (entry_pushed psr_f s)
  else (upd_psr (entry_swap s) (psr_set_privileged (s_psr s) true), inr (BErr StrictMemAddrUninit)).
Proof.
  intros L IO1 IO2. unfold entry_body.
  rewrite run_bind, entry_swap_run, run_bind, run_get. cbv zeta. rewrite run_bind, run_modify, run_bind, run_get. cbv zeta.
  set (sb := upd_psr (entry_swap s) (psr_set_privileged (s_psr (entry_swap s)) true)).
  assert (CP : forall a, negb (c_priv (default_ctx sb)) && negb (in_user a) = false).
  { intro a. unfold default_ctx, sb. cbn [c_priv upd_psr s_psr]. rewrite psr_priv_set. reflexivity. }
  rewrite run_bind. unfold get_if_init. change (strict sb) with (strict s). change (s_regs sb) with (s_regs (entry_swap s)).
  destruct (negb (strict s) || is_init (rget (s_regs (entry_swap s)) 6)); cbn [of_opt]; [|reflexivity].
  rewrite run_ret, run_bind, run_modify, (entry_swap_sp s L).
  rewrite run_bind, write_mem_plain by auto. cbv zeta. rewrite set_if_init_new.
  rewrite run_bind, write_mem_plain by auto. cbv zeta. rewrite set_if_init_new.
  rewrite run_bind, run_modify. f_equal.
  cbn [default_ctx c_track sb upd_psr upd_regs upd_obs upd_mem s_obs s_mem]. unfold entry_pushed, wmark.
  rewrite (mget_mset_other (s_mem s) _ _ (new_init (s_psr s)) (proj1 (wrap16_range _)) (proj1 (wrap16_range _)) (wrap16_pred_ne _)).
  reflexivity.
Qed.

Lemma call_interrupt_ok e v ft t s' u : call_interrupt e v ft t = (s', inl u) ->
  exists t1 w fr, read_mem e v (default_ctx t) t = (t1, inl w) /\
    push_frame (prefetch_pc t1) v ft t1 = (upd_frames t1 (s_frame_no t1 + 1) fr, inl tt) /\
    s' = upd_pc (upd_frames t1 (s_frame_no t1 + 1) fr) (w_data w).
Proof.
  unfold call_interrupt. rewrite run_bind, run_get, run_bind.
  destruct (read_mem e v (default_ctx t) t) as [t1 [w|b]]; [|discriminate].
  rewrite run_bind, run_get, run_bind. unfold get_if_init.
  destruct (negb (strict t1) || is_init w); cbn [of_opt]; [|discriminate].
  rewrite run_ret, run_bind, push_frame_run. intros E. eexists t1, w, _.
  repeat split; [apply push_frame_run|]. exact (set_pc_ok _ _ _ _ _ E).
Qed.

Lemma call_interrupt_lax e v ft t :
  fl_strict (s_flags t) = false -> psr_privileged (s_psr t) = true -> (IO_START <=? v) = false ->
  call_interrupt e v ft t =
  (let t1 := upd_obs t (obs_update (s_obs t) v OBS_READ) in
   upd_pc (upd_frames t1 (s_frame_no t + 1) (push_frs ft (s_sr_defns t) (s_regs t) (s_mem t) (prefetch_pc t) v (s_frames t)))
          (w_data (mget (s_mem t) v)), inl tt).
Proof.
  intros St P IO. unfold call_interrupt. rewrite run_bind, run_get, run_bind, read_mem_plain by (unfold default_ctx; cbn [c_priv]; rewrite ?P; auto).
  cbn [default_ctx c_track]. rewrite run_bind, run_get, run_bind. unfold strict, get_if_init. cbn [upd_obs s_flags]. rewrite St.
  cbn [negb orb of_opt]. rewrite run_ret, run_bind, push_frame_run, set_pc_lax by exact St. reflexivity.
Qed.

Lemma entry_body_lax e v ft psr_f s :
  fl_strict (s_flags s) = false -> length (s_regs s) = 8%nat ->
  (IO_START <=? wrap16 (entry_sp s - 1)) = false -> (IO_START <=? wrap16 (entry_sp s - 2)) = false ->
  (IO_START <=? v) = false -> psr_privileged (psr_f (psr_set_privileged (s_psr s) true)) = true ->
  entry_body e v ft psr_f s s =
  (let t := entry_pushed psr_f s in
   upd_pc (upd_frames (upd_obs t (obs_update (s_obs t) v OBS_READ)) (s_frame_no s + 1)
                      (push_frs ft (s_sr_defns s) (s_regs t) (s_mem t) (prefetch_pc s) v (s_frames s)))
          (w_data (mget (s_mem t) v)), inl tt).
Proof.
  intros St L IO1 IO2 IOV P. rewrite (entry_body_run e v ft psr_f s L IO1 IO2). unfold strict. rewrite St. cbn [negb orb].
  exact (call_interrupt_lax e v ft (entry_pushed psr_f s) St P IOV).
Qed.

Theorem entry_obs e v ft psr_f s s' u :
  length (s_regs s) = 8%nat ->
  entry_body e v ft psr_f s s = (s', inl u) ->
  let a1 := wrap16 (entry_sp s - 1) in let a2 := wrap16 (entry_sp s - 2) in
  (IO_START <=? a1) = false -> (IO_START <=? a2) = false ->
  s_obs s' = obs_update (wmark (wmark (s_obs s) a1 (mget (s_mem s) a1) (new_init (s_psr s)))
                                a2 (mget (s_mem s) a2) (new_init (s_pc s))) v OBS_READ.
Proof.
  intros LEN E a1 a2 IO1 IO2. rewrite (entry_body_run e v ft psr_f s LEN IO1 IO2) in E.
  destruct (negb (strict s) || is_init (rget (s_regs (entry_swap s)) 6)); [|discriminate].
  destruct (call_interrupt_ok _ _ _ _ _ _ E) as (t1 & w & fr & RV & _ & ->).
  exact (read_ok_obs _ _ _ _ _ _ RV eq_refl).
Qed.

Theorem interrupt_entry_obs e v p s s' u :
  length (s_regs s) = 8%nat -> psr_priority (s_psr s) < p ->
  handle_interrupt e v (Some p) s = (s', inl u) ->
  let a1 := wrap16 (entry_sp s - 1) in let a2 := wrap16 (entry_sp s - 2) in
  (IO_START <=? a1) = false -> (IO_START <=? a2) = false -> (IO_START <=? v) = false ->
  s_obs s' = obs_update (wmark (wmark (s_obs s) a1 (mget (s_mem s) a1) (new_init (s_psr s)))
                                a2 (mget (s_mem s) a2) (new_init (s_pc s))) v OBS_READ.
Proof.
  intros L G E a1 a2 IO1 IO2 _. rewrite (handle_interrupt_some_is_entry e v p s G) in E. exact (entry_obs _ _ _ _ _ _ _ L E IO1 IO2).
Qed.

Theorem trap_entry_obs e v s s' u :
  length (s_regs s) = 8%nat ->
  handle_interrupt e v None s = (s', inl u) ->
  let a1 := wrap16 (entry_sp s - 1) in let a2 := wrap16 (entry_sp s - 2) in
  (IO_START <=? a1) = false -> (IO_START <=? a2) = false -> (IO_START <=? v) = false ->
  s_obs s' = obs_update (wmark (wmark (s_obs s) a1 (mget (s_mem s) a1) (new_init (s_psr s)))
                                a2 (mget (s_mem s) a2) (new_init (s_pc s))) v OBS_READ.
Proof.
  intros L E a1 a2 IO1 IO2 _. exact (entry_obs _ _ _ _ _ _ _ L (handle_interrupt_none_ok _ _ _ _ _ E) IO1 IO2).
Qed.
