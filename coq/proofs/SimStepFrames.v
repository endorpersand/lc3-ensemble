(* SimStepFrames.v — C27 over runs: a run as the list of its events (completed instructions, interrupts
   taken) and their depth effects; the fold itself is proved in props/C27.v. *)
From Coq Require Import ZArith List Bool Lia FMapPositive.
From Gen Require Import Constants.
From Model Require Import Tree Bits Word Instr Sim.
From Proofs Require Import SimFrames IrqProofs SimStepObs.
Import ListNotations.
Open Scope Z_scope.

Inductive event := EInstr (i : sim_instr) | EIrq.
Definition event_effect (ev : event) (n : Z) : Z :=
  match ev with EInstr i => depth_effect i n | EIrq => n + 1 end.

Inductive Trace : sim -> list event -> sim -> Prop :=
| tr_nil s : Trace s [] s
| tr_instr e s s1 u t w i evs s' :
    Completed e s s1 u t w i -> Trace s1 evs s' -> Trace s (EInstr i :: evs) s'
| tr_irq e s s1 u v p evs s' :
    takes_irq e s v p -> step_inner e (upd_obs s []) = (s1, inl u) -> Trace s1 evs s' -> Trace s (EIrq :: evs) s'.

Definition neutral (ev : event) : bool :=
  match ev with
  | EInstr (SJSR _) | EInstr (STRAP _) | EInstr SRTI | EIrq => false
  | EInstr (SJMP br) => negb (br =? 7)
  | EInstr _ => true
  end.
Lemma neutral_fold evs n : forallb neutral evs = true -> fold_left (fun n ev => event_effect ev n) evs n = n.
Proof.
  revert n. induction evs as [|ev evs IH]; intros n H; cbn [fold_left]; [reflexivity|].
  cbn [forallb] in H. apply andb_true_iff in H as [H1 H2]. rewrite <- (IH n H2) at 2. f_equal.
  destruct ev as [i|]; [|discriminate H1]. cbn [event_effect].
  destruct i; cbn [neutral depth_effect] in *; try discriminate H1; try reflexivity.
  apply negb_true_iff in H1. rewrite H1. reflexivity.
Qed.

(* non-vacuity: `JSR #1` (x4801) at x3000, `RET` (xC1C0) at x3002: depth 0 -> 1 -> 0, back at x3001 *)
Definition ex_call_state : sim :=
  mkSim (mset (mset (mkMem (PositiveMap.empty word) (new_init 0)) 12288 (new_init 18433)) 12290 (new_init 49600))
        (repeat (new_init 0) 8) 12288 32770 (new_init 12288) 0 (Some []) [] [] 0 false [] true
        (mkFlags false false true false) [] [].
Example ex_call_ret :
  exists s1 s', Trace ex_call_state [EInstr (SJSR (Imm 1)); EInstr (SJMP 7)] s' /\
    (exists u t w, Completed ex_env ex_call_state s1 u t w (SJSR (Imm 1))) /\
    s_frame_no s1 = 1 /\ s_pc s1 = 12290 /\
    s_frame_no s' = 0 /\ s_pc s' = 12289 /\ s_frames s' = Some [].
Proof.
  set (s1 := fst (step_inner ex_env (upd_obs ex_call_state []))).
  set (s2 := fst (step_inner ex_env (upd_obs s1 []))).
  assert (C1 : Completed ex_env ex_call_state s1 tt (fst (fetched ex_env ex_call_state)) (new_init 18433) (SJSR (Imm 1)))
    by completed_by_computation.
  assert (C2 : Completed ex_env s1 s2 tt (fst (fetched ex_env s1)) (new_init 49600) (SJMP 7))
    by completed_by_computation.
  exists s1, s2. split; [exact (tr_instr _ _ _ _ _ _ _ _ _ C1 (tr_instr _ _ _ _ _ _ _ _ _ C2 (tr_nil _)))|].
  split; [exists tt, (fst (fetched ex_env ex_call_state)), (new_init 18433); exact C1|].
  vm_compute. repeat split; reflexivity.
Qed.
