(* AsmLines.v — the line table recorded by pass 1 (C24) and the totality of `assemble_debug`.
   Under [lines_inc] (every statement starts on a later line than the one before: a hypothesis, as
   in parser output, not derived from the parser model) the table holds exactly [spec_lines],
   `LineSymbolMap::new` never fails, and get/find/iter answer from them. *)
From Coq Require Import ZArith List Bool Lia Sorted.
From Model Require Import Tree Text Bits Instr Offset AsmAst Obj SourceInfo Assembler.
From Spec Require Import LayoutSpec WfSpec LineSpec.
From Proofs Require Import ListFacts AsmBase AsmPass1 AsmPass2 AsmDebug AsmThms AsmLineMap SourceInfoProofs.
Import ListNotations.
Open Scope Z_scope.

Definition entry_of := line_entry.
Definition entries := spec_lines.
Lemma no_line_entry_needs s : no_line_entry (s_nucleus s) = negb (needs_addr s).
Proof. unfold no_line_entry, needs_addr. destruct (s_nucleus s) as [i|[a|o|n|t| |l]]; reflexivity. Qed.

Lemma count_lt_nonneg l x : 0 <= count_lt l x.
Proof. induction l as [|a l IH]; cbn [count_lt]; [lia|]. destruct (a <? x); lia. Qed.
Lemma get_line_range text i : 0 <= get_line text i < count_lines text.
Proof.
  unfold get_line. pose proof (count_lt_nonneg (nl_indices text) i). rewrite count_lines_spec.
  pose proof (count_nl_nonneg text). lia.
Qed.

Definition apply_entry (ls : list (option Z)) (e : Z * Z) : list (option Z) :=
  set_nth ls (Z.to_nat (fst e)) (Some (snd e)).

Lemma set_nth_length {A} (l : list A) : forall n x, length (set_nth l n x) = length l.
Proof. induction l as [|a l IH]; intros [|n] x; cbn [set_nth length]; try reflexivity. rewrite IH. reflexivity. Qed.
Lemma nth_error_set_nth {A} (l : list A) : forall n x m,
  nth_error (set_nth l n x) m = if Nat.eqb m n then (if Nat.ltb n (length l) then Some x else None) else nth_error l m.
Proof.
  induction l as [|a l IH]; intros [|n] x [|m]; cbn [set_nth nth_error length Nat.eqb]; try reflexivity.
  - destruct (Nat.eqb m n); reflexivity.
  - rewrite IH. destruct (Nat.eqb m n); [|reflexivity]. cbn. reflexivity.
Qed.
Lemma nth_z_apply ls e n : 0 <= fst e < len ls -> 0 <= n ->
  nth_z (apply_entry ls e) n = if n =? fst e then Some (Some (snd e)) else nth_z ls n.
Proof.
  intros He Hn. unfold nth_z, apply_entry. destruct (n <? 0) eqn:E; [lia|]. rewrite nth_error_set_nth.
  destruct (n =? fst e) eqn:E1.
  - apply Z.eqb_eq in E1. subst n. rewrite Nat.eqb_refl. unfold len in He.
    destruct (Nat.ltb (Z.to_nat (fst e)) (length ls)) eqn:E2; [reflexivity|]. apply Nat.ltb_ge in E2. lia.
  - apply Z.eqb_neq in E1. destruct (Nat.eqb (Z.to_nat n) (Z.to_nat (fst e))) eqn:E2; [apply Nat.eqb_eq in E2; lia | reflexivity].
Qed.
Lemma len_apply ls e : len (apply_entry ls e) = len ls.
Proof. unfold len, apply_entry. rewrite set_nth_length. reflexivity. Qed.

Lemma table_spec E : forall ls n a, 0 <= n ->
  NoDup (map fst E) -> (forall e, In e E -> 0 <= fst e < len ls) ->
  (nth_z (fold_left apply_entry E ls) n = Some (Some a) <->
   (In (n, a) E \/ (~ In n (map fst E) /\ nth_z ls n = Some (Some a)))).
Proof.
  induction E as [|e E IH]; intros ls n a Hn ND R; cbn [fold_left map].
  - split; [intros H; right; split; [intros []|exact H] | intros [[]|[_ H]]; exact H].
  - inversion ND as [|? ? N1 N2]; subst.
    rewrite IH; [|exact Hn|exact N2|intros e' He'; rewrite len_apply; apply R; right; exact He'].
    rewrite nth_z_apply by (try apply R; try (left; reflexivity); exact Hn).
    destruct (n =? fst e) eqn:E1.
    + apply Z.eqb_eq in E1. split.
      * intros [H|[H1 H2]]; [left; right; exact H|]. injection H2 as <-. left. left. destruct e; cbn in *; congruence.
      * intros [[H|H]|[H1 H2]].
        -- right. split; [rewrite E1; exact N1|]. subst e. reflexivity.
        -- left. exact H.
        -- exfalso. apply H1. left. symmetry. exact E1.
    + apply Z.eqb_neq in E1. split.
      * intros [H|[H1 H2]]; [left; right; exact H|]. right. split; [|exact H2]. intros [X|X]; [congruence|contradiction].
      * intros [[H|H]|[H1 H2]].
        -- subst e. cbn in E1. congruence.
        -- left. exact H.
        -- right. split; [|exact H2]. intros X. apply H1. right. exact X.
Qed.
Lemma len_fold_apply E : forall ls, len (fold_left apply_entry E ls) = len ls.
Proof. induction E as [|e E IH]; intros ls; cbn [fold_left]; [reflexivity|]. rewrite IH, len_apply. reflexivity. Qed.

Lemma nth_z_repeat_none (n : nat) i (v : option Z) : nth_z (repeat (@None Z) n) i = Some v -> v = None.
Proof. intros H. apply nth_z_in in H. apply repeat_spec in H. exact H. Qed.

Lemma closed_last lines : forall b,
  closed lines b <-> match lines with [] => b = false | _ => nth_z lines (len lines - 1) = Some None end.
Proof.
  induction lines as [|x lines IH]; intros b; [reflexivity|].
  assert (L : len (x :: lines) - 1 = len lines) by (unfold len; cbn [length]; lia).
  destruct lines as [|y lines'].
  - destruct x; cbn; split; intros H; try discriminate; reflexivity.
  - rewrite L. rewrite nth_z_cons by (unfold len; cbn [length]; lia).
    destruct x; cbn [closed]; [exact (IH true) | exact (IH false)].
Qed.

Lemma p1_dir_cur st s L1 c2 L2 r2 :
  p1_dir st s L1 = AOk (c2, L2, r2) -> no_line_entry (s_nucleus s) = false -> c2 = p1_cur st.
Proof.
  unfold p1_dir. destruct (s_nucleus s) as [i|[a|[v|l]|n|t| |l]]; cbn [no_line_entry]; intros E N;
    try discriminate N; try (injection E as <- _ _; reflexivity).
  cbv zeta in E. destruct (p1_cur st); [injection E as <- _ _; reflexivity|].
  destruct (assoc (upper (l_name l)) L1) as [d|]; [destruct (sd_external d); [discriminate E|]|]; injection E as <- _ _; reflexivity.
Qed.

Lemma p1_step_lines text st s st' ls :
  p1_lines st = Some ls -> p1_step (Some text) st s = AOk st' ->
  p1_lines st' = Some (match p1_cur st with
                       | Some cur => if no_line_entry (s_nucleus s) then ls else apply_entry ls (line_of text s, c_lc cur)
                       | None => ls
                       end).
Proof.
  intros HL E. rewrite p1_step_eq in E. apply abind_ok in E. destruct E as [L1 [_ E]].
  apply abind_ok in E. destruct E as [[[c2 L2] r2] [ED E]]. unfold p1_tail in E.
  destruct (no_line_entry (s_nucleus s)) eqn:NL.
  - assert (G : p1_lines st' = Some ls); [|rewrite G; destruct (p1_cur st); reflexivity].
    destruct c2 as [cu|]; [|injection E as <-; exact HL].
    apply abind_ok in E. destruct E as [l2 [EL E]]. unfold p1_line in EL. rewrite HL, NL in EL. injection EL as <-.
    apply abind_ok in E. destruct E as [cu' [_ E]]. injection E as <-. reflexivity.
  - rewrite (p1_dir_cur _ _ _ _ _ _ ED NL) in E. destruct (p1_cur st) as [cur|]; [|injection E as <-; exact HL].
    apply abind_ok in E. destruct E as [l2 [EL E]]. unfold p1_line in EL. rewrite HL, NL in EL. cbv zeta in EL.
    destruct (_ && _) in EL; [injection EL as <-|discriminate EL].
    apply abind_ok in E. destruct E as [cu' [_ E]]. injection E as <-. reflexivity.
Qed.

Definition table (text : str) (p : list stmt) : list (option Z) :=
  fold_left apply_entry (entries text p) (repeat None (Z.to_nat (count_lines text))).

Lemma table_len text : len (repeat (@None Z) (Z.to_nat (count_lines text))) = count_lines text.
Proof. rewrite len_repeat. pose proof (get_line_range text 0). lia. Qed.

Lemma fits_len text st ls : p1_lines st = Some ls -> len ls = count_lines text -> fits (Some text) st.
Proof.
  intros HL LL ls' text' HL' ET i. injection ET as <-. rewrite HL in HL'. injection HL' as <-.
  rewrite LL. pose proof (get_line_range text i). lia.
Qed.

Lemma p1_loop_table text pre suf st ls : typed suf = true -> I1 pre st -> p1_lines st = Some ls ->
  post (p1_loop (Some text) st suf)
    (fun st' => I1 (pre ++ suf) st' /\
                p1_lines st' = Some (fold_left apply_entry (flat_map (entry_of text) (place (final None pre) suf)) ls))
    (fun _ _ => True) (len ls <> count_lines text).
Proof.
  intros T HI HL. rewrite p1_loop_afold.
  apply (afold_inv _ (fun q st' => I1 (pre ++ q) st' /\
           p1_lines st' = Some (fold_left apply_entry (flat_map (entry_of text) (place (final None pre) q)) ls)));
    [|rewrite app_nil_r; split; [exact HI | exact HL]].
  intros q s r st1 EQ [HI1 HL1]. subst suf.
  pose proof (p1_step_inv (Some text) (pre ++ q) s r st1 HI1 (typed_in _ s T (in_elt s q r))) as SI.
  destruct (p1_step (Some text) st1 s) as [st2|k sp|] eqn:ES; cbn [post] in *; [|exact Logic.I|].
  - split; [rewrite app_assoc; exact SI|]. rewrite (p1_step_lines text st1 s st2 _ HL1 ES). f_equal.
    rewrite place_app, flat_map_app, fold_left_app, <- final_app. cbn [place flat_map]. rewrite app_nil_r.
    pose proof (i1_cur _ _ HI1) as CR. unfold cur_rel in CR. unfold entry_of, line_entry. cbn [fst snd].
    destruct (p1_cur st1) as [cu|]; destruct (final None (pre ++ q)) as [[o a]|]; try contradiction; [|reflexivity].
    destruct CR as [-> _]. rewrite no_line_entry_needs. destruct (needs_addr s); reflexivity.
  - intros LL. apply SI, (fits_len text st1 _ HL1). rewrite len_fold_apply. exact LL.
Qed.

Lemma p1_loop_lines text suf : forall pre st ls st',
  I1 pre (erase st) -> p1_lines st = Some ls -> typed suf = true ->
  p1_loop (Some text) st suf = AOk st' ->
  p1_lines st' = Some (fold_left apply_entry (flat_map (entry_of text) (place (final None pre) suf)) ls)
  /\ I1 (pre ++ suf) (erase st').
Proof.
  intros pre st ls st' HI HL T E. assert (HI' : I1 pre st) by (destruct HI; constructor; assumption).
  pose proof (p1_loop_table text pre suf st ls T HI' HL) as S. rewrite E in S. destruct S as [S1 S2].
  split; [exact S2 | destruct S1; constructor; assumption].
Qed.

Lemma p1_step_panic src st s : p1_step src st s = APanic -> fits src st -> p1_step None (erase st) s = APanic.
Proof.
  rewrite !p1_step_eq. change (p1_lab (erase st) s) with (p1_lab st s).
  destruct (p1_lab st s) as [L1|k sp|]; cbn [abind]; [|discriminate|reflexivity].
  change (p1_dir (erase st) s L1) with (p1_dir st s L1).
  destruct (p1_dir st s L1) as [[[c2 L2] r2]|k sp|]; cbn [abind]; [|discriminate|reflexivity].
  unfold p1_tail. destruct c2 as [cu|]; [|discriminate].
  change (p1_line None (erase st) s cu) with (AOk (@None (list (option Z)))).
  pose proof (p1_line_inv src st s cu (fun _ _ => False)) as PL.
  destruct (p1_line src st s cu) as [l|k sp|]; cbn [abind post] in *; [|contradiction|intros _ F; contradiction].
  destruct (p1_move s cu); cbn [abind]; [discriminate|discriminate|reflexivity].
Qed.

Lemma p1_step_dbg_ok text st s ls :
  p1_lines st = Some ls -> len ls = count_lines text ->
  match p1_step None (erase st) s with
  | AOk st0' => exists st', p1_step (Some text) st s = AOk st' /\ erase st' = st0' /\
                            exists ls', p1_lines st' = Some ls' /\ len ls' = count_lines text
  | AErr k sp => p1_step (Some text) st s = AErr k sp
  | APanic => True
  end.
Proof.
  intros HL LL. pose proof (p1_step_dbg (Some text) st s) as D.
  destruct (p1_step (Some text) st s) as [st'|k sp|] eqn:E; cbn [dbg_rel] in D.
  - destruct D as [? [-> <-]]. exists st'. split; [reflexivity|]. split; [reflexivity|].
    rewrite (p1_step_lines text st s st' ls HL E). eexists. split; [reflexivity|].
    destruct (p1_cur st); [destruct (no_line_entry _)|]; rewrite ?len_apply; exact LL.
  - rewrite D. reflexivity.
  - rewrite (p1_step_panic _ _ _ E (fits_len text st ls HL LL)). exact Logic.I.
Qed.

Lemma p1_loop_dbg_ok text p : forall st ls,
  p1_lines st = Some ls -> len ls = count_lines text ->
  match p1_loop None (erase st) p with
  | AOk st0' => exists st', p1_loop (Some text) st p = AOk st' /\ erase st' = st0'
  | AErr k sp => p1_loop (Some text) st p = AErr k sp
  | APanic => True
  end.
Proof.
  induction p as [|s p IH]; intros st ls HL LL; cbn [p1_loop].
  - exists st. split; reflexivity.
  - pose proof (p1_step_dbg_ok text st s ls HL LL) as S.
    destruct (p1_step None (erase st) s) as [st0'|k sp|]; cbn [abind]; [| |exact Logic.I].
    + destruct S as [st1 [E1 [E2 [ls' [HL' LL']]]]]. rewrite E1. cbn [abind]. subst st0'. exact (IH st1 ls' HL' LL').
    + rewrite S. reflexivity.
Qed.

Lemma pass1_text_spec text p : typed p = true ->
  post (pass1 p (Some text))
    (fun sym => exists m, st_debug sym = Some (mkDebug m text) /\ lsm_new (table text p) = Some m)
    (fun _ _ => True) (lsm_new (table text p) = None).
Proof.
  intros T. unfold pass1. cbv zeta.
  pose proof (p1_loop_table text [] p _ (repeat None (Z.to_nat (count_lines text))) T (I1_init _) eq_refl) as S.
  destruct (p1_loop (Some text) _ p) as [st|k sp|]; cbn [abind post] in *; [|exact Logic.I|destruct (S (table_len text))]. destruct S as [_ L].
  destruct (p1_cur st); [exact Logic.I|]. rewrite L. change (fold_left _ _ _) with (table text p).
  destruct (lsm_new (table text p)) as [m|]; cbn [post]; [exists m; split; reflexivity | reflexivity].
Qed.
Theorem pass1_table text p sym : typed p = true -> pass1 p (Some text) = AOk sym ->
  exists m, st_debug sym = Some (mkDebug m text) /\
            lsm_new (fold_left apply_entry (entries text p) (repeat None (Z.to_nat (count_lines text)))) = Some m.
Proof. intros T E. pose proof (pass1_text_spec text p T) as S. rewrite E in S. exact S. Qed.
Theorem pass1_debug_total text p : typed p = true ->
  lsm_new (fold_left apply_entry (entries text p) (repeat None (Z.to_nat (count_lines text)))) <> None ->
  pass1 p (Some text) <> APanic.
Proof. intros T NN E. pose proof (pass1_text_spec text p T) as S. rewrite E in S. exact (NN S). Qed.

Definition ents (text : str) (c : pos) (p : list stmt) : list (Z * Z) := flat_map (entry_of text) (place c p).
Lemma ents_cons text c s r : ents text c (s :: r) = entry_of text (c, s) ++ ents text (next c s) r.
Proof. reflexivity. Qed.
Lemma entries_ents text p : entries text p = ents text None p.
Proof. reflexivity. Qed.

Lemma entry_in text c s n a : In (n, a) (entry_of text (c, s)) ->
  n = line_of text s /\ needs_addr s = true /\ exists o, c = Some (o, a).
Proof.
  unfold entry_of, line_entry. cbn [fst snd]. destruct c as [[o a0]|]; [|contradiction].
  destruct (needs_addr s); [|contradiction]. intros [H|[]]. injection H as <- <-. repeat split. exists o. reflexivity.
Qed.

Lemma lines_inc_inv text s r : lines_inc text (s :: r) ->
  lines_inc text r /\ forall s', In s' r -> line_of text s < line_of text s'.
Proof. intros H. apply StronglySorted_inv in H. destruct H as [H1 H2]. split; [exact H1|]. rewrite Forall_forall in H2. exact H2. Qed.

Lemma ent_min text p : forall c, lines_inc text p -> forall n a, In (n, a) (ents text c p) ->
  match p with
  | [] => False
  | s0 :: _ => line_of text s0 <= n /\ (n = line_of text s0 -> exists o, c = Some (o, a))
  end.
Proof.
  induction p as [|s r IH]; intros c LI n a H; [contradiction|].
  rewrite ents_cons in H. apply in_app_or in H. destruct (lines_inc_inv text s r LI) as [LI' LT]. destruct H as [H|H].
  - apply entry_in in H. destruct H as [-> [_ X]]. split; [lia | intros _; exact X].
  - specialize (IH _ LI' n a H). destruct r as [|s1 r']; [contradiction|]. destruct IH as [Hle _].
    pose proof (LT s1 (or_introl eq_refl)). split; [lia|]. intros ->. lia.
Qed.

Lemma ent_nodup text p : forall c, lines_inc text p -> NoDup (map fst (ents text c p)).
Proof.
  induction p as [|s r IH]; intros c LI; [constructor|].
  destruct (lines_inc_inv text s r LI) as [LI' LT]. rewrite ents_cons, map_app.
  apply NoDup_app_disjoint; [|apply IH; exact LI'|].
  - unfold entry_of, line_entry. cbn [fst snd]. destruct c as [[o a]|]; [|constructor]. destruct (needs_addr s); repeat constructor. intros [].
  - intros n H1 H2. apply in_map_iff in H1, H2. destruct H1 as [[n1 a1] [E1 H1]]. destruct H2 as [[n2 a2] [E2 H2]]. cbn in E1, E2. subst n1 n2.
    apply entry_in in H1. destruct H1 as [-> _]. pose proof (ent_min text r _ LI' _ _ H2) as M.
    destruct r as [|s1 r']; [contradiction|]. pose proof (LT s1 (or_introl eq_refl)). lia.
Qed.

Lemma next_needs c s o a : needs_addr s = true -> c = Some (o, a) -> next c s = Some (o, a + size s).
Proof. intros NA ->. exact (next_addr _ s NA). Qed.

(* two entries on consecutive lines belong to consecutive statements of one block *)
Lemma ent_adj text p : typed p = true -> forall c, lines_inc text p ->
  forall n a1 a2, In (n, a1) (ents text c p) -> In (n + 1, a2) (ents text c p) ->
  a1 <= a2 /\ (blkw_pos p = true -> a1 < a2).
Proof.
  induction p as [|s r IH]; intros T c LI n a1 a2 H1 H2; [contradiction|].
  cbn [typed forallb] in T. apply andb_prop in T. destruct T as [Ts Tr].
  destruct (lines_inc_inv text s r LI) as [LI' LT]. rewrite ents_cons in H1, H2.
  apply in_app_or in H1, H2. destruct H1 as [H1|H1]; destruct H2 as [H2|H2].
  - apply entry_in in H1, H2. destruct H1 as [E1 _]. destruct H2 as [E2 _]. lia.
  - apply entry_in in H1. destruct H1 as [-> [NA [o Ec]]].
    pose proof (ent_min text r _ LI' _ _ H2) as M. destruct r as [|s1 r']; [contradiction|].
    pose proof (LT s1 (or_introl eq_refl)) as L1. destruct M as [M1 M2].
    assert (EQ : line_of text s + 1 = line_of text s1) by lia. destruct (M2 EQ) as [o' Ec'].
    rewrite (next_needs c s o a1 NA Ec) in Ec'. injection Ec' as _ <-.
    pose proof (size_bounds s Ts) as SB. split; [lia|]. intros BP. cbn [blkw_pos forallb] in BP. apply andb_prop in BP. destruct BP as [BP _].
    pose proof (size_pos s NA BP). lia.
  - apply entry_in in H2. destruct H2 as [E2 _]. pose proof (ent_min text r _ LI' _ _ H1) as M.
    destruct r as [|s1 r']; [contradiction|]. pose proof (LT s1 (or_introl eq_refl)). lia.
  - destruct (IH Tr _ LI' n a1 a2 H1 H2) as [Hle Hlt]. split; [exact Hle|]. intros BP. apply Hlt.
    cbn [blkw_pos forallb] in BP. apply andb_prop in BP. exact (proj2 BP).
Qed.

(* the last line of the text carries no entry: the statement of an entry is followed by one on a later line (its .end at least) *)
Lemma ent_closed text p : forall c, final c p = None -> lines_inc text p ->
  forall n a, In (n, a) (ents text c p) -> exists s', In s' p /\ n < line_of text s'.
Proof.
  induction p as [|s r IH]; intros c F LI n a H; [contradiction|].
  destruct (lines_inc_inv text s r LI) as [LI' LT]. rewrite ents_cons in H. apply in_app_or in H.
  assert (F' : final (next c s) r = None) by exact F. destruct H as [H|H].
  - apply entry_in in H. destruct H as [-> [NA [o Ec]]]. rewrite (next_needs c s o a NA Ec) in F'.
    destruct r as [|s1 r']; [discriminate F'|]. exists s1. split; [right; left; reflexivity | apply LT; left; reflexivity].
  - destruct (IH _ F' LI' n a H) as [s' [Hin Hlt]]. exists s'. split; [right; exact Hin | exact Hlt].
Qed.

Lemma nth_z_app {A} (l l' : list A) j : 0 <= j ->
  nth_z (l ++ l') j = if j <? len l then nth_z l j else nth_z l' (j - len l).
Proof.
  intros Hj. unfold nth_z, len. destruct (Z.ltb_spec j 0); [lia|].
  destruct (Z.ltb_spec j (Z.of_nat (length l))).
  - apply nth_error_app1. lia.
  - destruct (Z.ltb_spec (j - Z.of_nat (length l)) 0); [lia|]. rewrite nth_error_app2 by lia. f_equal. lia.
Qed.
Lemma nth_z_defined {A} (l : list A) i : 0 <= i < len l -> exists v, nth_z l i = Some v.
Proof.
  intros H. unfold nth_z, len in *. destruct (Z.ltb_spec i 0); [lia|].
  destruct (nth_error l (Z.to_nat i)) eqn:N; [eexists; reflexivity|]. apply nth_error_None in N. lia.
Qed.

Lemma runs'_elems (P : Z -> Z -> Prop) lines : forall i cur,
  (forall c, cur = Some c -> forall j v, nth_z c j = Some v -> P (i - len c + j) v) ->
  (forall j v, nth_z lines j = Some (Some v) -> P (i + j) v) ->
  forall k r, In (k, r) (runs' lines i cur) -> forall j v, nth_z r j = Some v -> P (k + j) v.
Proof.
  intros i cur HC HL k r H j v Hj. pose proof (nth_z_some _ _ _ Hj) as R.
  destruct (iter_runs'_gen lines i cur) as (tl & E & _).
  assert (I : In (k + j, v) (open_enum i cur ++ enum_some lines i)).
  { rewrite E. apply in_or_app. left. apply lsm_iter_in. exists k, r. split; [exact H|]. split; [lia|].
    replace (k + j - k) with j by lia. exact Hj. }
  apply in_app_or in I. destruct I as [I|I].
  - unfold open_enum in I. destruct cur as [c|]; [|contradiction]. apply enum_from_in in I. destruct I as [_ I].
    replace (k + j) with (i - len c + (k + j - (i - len c))) by lia. exact (HC c eq_refl _ v I).
  - apply enum_some_in in I. destruct I as [_ I]. replace (k + j) with (i + (k + j - i)) by lia. exact (HL _ v I).
Qed.

Lemma adj_windows r : (forall j v1 v2, nth_z r j = Some v1 -> nth_z r (j + 1) = Some v2 -> v1 <= v2) -> windows_all Z.leb r = true.
Proof.
  induction r as [|a r IH]; intros H; [reflexivity|]. destruct r as [|b r']; [reflexivity|].
  cbn [windows_all]. apply andb_true_iff. split.
  - apply Z.leb_le. apply (H 0 a b); reflexivity.
  - apply IH. intros j v1 v2 H1 H2. pose proof (nth_z_len _ _ _ H1). apply (H (j + 1) v1 v2).
    + rewrite nth_z_cons by lia. replace (j + 1 - 1) with j by lia. exact H1.
    + rewrite nth_z_cons by lia. replace (j + 1 + 1 - 1) with (j + 1) by lia. exact H2.
Qed.

Lemma entries_range text p e : In e (entries text p) -> 0 <= fst e < len (repeat (@None Z) (Z.to_nat (count_lines text))).
Proof.
  intros He. rewrite entries_ents in He. unfold ents in He. apply in_flat_map in He. destruct He as [[c s] [_ He]].
  destruct e as [n a]. apply entry_in in He. destruct He as [-> _]. cbn [fst]. rewrite len_repeat.
  unfold line_of. pose proof (get_line_range text (s_start s)). lia.
Qed.

Lemma table_in text p n a : lines_inc text p ->
  (nth_z (table text p) n = Some (Some a) <-> In (n, a) (entries text p)).
Proof.
  intros LI.
  assert (ND : NoDup (map fst (entries text p))) by (rewrite entries_ents; apply ent_nodup; exact LI).
  split; intros H.
  - pose proof (nth_z_len _ _ _ H) as R. apply (table_spec (entries text p) _ n a ltac:(lia) ND (entries_range text p)) in H.
    destruct H as [H|[_ H]]; [exact H|]. apply nth_z_repeat_none in H. discriminate.
  - pose proof (entries_range text p _ H) as R. cbn [fst] in R.
    apply (table_spec (entries text p) _ n a ltac:(lia) ND (entries_range text p)). left. exact H.
Qed.

(* neighbours in a run are entries of consecutive statements ([ent_adj]): addresses do not decrease *)
Theorem table_accepted text p : typed p = true -> lines_inc text p ->
  lsm_new (table text p) = Some (runs' (table text p) 0 None).
Proof.
  intros T LI. rewrite lsm_new_spec.
  assert (R : runs_sorted (runs' (table text p) 0 None) = true); [|rewrite R; reflexivity].
  unfold runs_sorted. apply forallb_forall. intros [k r] H. cbn [snd]. apply adj_windows. intros j v1 v2 H1 H2.
  assert (EL : forall j v, nth_z r j = Some v -> In (k + j, v) (entries text p)).
  { apply (runs'_elems (fun n v => In (n, v) (entries text p)) (table text p) 0 None); [discriminate | | exact H].
    intros j' v' Hj'. apply (table_in text p j' v' LI). exact Hj'. }
  pose proof (EL j v1 H1) as E1. pose proof (EL (j + 1) v2 H2) as E2. replace (k + (j + 1)) with (k + j + 1) in E2 by lia.
  rewrite entries_ents in E1, E2. exact (proj1 (ent_adj text p T None LI _ _ _ E1 E2)).
Qed.

Theorem assemble_debug_total text p : typed p = true -> lines_inc text p -> assemble true (Some text) p <> APanic.
Proof.
  intros T LI. unfold assemble.
  assert (P1 : pass1 p (Some text) <> APanic).
  { apply (pass1_debug_total text p T). fold (table text p). rewrite (table_accepted text p T LI). discriminate. }
  destruct (pass1 p (Some text)) as [sym|k sp|] eqn:E; cbn [abind]; [|discriminate|contradiction].
  pose proof (pass1_ok (Some text) p sym T E) as OK. destruct sym as [L rel dbg]. cbn [st_labels] in OK.
  pose proof (pass2_spec p L rel dbg true T OK) as S. destruct (pass2 p _ true); cbn [post] in S; [discriminate|discriminate|contradiction].
Qed.

Theorem line_table text p sym : typed p = true -> lines_inc text p -> pass1 p (Some text) = AOk sym ->
  exists m, st_debug sym = Some (mkDebug m text) /\ lm_ok m /\
            forall n a, In (n, a) (lsm_iter m) <-> In (n, a) (spec_lines text p).
Proof.
  intros T LI E. destruct (pass1_table text p sym T E) as [m [ED EM]]. fold (table text p) in EM.
  exists m. split; [exact ED|].
  pose proof (pass1_ok (Some text) p sym T E) as OK.
  assert (CL : closed (table text p) false).
  { apply closed_last. assert (LN : len (table text p) = count_lines text).
    { unfold table. rewrite len_fold_apply. apply table_len. }
    pose proof (get_line_range text 0) as GR.
    destruct (table text p) as [|x l] eqn:ET; [unfold len in LN; cbn in LN; lia|]. rewrite <- ET in *.
    destruct (nth_z_defined (table text p) (len (table text p) - 1) ltac:(lia)) as [v Hv]. rewrite Hv. f_equal.
    destruct v as [a|]; [exfalso|reflexivity].
    apply (table_in text p _ a LI) in Hv. rewrite entries_ents in Hv.
    destruct (ent_closed text p None (P1ok_closed _ _ OK) LI _ _ Hv) as [s' [_ Hs']].
    unfold line_of in Hs'. pose proof (get_line_range text (s_start s')). lia. }
  destruct (lsm_new_ok _ m EM CL) as [LM IT]. split; [exact LM|].
  intros n a. rewrite IT. exact (table_in text p n a LI).
Qed.

Theorem forward_spec text p sym : typed p = true -> lines_inc text p -> pass1 p (Some text) = AOk sym ->
  forall n a, lookup_line sym n = Some a <-> In (n, a) (spec_lines text p).
Proof.
  intros T LI E n a. destruct (line_table text p sym T LI E) as [m [ED [LM IT]]].
  unfold lookup_line. rewrite ED. cbn [ds_lines]. rewrite (lsm_get_iter m n a LM). apply IT.
Qed.

Theorem listing_lines text p sym : typed p = true -> lines_inc text p -> pass1 p (Some text) = AOk sym ->
  forall n a, In (n, a) (line_iter sym) <-> In (n, a) (spec_lines text p).
Proof.
  intros T LI E n a. destruct (line_table text p sym T LI E) as [m [ED [LM IT]]].
  unfold line_iter. rewrite ED. cbn [ds_lines]. apply IT.
Qed.

Theorem lines_functional text p : lines_inc text p -> NoDup (map fst (spec_lines text p)).
Proof. intros LI. apply (ent_nodup text p None LI). Qed.

Inductive subseq {A} : list A -> list A -> Prop :=
| sub_nil : subseq [] []
| sub_skip x l l' : subseq l l' -> subseq l (x :: l')
| sub_keep x l l' : subseq l l' -> subseq (x :: l) (x :: l').
Lemma subseq_nil_l {A} (l : list A) : subseq [] l.
Proof. induction l; constructor; assumption. Qed.
Lemma subseq_app {A} (a a' b b' : list A) : subseq a a' -> subseq b b' -> subseq (a ++ b) (a' ++ b').
Proof. intros H1 H2. induction H1; cbn [app]; [exact H2 | constructor; exact IHsubseq | constructor; exact IHsubseq]. Qed.
Lemma subseq_in {A} (l l' : list A) x : subseq l l' -> In x l -> In x l'.
Proof. intros H. induction H; intros Hx; [contradiction | right; exact (IHsubseq Hx) | destruct Hx as [<-|Hx]; [left; reflexivity | right; exact (IHsubseq Hx)]]. Qed.
Lemma subseq_nodup {A} (l l' : list A) : subseq l l' -> NoDup l' -> NoDup l.
Proof.
  intros H. induction H; intros N; [constructor | |]; inversion N as [|? ? N1 N2]; subst.
  - exact (IHsubseq N2).
  - constructor; [|exact (IHsubseq N2)]. intros Hx. apply N1. exact (subseq_in _ _ _ H Hx).
Qed.
Lemma subseq_flat_map {A B} (f g : A -> list B) l : (forall x, In x l -> subseq (f x) (g x)) -> subseq (flat_map f l) (flat_map g l).
Proof.
  induction l as [|x l IH]; intros H; cbn [flat_map]; [constructor|].
  apply subseq_app; [apply H; left; reflexivity | apply IH; intros y Hy; apply H; right; exact Hy].
Qed.

Lemma placed_stmt p : forall c0 c s, In (c, s) (place c0 p) -> In s p.
Proof.
  induction p as [|s0 p IH]; intros c0 c s H; [contradiction|].
  destruct H as [H|H]; [injection H as _ <-; left; reflexivity | right; exact (IH _ _ _ H)].
Qed.

(* the entry addresses are a subsequence of the cell addresses, which are NoDup *)
Theorem lines_injective text p : typed p = true -> wf p = true -> blkw_pos p = true ->
  NoDup (map snd (spec_lines text p)).
Proof.
  intros T W BP. apply (subseq_nodup _ (map fst (spec_cells p))); [|exact (wf_cells_nodup p T W)].
  unfold spec_lines, spec_cells. rewrite !flat_map_concat_map, !concat_map, !map_map, <- !flat_map_concat_map.
  apply subseq_flat_map. intros [c s] Hin. unfold line_entry, cells_of. cbn [fst snd].
  destruct c as [[o a]|]; [|constructor]. destruct (needs_addr s) eqn:NA; [|apply subseq_nil_l].
  cbn [map snd].
  pose proof (placed_stmt p _ _ _ Hin) as Hs. pose proof (typed_in p s T Hs) as Ts.
  pose proof (len_stmt_words (bindings p) a s Ts) as LW.
  assert (SP : 0 < size s) by (apply (size_pos s NA); unfold blkw_pos in BP; rewrite forallb_forall in BP; exact (BP s Hs)).
  destruct (stmt_words (bindings p) a s) as [|w ws]; [unfold len in LW; cbn in LW; lia|].
  cbn [cells_from map fst]. apply sub_keep. apply subseq_nil_l.
Qed.

Theorem backward_spec text p sym : typed p = true -> lines_inc text p -> wf p = true -> blkw_pos p = true ->
  pass1 p (Some text) = AOk sym ->
  forall a n, rev_lookup_line sym a = Some n <-> In (n, a) (spec_lines text p).
Proof.
  intros T LI W BP E a n. destruct (line_table text p sym T LI E) as [m [ED [LM IT]]].
  unfold rev_lookup_line. rewrite ED. cbn [ds_lines]. rewrite (lsm_find_iter m a n LM); [apply IT|].
  intros n1 n2 H1 H2. apply IT in H1, H2.
  pose proof (NoDup_map_inj snd _ _ _ (lines_injective text p T W BP) H1 H2 eq_refl) as EQ. injection EQ as ->. reflexivity.
Qed.
