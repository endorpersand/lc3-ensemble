(* WordProofs.v — the operators of model/Word.v on all 16-bit operands.  AND / NOT in bitwise form
   (65535 - d = land (lnot d) 65535), compared bit by bit.  ADD / SUB: the guards of the early returns only
   look at fully initialised operands, on which re-randomisation changes nothing ([zero_init_agree]).
   At the end: on initialised operands and on the data alone + and - are wrapping arithmetic. *)
From Coq Require Import ZArith List Bool Lia.
From Model Require Import Bits Word.
From Spec Require Import WordInit.
From Proofs Require Import BitsFacts.
Import ListNotations.
Open Scope Z_scope.

Lemma all_bits_val : ALL_BITS = 65535. Proof. reflexivity. Qed.
Lemma no_bits_val : NO_BITS = 0. Proof. reflexivity. Qed.

Lemma ones16 : 65535 = Z.ones 16. Proof. reflexivity. Qed.

Lemma land_65535 x : Z.land x 65535 = x mod 65536.
Proof. rewrite ones16, Z.land_ones by lia. reflexivity. Qed.

Lemma u16_land x : u16 x <-> Z.land x 65535 = x.
Proof.
  unfold u16. rewrite land_65535. split.
  - intros H. apply Z.mod_small. exact H.
  - intros H. rewrite <- H. apply Z.mod_pos_bound. lia.
Qed.

Lemma testbit_65535 i : 0 <= i -> Z.testbit 65535 i = (i <? 16).
Proof. intros Hi. rewrite ones16. apply Z.testbit_ones_nonneg; lia. Qed.

Lemma not16_bits d : u16 d -> not16 d = Z.land (Z.lnot d) 65535.
Proof.
  unfold u16, not16. intros H. rewrite land_65535. unfold Z.lnot.
  apply (Z.mod_unique_pos _ _ (-1)); lia.
Qed.

Lemma u16_not16 d : u16 d -> u16 (not16 d).
Proof. unfold u16, not16. lia. Qed.

Lemma word_eqb_eq a b : word_eqb a b = true -> a = b.
Proof.
  destruct a as [d1 i1], b as [d2 i2]. unfold word_eqb. cbn. intros H. apply andb_prop in H. destruct H as [H1 H2].
  apply Z.eqb_eq in H1, H2. subst. reflexivity.
Qed.

Lemma agree_bit a b i :
  agree a b -> Z.testbit (w_data a) i && Z.testbit (w_init a) i = Z.testbit (w_data b) i && Z.testbit (w_init a) i.
Proof. intros [_ H]. rewrite <- !Z.land_spec. rewrite H. reflexivity. Qed.

Lemma agree_refl a : agree a a.
Proof. split; reflexivity. Qed.

Lemma agree_full_eq a b : wf a -> wf b -> agree a b -> w_init a = 65535 -> a = b.
Proof.
  intros [Ha _] [Hb _] [Hi Hd] Hf. destruct a as [da ia], b as [db ib]. cbn [w_data w_init] in *.
  subst ia. subst ib. apply u16_land in Ha, Hb. rewrite Ha, Hb in Hd. subst db. reflexivity.
Qed.

Lemma not_sound : sound1 w_not.
Proof.
  intros l l' Hl Hl' Hag. pose proof Hag as [Hi _].
  split; [exact Hi|]. cbn [w_not w_data w_init]. fold (not16 (w_data l)) (not16 (w_data l')).
  rewrite !not16_bits by (apply Hl || apply Hl').
  apply Z.bits_inj'. intros i Hi0.
  pose proof (agree_bit l l' i Hag) as Hb.
  rewrite !Z.land_spec, !Z.lnot_spec by lia.
  destruct (Z.testbit (w_data l) i), (Z.testbit (w_data l') i), (Z.testbit (w_init l) i), (Z.testbit 65535 i);
    cbn in *; congruence.
Qed.

Lemma not_wf w : wf w -> wf (w_not w).
Proof. intros [Hd Hi]. split; [apply (u16_not16 _ Hd)|exact Hi]. Qed.

Definition and_init (l r : word) : Z :=
  Z.lor (Z.lor (Z.land (w_init l) (w_init r)) (Z.land (not16 (w_data l)) (w_init l)))
        (Z.land (not16 (w_data r)) (w_init r)).

Lemma and_init_bit l r i : wf l -> wf r -> 0 <= i ->
  Z.testbit (and_init l r) i =
  (Z.testbit (w_init l) i && Z.testbit (w_init r) i)
  || ((negb (Z.testbit (w_data l) i) && Z.testbit 65535 i) && Z.testbit (w_init l) i)
  || ((negb (Z.testbit (w_data r) i) && Z.testbit 65535 i) && Z.testbit (w_init r) i).
Proof.
  intros [Hl _] [Hr _] Hi. unfold and_init. rewrite !not16_bits by assumption.
  rewrite !Z.lor_spec, !Z.land_spec, !Z.lnot_spec by lia. reflexivity.
Qed.

(* mask and data of AND on one bit position; m is the bit of 65535 *)
Lemma and_bit_sound dl dl' il dr dr' ir m : dl && il = dl' && il -> dr && ir = dr' && ir ->
  let k x y := il && ir || (negb x && m) && il || (negb y && m) && ir in
  k dl dr = k dl' dr' /\ (dl && dr) && k dl dr = (dl' && dr') && k dl dr.
Proof. destruct dl, dl', il, dr, dr', ir, m; cbn; intros; split; congruence. Qed.

Lemma and_sound : sound2 w_and.
Proof.
  intros l l' r r' Hl Hl' Hr Hr' Hagl Hagr.
  pose proof Hagl as [Hil _]. pose proof Hagr as [Hir _].
  assert (Hbit : forall i, 0 <= i ->
    Z.testbit (and_init l r) i = Z.testbit (and_init l' r') i /\
    Z.testbit (Z.land (w_data l) (w_data r)) i && Z.testbit (and_init l r) i =
    Z.testbit (Z.land (w_data l') (w_data r')) i && Z.testbit (and_init l r) i).
  { intros i Hi0. rewrite !Z.land_spec, !and_init_bit by assumption. rewrite <- Hil, <- Hir.
    apply and_bit_sound; [exact (agree_bit l l' i Hagl) | exact (agree_bit r r' i Hagr)]. }
  split; apply Z.bits_inj'; intros i Hi0.
  - apply Hbit, Hi0.
  - rewrite !Z.land_spec. apply Hbit, Hi0.
Qed.

Lemma and_wf l r : wf l -> wf r -> wf (w_and l r).
Proof.
  intros [Hdl Hil] [Hdr Hir]. split; cbn [w_and w_data w_init].
  - apply land_lt16; assumption.
  - fold (not16 (w_data l)). repeat apply lor_lt16; apply land_lt16; try assumption; apply u16_not16; assumption.
Qed.

(* the early-return guard `data == 0 && init == ALL_BITS` *)
Definition zero_init (w : word) : bool := (w_data w =? 0) && (w_init w =? ALL_BITS).

Lemma zero_init_agree a b : wf a -> wf b -> agree a b -> zero_init a = zero_init b.
Proof.
  intros Ha Hb Hag. unfold zero_init. rewrite all_bits_val.
  destruct (w_init a =? 65535) eqn:E.
  - apply Z.eqb_eq in E. pose proof (agree_full_eq a b Ha Hb Hag E) as Heq. subst b.
    rewrite E. reflexivity.
  - destruct Hag as [Hi _]. rewrite <- Hi, E, !andb_false_r. reflexivity.
Qed.

Lemma zero_init_eq a b : wf a -> wf b -> agree a b -> zero_init a = true -> a = b.
Proof.
  intros Ha Hb Hag Hz. apply (agree_full_eq a b Ha Hb Hag).
  unfold zero_init in Hz. apply andb_true_iff in Hz. destruct Hz as [_ Hz]. apply Z.eqb_eq in Hz. exact Hz.
Qed.

(* the slow path of + and - *)
Lemma slow_sound (f : Z -> Z -> Z) l l' r r' : wf l -> wf l' -> wf r -> wf r' -> agree l l' -> agree r r' ->
  agree (mkWord (wrap16 (f (w_data l) (w_data r))) (both_init l r))
        (mkWord (wrap16 (f (w_data l') (w_data r'))) (both_init l' r')).
Proof.
  intros Hl Hl' Hr Hr' Hagl Hagr. pose proof Hagl as [Hil _]. pose proof Hagr as [Hir _].
  unfold both_init. rewrite <- Hil, <- Hir. rewrite all_bits_val.
  destruct (w_init l =? 65535) eqn:El; destruct (w_init r =? 65535) eqn:Er; cbn [andb].
  - apply Z.eqb_eq in El, Er.
    rewrite <- (agree_full_eq l l' Hl Hl' Hagl El), <- (agree_full_eq r r' Hr Hr' Hagr Er). apply agree_refl.
  - split; cbn [w_data w_init]; rewrite ?no_bits_val, ?Z.land_0_r; reflexivity.
  - split; cbn [w_data w_init]; rewrite ?no_bits_val, ?Z.land_0_r; reflexivity.
  - split; cbn [w_data w_init]; rewrite ?no_bits_val, ?Z.land_0_r; reflexivity.
Qed.

Lemma both_init_u16 l r : u16 (both_init l r).
Proof. unfold both_init, u16. destruct (_ && _); rewrite ?all_bits_val, ?no_bits_val; lia. Qed.

Lemma add_wf l r : wf l -> wf r -> wf (w_add l r).
Proof.
  intros Hl Hr. unfold w_add. destruct (_ && _); [exact Hl|]. destruct (_ && _); [exact Hr|].
  split; [apply wrap16_range|apply both_init_u16].
Qed.

Lemma sub_wf l r : wf l -> wf r -> wf (w_sub l r).
Proof.
  intros Hl Hr. unfold w_sub. destruct (_ && _); [exact Hl|].
  split; [apply wrap16_range|apply both_init_u16].
Qed.

Lemma full_new_init w : full w -> w = new_init (w_data w).
Proof. destruct w as [d i]. unfold full. cbn. intros ->. reflexivity. Qed.

Lemma w_sub_new a b : 0 <= a < 65536 -> w_sub (new_init a) (new_init b) = new_init (wrap16 (a - b)).
Proof.
  intros Ha. unfold w_sub, new_init. cbn [w_data w_init].
  destruct (Z.eqb_spec b 0) as [->|_]; [rewrite Z.sub_0_r, wrap16_small by exact Ha|]; reflexivity.
Qed.
Lemma w_add_new a b : 0 <= a < 65536 -> 0 <= b < 65536 -> w_add (new_init a) (new_init b) = new_init (wrap16 (a + b)).
Proof.
  intros Ha Hb. unfold w_add, new_init. cbn [w_data w_init].
  destruct (Z.eqb_spec b 0) as [->|_]; [rewrite Z.add_0_r, wrap16_small by exact Ha; reflexivity|].
  destruct (Z.eqb_spec a 0) as [->|_]; [rewrite Z.add_0_l, wrap16_small by exact Hb|]; reflexivity.
Qed.
Lemma w_add_zero l : w_add l (new_init 0) = l.
Proof. reflexivity. Qed.
Lemma w_add_data l r : 0 <= w_data l < 65536 -> 0 <= w_data r < 65536 ->
  w_data (w_add l r) = wrap16 (w_data l + w_data r).
Proof.
  intros Hl Hr. unfold w_add.
  destruct ((w_data r =? 0) && (w_init r =? ALL_BITS)) eqn:E1.
  - apply andb_prop in E1. destruct E1 as [E _]. apply Z.eqb_eq in E. rewrite E, Z.add_0_r. symmetry. apply wrap16_small. exact Hl.
  - destruct ((w_data l =? 0) && (w_init l =? ALL_BITS)) eqn:E2.
    + apply andb_prop in E2. destruct E2 as [E _]. apply Z.eqb_eq in E. rewrite E, Z.add_0_l. symmetry. apply wrap16_small. exact Hr.
    + reflexivity.
Qed.

Lemma w_data_sub k w : k <> 0 -> w_data (w_sub w (new_init k)) = wrap16 (w_data w - k).
Proof. intros H. unfold w_sub. cbn [new_init w_data w_init]. destruct (Z.eqb_spec k 0); [contradiction|reflexivity]. Qed.
(* the short cut of [w_add] for an initialised zero on the left gives the same data *)
Lemma w_data_add k l : 0 < k < 65536 -> w_data (w_add l (new_init k)) = wrap16 (w_data l + k).
Proof.
  intros H. unfold w_add, new_init. cbn [w_data w_init]. destruct (Z.eqb_spec k 0); [lia|]. cbn [andb].
  destruct ((w_data l =? 0) && (w_init l =? ALL_BITS)) eqn:E; [|reflexivity].
  apply andb_prop in E. destruct E as [E _]. apply Z.eqb_eq in E. rewrite E, Z.add_0_l, wrap16_small by lia. reflexivity.
Qed.

Lemma w_add_sub k w : 0 < k < 65536 -> 0 <= w_data w < 65536 ->
  w_data (w_add (w_sub w (new_init k)) (new_init k)) = w_data w.
Proof. intros Hk Hw. rewrite w_data_add, w_data_sub by lia. unfold wrap16. Z.div_mod_to_equations. lia. Qed.
Lemma w_add_sub2 w : 0 <= w_data w < 65536 -> w_data (w_add (w_sub w (new_init 2)) (new_init 2)) = w_data w.
Proof. apply w_add_sub. lia. Qed.

Lemma w_add_sub2_init d : 0 <= d < 65536 -> w_add (w_sub (new_init d) (new_init 2)) (new_init 2) = new_init d.
Proof.
  intros H. rewrite w_sub_new, w_add_new by (auto using wrap16_range; lia). f_equal.
  unfold wrap16. Z.div_mod_to_equations. lia.
Qed.
